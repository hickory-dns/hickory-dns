(* C13 — the MAC input determines the covered part of a signed message (tbs is injective up to the
   listed uncovered bits). *)
From HV Require Import Lib.Base Lib.ListX C13.Model.
From HV Require Lib.Wire.
Open Scope N_scope.

(* [f] takes [s] to the rest [r], and does the same whatever follows the part before [r] *)
Definition consumes {R} (f : bytes -> R) (s r : bytes) (k : bytes -> R) : Prop :=
  exists p, s = p ++ r /\ forall r', f (p ++ r') = k r'.

Lemma consumes_two {R} (f : bytes -> R) p0 p1 r k :
  (forall r', f (p0 ++ p1 ++ r') = k r') -> consumes f (p0 ++ p1 ++ r) r k.
Proof.
  intros H. exists (p0 ++ p1). split; [now rewrite app_assoc|]. intros r'. now rewrite <- app_assoc.
Qed.

Lemma drop_app p r : drop (length p) (p ++ r) = Some r.
Proof.
  unfold drop. rewrite app_length, (proj2 (Nat.leb_le _ _)) by lia.
  now rewrite skipn_app, skipn_all, Nat.sub_diag.
Qed.

Lemma drop_prefix n s r : drop n s = Some r -> consumes (drop n) s r Some.
Proof.
  unfold drop at 1. destruct (Nat.leb_spec n (length s)) as [L|]; [|discriminate]. intros [= <-].
  exists (firstn n s). split; [now rewrite firstn_skipn|]. intros r'.
  rewrite <- (firstn_length_le s L) at 1. apply drop_app.
Qed.

(* the fuel only has to outlast the name itself *)
Lemma skip_name_prefix : forall f s r, skip_name f s = Some r ->
  exists p, s = p ++ r /\ forall r' f', (length p <= f')%nat -> skip_name (S f') (p ++ r') = Some r'.
Proof.
  induction f as [|f IH]; intros s r H; [discriminate|]. cbn [skip_name] in H.
  destruct s as [|b s']; [discriminate|].
  destruct (b =? 0) eqn:E0.
  { injection H as <-. exists [b]. split; [reflexivity|]. intros r' f' _.
    cbn [skip_name app]. now rewrite E0. }
  destruct (192 <=? b) eqn:E1.
  { destruct s' as [|x s'']; [discriminate|]. injection H as <-. exists [b; x]. split; [reflexivity|].
    intros r' f' _. cbn [skip_name app]. now rewrite E0, E1. }
  destruct (b <? 64) eqn:E2; [|discriminate].
  destruct (drop (N.to_nat b) s') as [r0|] eqn:Ed; [|discriminate].
  destruct (drop_prefix _ _ _ Ed) as (p1 & -> & Hd).
  destruct (IH _ _ H) as (p0 & -> & Hp).
  exists (b :: p1 ++ p0). split; [cbn [app]; now rewrite app_assoc|].
  intros r' f' Hf. cbn [length] in Hf. rewrite app_length in Hf.
  destruct f' as [|f']; [inversion Hf|]. cbn [skip_name app]. rewrite E0, E1, E2, <- app_assoc, Hd.
  apply Hp. clear - Hf. lia.
Qed.

Lemma skip_name'_prefix s r : skip_name' s = Some r -> consumes skip_name' s r Some.
Proof.
  unfold skip_name' at 1. intros H. destruct (skip_name_prefix _ _ _ H) as (p & -> & Hp).
  exists p. split; [reflexivity|]. intros r'. apply Hp. rewrite app_length. lia.
Qed.

Lemma skip_query_prefix s r : skip_query s = Some r -> consumes skip_query s r Some.
Proof.
  unfold skip_query at 1. destruct (skip_name' s) as [r0|] eqn:E; [|discriminate]. intros H.
  destruct (skip_name'_prefix _ _ E) as (p0 & -> & H0).
  destruct (drop_prefix _ _ _ H) as (p1 & -> & H1).
  apply consumes_two. intros r'. unfold skip_query. now rewrite H0, H1.
Qed.

Lemma skip_queries_prefix : forall n s r, skip_queries n s = Some r -> consumes (skip_queries n) s r Some.
Proof.
  induction n as [|n IH]; intros s r H; cbn [skip_queries] in H.
  - injection H as <-. exists []. auto.
  - destruct (skip_query s) as [r0|] eqn:E; [|discriminate].
    destruct (skip_query_prefix _ _ E) as (p0 & -> & H0).
    destruct (IH _ _ H) as (p1 & -> & H1).
    apply consumes_two. intros r'. cbn [skip_queries]. now rewrite H0, H1.
Qed.

Lemma skip_rr_prefix s ty rl r : skip_rr s = Some (ty, rl, r) ->
  consumes skip_rr s r (fun r' => Some (ty, rl, r')).
Proof.
  unfold skip_rr at 1. destruct (skip_name' s) as [r0|] eqn:E; [|discriminate].
  destruct (skip_name'_prefix _ _ E) as (p0 & -> & H0). clear E.
  destruct r0 as [|t1 [|t2 [|c1 [|c2 [|l1 [|l2 [|l3 [|l4 [|d1 [|d2 r1]]]]]]]]]]; try discriminate.
  destruct (drop (N.to_nat (be16 d1 d2)) r1) as [rest|] eqn:Ed; [|discriminate].
  intros [= <- <- <-].
  destruct (drop_prefix _ _ _ Ed) as (p1 & -> & H1).
  apply (consumes_two _ p0 ([t1; t2; c1; c2; l1; l2; l3; l4; d1; d2] ++ p1)).
  intros r'. unfold skip_rr. rewrite H0, <- app_assoc. cbn [app]. now rewrite H1.
Qed.

Lemma skip_plain_prefix : forall n s r, skip_plain n s = Some r -> consumes (skip_plain n) s r Some.
Proof.
  induction n as [|n IH]; intros s r H; cbn [skip_plain] in H.
  - injection H as <-. exists []. auto.
  - destruct (skip_rr s) as [[[ty rl] r0]|] eqn:E; [|discriminate].
    destruct (skip_rr_prefix _ _ _ _ E) as (p0 & -> & H0).
    destruct ((ty =? T_OPT) || (ty =? T_SIG) || (ty =? T_TSIG)) eqn:Et; [discriminate|].
    destruct (IH _ _ H) as (p1 & -> & H1).
    apply consumes_two. intros r'. cbn [skip_plain]. now rewrite H0, Et, H1.
Qed.

Lemma skip_add_prefix : forall n seen s r fl, skip_add n seen s = Some (r, fl) ->
  consumes (skip_add n seen) s r (fun r' => Some (r', fl)).
Proof.
  induction n as [|n IH]; intros seen s r fl H; cbn [skip_add] in H.
  - injection H as <- <-. exists []. auto.
  - destruct (skip_rr s) as [[[ty rl] r0]|] eqn:E; [|discriminate].
    destruct (skip_rr_prefix _ _ _ _ E) as (p0 & -> & H0).
    destruct seen; [discriminate|].
    destruct (IH _ _ _ _ H) as (p1 & -> & H1).
    apply consumes_two. intros r'. cbn [skip_add]. now rewrite H0, H1.
Qed.

(* the three passes of signed_bitmessage_to_buf over the sections; [frame] writes them inline *)
Definition skip_body (qd ap ad : nat) (s : bytes) : option (bytes * bool) :=
  match skip_queries qd s with
  | None => None
  | Some r1 => match skip_plain ap r1 with None => None | Some r2 => skip_add ad false r2 end
  end.

Lemma skip_body_prefix qd ap ad s r fl : skip_body qd ap ad s = Some (r, fl) ->
  consumes (skip_body qd ap ad) s r (fun r' => Some (r', fl)).
Proof.
  unfold skip_body at 1. destruct (skip_queries qd s) as [r1|] eqn:E1; [|discriminate].
  destruct (skip_plain ap r1) as [r2|] eqn:E2; [|discriminate]. intros E3.
  destruct (skip_queries_prefix _ _ _ E1) as (p1 & -> & H1).
  destruct (skip_plain_prefix _ _ _ E2) as (p2 & -> & H2).
  destruct (skip_add_prefix _ _ _ _ _ E3) as (p3 & -> & H3).
  exists (p1 ++ p2 ++ p3). split; [now rewrite <- !app_assoc|]. intros r'. unfold skip_body.
  now rewrite <- !app_assoc, H1, H2, H3.
Qed.

Lemma consumed_unique {B} (f : bytes -> option (bytes * B)) p1 p2 x1 x2 b :
  (forall r', f (p1 ++ r') = Some (r', b)) -> (forall r', f (p2 ++ r') = Some (r', b)) ->
  p1 ++ x1 = p2 ++ x2 -> p1 = p2 /\ x1 = x2.
Proof.
  intros H1 H2 E. pose proof (H1 x1) as A. rewrite E, H2 in A. injection A as A.
  subst x2. apply app_inv_tail in E. auto.
Qed.

Lemma be16_lt a b : a < 256 -> b < 256 -> be16 a b < 65536.
Proof. unfold be16. lia. Qed.

Lemma at16_lt m p : bytes_ok m -> at16 m p < 65536.
Proof. intros H. unfold at16. apply be16_lt; now apply bytes_ok_nth. Qed.

Lemma at32_lt m p : bytes_ok m -> at32 m p < 4294967296.
Proof. intros H. unfold at32. pose proof (at16_lt m p H). pose proof (at16_lt m (p + 2) H). lia. Qed.

Lemma at48_lt m p : bytes_ok m -> at48 m p < 281474976710656.
Proof. intros H. unfold at48. pose proof (at16_lt m p H). pose proof (at32_lt m (p + 2) H). lia. Qed.

Definition hdr_ok (h : header) : Prop :=
  h_id h < 65536 /\ h_qd h < 65536 /\ h_an h < 65536 /\ h_ns h < 65536 /\ h_ar h < 65536.

Lemma parse_header_some (m : bytes) h rest : bytes_ok m -> parse_header m = Some (h, rest) ->
  exists hb, m = hb ++ rest /\ length hb = 12%nat /\ hdr_ok h.
Proof.
  unfold parse_header.
  destruct m as [|i1 [|i2 [|b2 [|b3 [|q1 [|q2 [|a1 [|a2 [|n1 [|n2 [|r1 [|r2 rest']]]]]]]]]]]]; try discriminate.
  intros Hb [= <- <-]. exists [i1; i2; b2; b3; q1; q2; a1; a2; n1; n2; r1; r2].
  split; [reflexivity|]. split; [reflexivity|].
  unfold bytes_ok in Hb. repeat (apply Forall_cons_iff in Hb; destruct Hb as [? Hb]).
  repeat split; apply be16_lt; assumption.
Qed.

Definition nonempty_labels (ls : list bytes) : Prop := Forall (fun l => l <> []) ls.

Lemma read_name_go_nonempty m lim : (lim <= length m)%nat ->
  forall fuel pos ns mx acc el ret ls p, nonempty_labels acc ->
  read_name_go fuel m lim pos ns mx acc el ret = Some (ls, p) -> nonempty_labels ls.
Proof.
  intros Hl. induction fuel as [|fuel IH]; intros pos ns mx acc el ret ls p Ha H; [discriminate|].
  cbn [read_name_go] in H.
  destruct (match mx with Some mx0 => (mx0 <=? pos)%nat | None => false end); [discriminate|].
  destruct (lim <=? pos)%nat; [discriminate|].
  destruct (at8 m pos =? 0) eqn:E0.
  { injection H as <- _. now apply Forall_rev. }
  destruct (192 <=? at8 m pos).
  { destruct (lim <? pos + 2)%nat; [discriminate|].
    destruct (_ <? ns)%nat; [|discriminate]. eapply IH; eauto. }
  destruct (at8 m pos <? 64); [|discriminate].
  destruct (lim <? pos + 1 + N.to_nat (at8 m pos))%nat eqn:E2; [discriminate|].
  destruct (255 <? el + N.to_nat (at8 m pos) + 1)%nat; [discriminate|].
  eapply IH; [|exact H]. constructor; [|exact Ha].
  apply N.eqb_neq in E0. apply Nat.ltb_ge in E2.
  intros Hs. apply (f_equal (@length byte)) in Hs. unfold slice in Hs.
  rewrite firstn_length, skipn_length in Hs. cbn [length] in Hs. lia.
Qed.

Lemma read_name_nonempty m lim pos ls p :
  (lim <= length m)%nat -> read_name m lim pos = Some (ls, p) -> nonempty_labels ls.
Proof. intros Hl. apply read_name_go_nonempty; [exact Hl|constructor]. Qed.

Lemma slice_len_lt m p (n : N) : n < 65536 -> N.of_nat (length (slice m p (N.to_nat n))) < 65536.
Proof. intros H. unfold slice. pose proof (firstn_le_length (N.to_nat n) (skipn p m)). lia. Qed.

Definition tsig_ok (t : tsig) : Prop :=
  nonempty_labels (t_name t) /\ nonempty_labels (t_alg t) /\
  t_time t < 281474976710656 /\ t_fudge t < 65536 /\ t_oid t < 65536 /\ t_err t < 65536 /\
  N.of_nat (length (t_other t)) < 65536.

Lemma parse_tsig_rr_ok (m : bytes) pos t e : bytes_ok m -> parse_tsig_rr m pos = TOk t e -> tsig_ok t.
Proof.
  intros Hb. unfold parse_tsig_rr. cbv zeta.
  destruct (read_name m (length m) pos) as [[kn p1]|] eqn:En; [|discriminate].
  destruct (length m <? p1 + 10)%nat; [discriminate|].
  destruct (length m <? p1 + 10 + N.to_nat (at16 m (p1 + 8)))%nat eqn:Er; [discriminate|].
  destruct (negb _ || _); [discriminate|].
  destruct (read_name m (p1 + 10 + N.to_nat (at16 m (p1 + 8))) (p1 + 10)) as [[al p2]|] eqn:Ea; [|discriminate].
  destruct (_ <? p2 + 10)%nat; [discriminate|].
  destruct (_ <? p2 + 10 + N.to_nat (at16 m (p2 + 8)) + 6)%nat; [discriminate|].
  destruct (negb _); [discriminate|].
  intros [= <- _]. unfold tsig_ok. cbn [t_name t_alg t_time t_fudge t_oid t_err t_other].
  apply Nat.ltb_ge in Er.
  split; [eapply read_name_nonempty; [|exact En]; lia|].
  split; [eapply read_name_nonempty; [|exact Ea]; lia|].
  split; [now apply at48_lt|]. split; [now apply at16_lt|]. split; [now apply at16_lt|].
  split; [now apply at16_lt|].
  apply slice_len_lt. now apply at16_lt.
Qed.

Definition framed (v : view) : Prop :=
  hdr_ok (v_hdr v) /\ h_ar (v_hdr v) <> 0 /\ tsig_ok (v_tsig v) /\
  forall r', skip_body (N.to_nat (h_qd (v_hdr v))) (N.to_nat (h_an (v_hdr v) + h_ns (v_hdr v)))
               (N.to_nat (h_ar (v_hdr v) - 1)) (v_body v ++ r') = Some (r', false).

Lemma slice_app (a p r : bytes) n k : length a = n -> length p = k -> slice (a ++ p ++ r) n k = p.
Proof.
  intros <- <-. unfold slice. rewrite skipn_app, skipn_all, Nat.sub_diag. cbn [skipn app].
  now rewrite firstn_app, firstn_all, Nat.sub_diag, app_nil_r.
Qed.

Lemma frame_framed (m : bytes) v : bytes_ok m -> frame m = FSigned v -> framed v.
Proof.
  intros B. unfold frame. destruct (parse_header m) as [[h rest]|] eqn:Eh; [|discriminate].
  destruct (parse_header_some _ _ _ B Eh) as (hb & -> & Lh & Hh).
  destruct (h_ar h =? 0) eqn:Ea.
  { destruct (skip_queries _ rest); [|discriminate]. destruct (skip_plain _ _); discriminate. }
  destruct (skip_queries (N.to_nat (h_qd h)) rest) as [r1|] eqn:E1; [|discriminate].
  destruct (skip_plain (N.to_nat (h_an h + h_ns h)) r1) as [r2|] eqn:E2; [|discriminate].
  destruct (skip_add (N.to_nat (h_ar h - 1)) false r2) as [[r3 [|]]|] eqn:E3; try discriminate.
  destruct (skip_body_prefix (N.to_nat (h_qd h)) (N.to_nat (h_an h + h_ns h)) (N.to_nat (h_ar h - 1))
              rest r3 false) as (p & -> & Hp); [unfold skip_body; now rewrite E1, E2|].
  destruct (parse_tsig_rr _ _) as [| |t e] eqn:Et; try discriminate.
  intros [= <-]. unfold framed. cbn [v_hdr v_tsig v_body].
  rewrite (slice_app hb p r3) by (rewrite ?app_length; lia).
  split; [exact Hh|]. split; [now apply N.eqb_neq|]. split; [exact (parse_tsig_rr_ok _ _ _ _ B Et)|exact Hp].
Qed.

Lemma div_mod_small a d q : d <> 0 -> a < d * q -> (a / d) mod q = a / d.
Proof. intros Hd H. apply N.mod_small. now apply N.div_lt_upper_bound. Qed.

Lemma be16_digits n : n < 65536 -> be16 ((n / 256) mod 256) (n mod 256) = n.
Proof.
  intros H. unfold be16. rewrite div_mod_small by lia.
  rewrite N.mul_comm. symmetry. apply N.div_mod. lia.
Qed.

Lemma enc48_inj a b x y :
  a < 281474976710656 -> b < 281474976710656 -> enc48 a ++ x = enc48 b ++ y -> a = b /\ x = y.
Proof.
  unfold enc48. intros Ha Hb E. rewrite <- !app_assoc in E.
  apply Wire.be16_inj in E as [Eh E]; [|apply N.mod_lt; discriminate..].
  apply Wire.be32_inj in E as [El ->]; [|apply N.mod_lt; discriminate..].
  split; [|reflexivity]. apply (div_mod_inj 4294967296); [discriminate| |exact El].
  rewrite (div_mod_small a), (div_mod_small b) in Eh by (discriminate || assumption). exact Eh.
Qed.

Lemma enc16_len n : length (enc16 n) = 2%nat. Proof. reflexivity. Qed.
Lemma enc48_len n : length (enc48 n) = 6%nat. Proof. reflexivity. Qed.
Lemma emit_header_len h : length (emit_header h) = 12%nat. Proof. reflexivity. Qed.

Lemma lower_name_nonempty ls : nonempty_labels ls -> nonempty_labels (lower_name ls).
Proof.
  unfold nonempty_labels, lower_name. intros H. apply Forall_map.
  eapply Forall_impl; [|exact H]. intros l Hl E. apply map_eq_nil in E. contradiction.
Qed.

Lemma clear_z_lt b : b < 256 -> clear_z b < 256.
Proof. unfold clear_z. destruct (N.testbit b 6); lia. Qed.

Lemma parse_header_emit h x : hdr_ok h ->
  parse_header (emit_header h ++ x) =
    Some (mkHeader (h_id h) (h_b2 h) (clear_z (h_b3 h)) (h_qd h) (h_an h) (h_ns h) (h_ar h), x).
Proof.
  intros (Hi & Hq & Han & Hns & Har). unfold emit_header, enc16. cbn [app parse_header].
  now rewrite !be16_digits.
Qed.

Lemma tsig_vars_inj t1 t2 : tsig_ok t1 -> tsig_ok t2 -> tsig_vars t1 = tsig_vars t2 ->
  lower_name (t_name t1) = lower_name (t_name t2) /\ lower_name (t_alg t1) = lower_name (t_alg t2) /\
  t_time t1 = t_time t2 /\ t_fudge t1 = t_fudge t2 /\ t_err t1 = t_err t2 /\ t_other t1 = t_other t2.
Proof.
  intros (Kn1 & Al1 & Tm1 & Fu1 & _ & Er1 & Ot1) (Kn2 & Al2 & Tm2 & Fu2 & _ & Er2 & Ot2) E.
  unfold tsig_vars in E.
  apply Wire.wire_name_inj in E as [Ek E]; [|now apply lower_name_nonempty..].
  do 2 apply app_inv_head in E.
  apply Wire.wire_name_inj in E as [Ea E]; [|now apply lower_name_nonempty..].
  apply enc48_inj in E as [Et E]; [|assumption..].
  apply Wire.be16_inj in E as [Ef E]; [|assumption..].
  apply Wire.be16_inj in E as [Ee E]; [|assumption..].
  apply Wire.be16_inj in E as [_ Eo]; [|assumption..].
  repeat split; assumption.
Qed.

Definition covered_by (first : bool) (v : view) : covered :=
  if first then covered_of v else covered_later_of v.

Lemma tbs_header_ok v : framed v -> hdr_ok (tbs_header v).
Proof.
  intros (Hh & _ & Ht & _). destruct Hh as (_ & Hq & Han & Hns & Har).
  destruct Ht as (Kn & Al & Tm & Fu & Ho & _).
  unfold hdr_ok, tbs_header. cbn [h_id h_qd h_an h_ns h_ar]. repeat split; try assumption. lia.
Qed.

Theorem tbs_framed_inj prev first v1 v2 : framed v1 -> framed v2 ->
  tbs prev first v1 = tbs prev first v2 -> covered_by first v1 = covered_by first v2.
Proof.
  intros F1 F2 E. unfold tbs in E. apply app_inv_head in E.
  apply (f_equal parse_header) in E. rewrite !parse_header_emit in E by now apply tbs_header_ok.
  injection E as Eo Eb2 Eb3 Eq Ean Ens Ear E. cbn [tbs_header v_hdr h_ar] in Ear.
  destruct F1 as (_ & A1 & T1 & S1), F2 as (_ & A2 & T2 & S2).
  (* the body is the prefix the three passes consume under the counts just read back *)
  rewrite <- Eq, <- Ean, <- Ens, <- Ear in S2.
  destruct (consumed_unique (skip_body _ _ _) _ _ _ _ _ S1 S2 E) as [Eb Ev].
  assert (Ear' : h_ar (v_hdr v1) = h_ar (v_hdr v2)) by lia.
  destruct first; cbn [covered_by].
  - apply tsig_vars_inj in Ev as (Ek & Eal & Et & Ef & Ee & Eot); [|assumption..].
    unfold covered_of. now rewrite Eo, Eb2, Eb3, Eq, Ean, Ens, Ear', Eb, Ek, Eal, Et, Ef, Ee, Eot.
  - destruct T1 as (_ & _ & Tm1 & Fu1 & _), T2 as (_ & _ & Tm2 & Fu2 & _).
    apply enc48_inj in Ev as [Et Ev]; [|assumption..].
    apply (Wire.be16_inj _ _ [] []) in Ev as [Ef _]; [|assumption..].
    unfold covered_later_of. now rewrite Eo, Eb2, Eb3, Eq, Ean, Ens, Ear', Eb, Et, Ef.
Qed.

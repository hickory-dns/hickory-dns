(* C13 — a message that differs from an accepted one in any covered part is rejected unless a MAC
   collision is exhibited; verify / client_verify never panic. *)
From HV Require Import Lib.Base C13.Model C13.AuthProofs C13.TbsProofs.
Open Scope N_scope.

Section Forge.
Variable K : Type.
Variable mac : alg -> K -> bytes -> bytes.

Lemma same_mac_same_covered prev first v v' a k a' k' :
  framed v -> framed v' ->
  t_mac (v_tsig v) = mac a k (tbs prev first v) ->
  t_mac (v_tsig v') = mac a' k' (tbs prev first v') ->
  t_mac (v_tsig v') = t_mac (v_tsig v) ->
  covered_by first v = covered_by first v' \/ mac_collision mac.
Proof.
  intros F F' M M' E.
  destruct (list_eq_dec N.eq_dec (tbs prev first v) (tbs prev first v')) as [Et|Ne].
  - left. exact (tbs_framed_inj prev first v v' F F' Et).
  - right. exists a, k, (tbs prev first v), a', k', (tbs prev first v'). split; [exact Ne|congruence].
Qed.

Lemma client_accept_mac (vf : verifier K) (r : bytes) v vf1 :
  client_verify mac true vf r = CRAccept vf1 -> frame r = FSigned v ->
  t_mac (v_tsig v) =
    mac (s_alg (vf_signer vf)) (s_key (vf_signer vf)) (tbs (Some (vf_prev vf)) (vf_remote vf =? 0) v).
Proof.
  unfold client_verify, verify. cbn [negb]. intros A F. rewrite F in A.
  destruct (verify_view mac _ v _ _) eqn:V; try discriminate. apply verify_view_ok in V. apply V.
Qed.

Lemma modified_reply (vf : verifier K) (r r' : bytes) v v' vf1 vf2 :
  bytes_ok r -> bytes_ok r' ->
  client_verify mac true vf r = CRAccept vf1 -> client_verify mac true vf r' = CRAccept vf2 ->
  frame r = FSigned v -> frame r' = FSigned v' ->
  t_mac (v_tsig v') = t_mac (v_tsig v) ->
  covered_by (vf_remote vf =? 0) v = covered_by (vf_remote vf =? 0) v' \/ mac_collision mac.
Proof.
  intros B B' A A' F F' E.
  exact (same_mac_same_covered _ _ v v' _ _ _ _ (frame_framed r v B F) (frame_framed r' v' B' F')
           (client_accept_mac vf r v vf1 A F) (client_accept_mac vf r' v' vf2 A' F') E).
Qed.

Lemma verify_no_panic deep s m prev first : verify mac deep s m prev first <> VPanic.
Proof.
  unfold verify. destruct (negb deep); [discriminate|].
  destruct (frame m); try discriminate. apply verify_view_never_panics.
Qed.

Lemma client_verify_no_panic deep vf r : client_verify mac deep vf r <> CRPanic.
Proof.
  unfold client_verify.
  destruct (verify mac deep (vf_signer vf) r (Some (vf_prev vf)) (vf_remote vf =? 0)) eqn:V;
    try discriminate.
  - exfalso. eapply verify_no_panic; eauto.
  - destruct (_ && _); discriminate.
Qed.

End Forge.

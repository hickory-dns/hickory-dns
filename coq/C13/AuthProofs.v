(* C13 — the predicates the property statements are written in (selects, valid_tsig_request,
   tsig_agrees), and proofs about the decision logic: verify_view / authorized_tsig /
   authorize_update / authorize_axfr / do_update / do_axfr, and the MAC input of a signed reply. *)
From HV Require Import Lib.Base C13.Model.
Open Scope N_scope.

Section Spec.
Variable K : Type.
Variable mac : alg -> K -> bytes -> bytes.

(* the signer a server configured with [ss] uses for key name [kn] *)
Definition selects (ss : list (signer K)) (kn : list bytes) (s : signer K) : Prop :=
  exists ss1 ss2, ss = ss1 ++ s :: ss2 /\
    lower_name (s_name s) = lower_name kn /\
    Forall (fun s' => lower_name (s_name s') <> lower_name kn) ss1.

(* "the request has one question and ends with a TSIG record naming a configured key whose
   full-length MAC verifies over the request and whose time is within fudge of the server clock" *)
Definition valid_tsig_request (ss : list (signer K)) (m : bytes) (now : N) : Prop :=
  exists v s,
    frame m = FSigned v /\
    h_qd (v_hdr v) = 1 /\
    selects ss (t_name (v_tsig v)) s /\
    t_alg (v_tsig v) = alg_labels (s_alg s) /\
    t_mac (v_tsig v) = mac (s_alg s) (s_key s) (tbs None true v) /\
    (out_len (s_alg s) <= length (t_mac (v_tsig v)))%nat /\
    (* the window start saturates at 0 (subtraction on N is truncated), as in the code *)
    t_time (v_tsig v) - t_fudge (v_tsig v) <= now < t_time (v_tsig v) + t_fudge (v_tsig v).

End Spec.
Arguments selects {K}. Arguments valid_tsig_request {K}.

Lemma labels_eqb_eq a b : labels_eqb a b = true <-> a = b.
Proof. apply list_eqb_eq. intros; apply bytes_eqb_eq. Qed.

Lemma name_eqb_eq a b : name_eqb a b = true <-> lower_name a = lower_name b.
Proof. apply labels_eqb_eq. Qed.

Lemma name_eqb_neq a b : name_eqb a b = false <-> lower_name a <> lower_name b.
Proof. rewrite <- name_eqb_eq. destruct (name_eqb a b); split; congruence. Qed.

Lemma alg_eqb_eq a b : alg_eqb a b = true <-> a = b.
Proof. destruct a, b; cbn; split; congruence. Qed.

Lemma alg_of_labels a : alg_of (alg_labels a) = Some a.
Proof. now destruct a. Qed.

Lemma alg_of_some ls a : alg_of ls = Some a -> ls = alg_labels a.
Proof.
  unfold alg_of.
  repeat (destruct (labels_eqb ls _) eqn:E; [intros [= <-]; now apply labels_eqb_eq|clear E]).
  discriminate.
Qed.

Lemma find_signer_selects K (ss : list (signer K)) kn s :
  find_signer ss kn = Some s <-> selects ss kn s.
Proof.
  unfold find_signer, selects. split.
  - induction ss as [|x ss IH]; cbn [find]; [discriminate|].
    destruct (name_eqb (s_name x) kn) eqn:En.
    + intros [= ->]. exists [], ss. repeat split; [now apply name_eqb_eq|constructor].
    + intros H. destruct (IH H) as (ss1 & ss2 & -> & Hn & Hf). exists (x :: ss1), ss2.
      repeat split; auto. constructor; [now apply name_eqb_neq|assumption].
  - intros (ss1 & ss2 & -> & Hn & Hf). induction Hf as [|y ss1 Hy _ IH]; cbn [app find].
    + now rewrite (proj2 (name_eqb_eq _ _) Hn).
    + now rewrite (proj2 (name_eqb_neq _ _) Hy).
Qed.

Lemma selects_in K (ss : list (signer K)) kn s : selects ss kn s -> In s ss.
Proof. intros (a & b & -> & _). apply in_or_app. right. now left. Qed.

Section Decide.
Variable K : Type.
Variable mac : alg -> K -> bytes -> bytes.

Lemma verify_view_ok s v prev first mc tm lo hi :
  verify_view mac s v prev first = VOk mc tm lo hi <->
  lower_name (t_name (v_tsig v)) = lower_name (s_name s) /\
  t_alg (v_tsig v) = alg_labels (s_alg s) /\
  (out_len (s_alg s) <= length (t_mac (v_tsig v)))%nat /\
  t_mac (v_tsig v) = mac (s_alg s) (s_key s) (tbs prev first v) /\
  mc = t_mac (v_tsig v) /\ tm = t_time (v_tsig v) /\
  lo = t_time (v_tsig v) - t_fudge (v_tsig v) /\ hi = t_time (v_tsig v) + t_fudge (v_tsig v).
Proof.
  unfold verify_view. split.
  - destruct (name_eqb _ _) eqn:En; [|discriminate].
    destruct (alg_of _) as [a|] eqn:Ea; [|discriminate].
    destruct (alg_eqb a _) eqn:Eq; [|discriminate].
    destruct (_ <? _)%nat eqn:El; [discriminate|].
    destruct (bytes_eqb _ _) eqn:Em; [|discriminate]. intros [= <- <- <- <-].
    apply alg_eqb_eq in Eq. subst a.
    repeat split; [now apply name_eqb_eq|now apply alg_of_some|now apply Nat.ltb_ge|now apply bytes_eqb_eq].
  - intros (Hn & Ha & Hl & Hm & -> & -> & -> & ->).
    rewrite (proj2 (name_eqb_eq _ _) Hn), Ha, alg_of_labels, (proj2 (alg_eqb_eq _ _) eq_refl), (proj2 (Nat.ltb_ge _ _) Hl).
    now rewrite (proj2 (bytes_eqb_eq _ _) Hm).
Qed.

Lemma verify_view_never_panics s v prev first : verify_view mac s v prev first <> VPanic.
Proof.
  unfold verify_view.
  destruct (negb _); [discriminate|]. destruct (alg_of _); [|discriminate].
  destruct (negb _); [discriminate|]. destruct (_ <? _)%nat; [discriminate|].
  destruct (negb _); discriminate.
Qed.

Lemma in_range_spec lo hi now : in_range lo hi now = true <-> lo <= now < hi.
Proof. unfold in_range. rewrite andb_true_iff, N.leb_le, N.ltb_lt. tauto. Qed.

Definition signed_by (ss : list (signer K)) (v : view) (now : N) (s : signer K) : Prop :=
  selects ss (t_name (v_tsig v)) s /\
  t_alg (v_tsig v) = alg_labels (s_alg s) /\
  t_mac (v_tsig v) = mac (s_alg s) (s_key s) (tbs None true v) /\
  (out_len (s_alg s) <= length (t_mac (v_tsig v)))%nat /\
  t_time (v_tsig v) - t_fudge (v_tsig v) <= now < t_time (v_tsig v) + t_fudge (v_tsig v).

Lemma valid_tsig_request_signed_by ss m now :
  valid_tsig_request mac ss m now <->
  exists v s, frame m = FSigned v /\ h_qd (v_hdr v) = 1 /\ signed_by ss v now s.
Proof. reflexivity. Qed.

Lemma signed_by_iff ss v now s :
  signed_by ss v now s <->
  find_signer ss (t_name (v_tsig v)) = Some s /\
  exists mc tm lo hi, verify_view mac s v None true = VOk mc tm lo hi /\ in_range lo hi now = true.
Proof.
  unfold signed_by. rewrite find_signer_selects. split.
  - intros (Hs & Ha & Hm & Hl & Hr). split; [exact Hs|]. do 4 eexists.
    split; [|apply in_range_spec; exact Hr].
    apply verify_view_ok. destruct Hs as (ss1 & ss2 & _ & Hn & _). now rewrite Hn.
  - intros (Hs & mc & tm & lo & hi & Hv & Hr). apply in_range_spec in Hr.
    apply verify_view_ok in Hv. destruct Hv as (Hn & Ha & Hl & Hm & Emc & Etm & -> & ->). auto.
Qed.

Definition decides (a : auth K) (P : Prop) (Q : rctx K -> Prop) : Prop :=
  match a with
  | AAllow cx => P /\ Q cx
  | AReject rc _ => ~ P /\ (rc = RRefused \/ rc = RNotAuth)
  | APanic => False
  end.

Lemma decides_allow a P Q : decides a P Q -> (exists cx, a = AAllow cx) <-> P.
Proof.
  destruct a as [|rc cx|cx]; cbn [decides]; intros D; [destruct D| |].
  - split; [intros (? & ?); discriminate|intros H; now destruct D].
  - split; [intros _; apply D|eauto].
Qed.

Lemma decides_iff_impl a P P' (Q Q' : rctx K -> Prop) :
  (P <-> P') -> (forall cx, Q cx -> Q' cx) -> decides a P Q -> decides a P' Q'.
Proof.
  intros HP HQ. destruct a as [|rc cx|cx]; cbn [decides]; [auto|tauto|].
  intros (H & q). split; [tauto|auto].
Qed.

Lemma authorized_tsig_decides ss v now :
  decides (authorized_tsig mac ss v now) (exists s, signed_by ss v now s)
    (fun cx => exists s, signed_by ss v now s /\ cx = CSigned s (t_mac (v_tsig v)) 0).
Proof.
  unfold authorized_tsig. destruct (find_signer ss _) as [s|] eqn:Ef;
    [destruct (verify_view mac s v None true) as [| | | | |mc tm lo hi] eqn:Ev;
       [..|destruct (in_range lo hi now) eqn:Er]|].
  (* the rejecting branches: by signed_by_iff a signer of [v] is the one found, is answered VOk and
     has the clock in its window *)
  all: try (split; [|auto]; intros (s' & Hs); apply signed_by_iff in Hs;
            destruct Hs as (Hf & mc' & tm' & lo' & hi' & Hv & Hr); congruence).
  - exact (verify_view_never_panics _ _ _ _ Ev).
  - assert (Hs : signed_by ss v now s)
      by (apply signed_by_iff; split; [exact Ef|exists mc, tm, lo, hi; auto]).
    split; eauto.
Qed.

Lemma parse_request_cases deep m :
  match parse_request deep m with
  | QSigned v => deep = true /\ frame m = FSigned v /\ h_qd (v_hdr v) = 1
  | _ => forall v, deep = true -> frame m = FSigned v -> h_qd (v_hdr v) <> 1
  end.
Proof.
  unfold parse_request. destruct deep; cbn [negb]; [|discriminate].
  destruct (frame m) as [|h|v]; [discriminate|destruct (_ =? 1); discriminate|].
  destruct (h_qd (v_hdr v) =? 1) eqn:Eq.
  - apply N.eqb_eq in Eq. auto.
  - intros v' _ [= <-]. now apply N.eqb_neq.
Qed.

Definition signed_ctx ss m now (cx : rctx K) : Prop :=
  exists v s, frame m = FSigned v /\ signed_by ss v now s /\ cx = CSigned s (t_mac (v_tsig v)) 0.

Definition signed_ok ss deep m now : Prop := deep = true /\ valid_tsig_request mac ss m now.
Definition update_ok c deep m now : Prop := allow_update c = true /\ signed_ok (signers c) deep m now.
Definition axfr_ok c deep m now : Prop :=
  axfr c = AllowAll \/ (axfr c = AllowSigned /\ signed_ok (signers c) deep m now).

(* the signed-only branch the model writes out in both authorize_update and authorize_axfr; their
   unfoldings meet this one by conversion *)
Definition authorize_signed (ss : list (signer K)) (r : req) (now : N) : auth K :=
  match r with
  | QSigned v => authorized_tsig mac ss v now
  | _ => AReject RRefused CNone
  end.

Lemma authorize_signed_decides ss deep m now :
  decides (authorize_signed ss (parse_request deep m) now) (signed_ok ss deep m now) (signed_ctx ss m now).
Proof.
  unfold signed_ok. pose proof (parse_request_cases deep m) as C.
  destruct (parse_request deep m) as [| |v]; cbn [authorize_signed];
    [split; [intros (D & v & s & Hf & Hq & _); exact (C v D Hf Hq)|auto]..|].
  destruct C as (-> & Hf & Hq). eapply decides_iff_impl; [| |apply authorized_tsig_decides].
  - rewrite valid_tsig_request_signed_by. split.
    + intros (s & Hs). split; [reflexivity|]. exists v, s. auto.
    + intros (_ & v' & s & Hf' & _ & Hs). rewrite Hf in Hf'. injection Hf' as <-. eauto.
  - intros cx (s & Hs & ->). exists v, s. auto.
Qed.

Lemma authorize_update_decides c deep m now :
  decides (authorize_update mac c (parse_request deep m) now) (update_ok c deep m now) (signed_ctx (signers c) m now).
Proof.
  unfold authorize_update, update_ok. destruct (allow_update c); cbn [negb].
  - eapply decides_iff_impl; [| |apply authorize_signed_decides]; [tauto|auto].
  - split; [|auto]. now intros (? & _).
Qed.

Lemma authorize_axfr_decides c deep m now :
  decides (authorize_axfr mac c (parse_request deep m) now) (axfr_ok c deep m now) (fun _ => True).
Proof.
  unfold authorize_axfr, axfr_ok. destruct (axfr c).
  - split; [|auto]. now intros [?|(? & _)].
  - split; [now left|exact I].
  - eapply decides_iff_impl; [| |apply authorize_signed_decides]; [|auto].
    split; [auto|]. now intros [?|(_ & ?)].
Qed.

Variable Zone : Type.
Variable apply_update : bytes -> Zone -> Zone * N.

Lemma rcode_num_reject rc : rc = RRefused \/ rc = RNotAuth -> rcode_num rc = 5 \/ rcode_num rc = 9.
Proof. intros [-> | ->]; auto. Qed.

Lemma do_update_cases c deep m now z o : do_update mac Zone apply_update c deep m now z = o ->
  match o with
  | OPanic => False
  | ODropped => ~ update_ok c deep m now
  | ODone z' rc cx d =>
      d = false /\
      ((~ update_ok c deep m now /\ z' = z /\ (rc = 5 \/ rc = 9)) \/
       (update_ok c deep m now /\ (z', rc) = apply_update m z /\ signed_ctx (signers c) m now cx))
  end.
Proof.
  intros <-. unfold do_update. pose proof (authorize_update_decides c deep m now) as D.
  pose proof (parse_request_cases deep m) as C. destruct (parse_request deep m) as [| |v].
  { intros (_ & E & v & s & Hf & Hq & _). exact (C v E Hf Hq). }
  all: destruct (authorize_update mac c _ now) as [|rc cx|cx];
    [ exact D
    | destruct D as (V & Q); split; [reflexivity|left; auto using rcode_num_reject]
    | destruct D as (V & Q); destruct (apply_update m z) as [z' rc];
      split; [reflexivity|right; auto] ].
Qed.

Lemma do_axfr_cases c deep m now z o : do_axfr mac Zone c deep m now z = o ->
  match o with
  | OPanic => False
  | ODropped => True
  | ODone z' rc cx d =>
      z' = z /\ ((~ axfr_ok c deep m now /\ d = false /\ (rc = 5 \/ rc = 9)) \/
                 (axfr_ok c deep m now /\ d = true /\ rc = 0))
  end.
Proof.
  intros <-. unfold do_axfr. pose proof (authorize_axfr_decides c deep m now) as D.
  destruct (parse_request deep m) as [| |v]; [exact I| |].
  all: destruct (authorize_axfr mac c _ now) as [|rc cx|cx]; [exact D| |]; destruct D as (V & Q).
  all: split; [reflexivity|auto using rcode_num_reject].
Qed.

End Decide.

(* names up to case: the owner name may have been compressed against a name of different case *)
Definition tsig_agrees (t t' : tsig) : Prop :=
  lower_name (t_name t) = lower_name (t_name t') /\ t_alg t = t_alg t' /\ t_time t = t_time t' /\
  t_fudge t = t_fudge t' /\ t_mac t = t_mac t' /\ t_oid t = t_oid t' /\ t_err t = t_err t' /\
  t_other t = t_other t'.

Lemma tsig_vars_agrees t t' : tsig_agrees t t' -> tsig_vars t = tsig_vars t'.
Proof.
  intros (Hn & Ha & Ht & Hf & _ & _ & He & Ho). unfold tsig_vars.
  now rewrite Hn, Ha, Ht, Hf, He, Ho.
Qed.

Lemma reply_tbs_eq rv reqmac st :
  t_oid (v_tsig rv) = h_id (v_hdr rv) -> tsig_vars st = tsig_vars (v_tsig rv) ->
  tbs (Some reqmac) true rv = resp_tbs reqmac (unsigned_of rv) st.
Proof.
  intros Ho Hv. unfold tbs, resp_tbs, unsigned_of, prev_part, tbs_header.
  rewrite Ho, Hv. now rewrite <- !app_assoc.
Qed.

Lemma signed_reply_verifies K (mac : alg -> K -> bytes -> bytes) (s cs : signer K) reqmac err now rv t :
  sign_ctx mac (CSigned s reqmac err) (h_id (v_hdr rv)) now (unsigned_of rv) = Some t ->
  tsig_agrees t (v_tsig rv) ->
  lower_name (s_name cs) = lower_name (s_name s) -> s_alg cs = s_alg s -> s_key cs = s_key s ->
  (out_len (s_alg s) <= length (t_mac t))%nat ->
  verify_view mac cs rv (Some reqmac) true = VOk (t_mac t) now (now - s_fudge s) (now + s_fudge s).
Proof.
  intros [= <-] Hag Hn Ha Hk Hl.
  (* set_mac leaves the TSIG variables alone *)
  pose proof (tsig_vars_agrees _ _ Hag) as Hvars.
  change (tsig_vars (set_mac ?t _)) with (tsig_vars t) in Hvars.
  destruct Hag as (Gname & Galg & Gtime & Gfudge & Gmac & Goid & _).
  cbn [set_mac stub t_name t_alg t_time t_fudge t_mac t_oid] in *.
  apply verify_view_ok. rewrite <- Gtime, <- Gfudge, <- Gmac, <- Gname, <- Galg, Hn, Ha, Hk.
  repeat split; auto.
  f_equal. symmetry. apply reply_tbs_eq; [congruence|exact Hvars].
Qed.

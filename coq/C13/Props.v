(* C13 — property theorems.  [K], [mac] (the MAC function), [Zone] and [apply_update] (what an
   authorised update does: C12's subject) are universally quantified; no injectivity of [mac] is
   assumed anywhere — where it matters the conclusion offers an explicit MAC collision as the only
   alternative. *)
From Coq Require Import String.
From HV Require Import Lib.Hex Lib.Base Lib.ListX C13.Model C13.AuthProofs C13.TbsProofs C13.ForgeProofs.
Open Scope N_scope.

(* An UPDATE is authorised iff updates are enabled and the request decodes, ends with a TSIG
   record naming a configured key (first signer of that name, ASCII case ignored), carries that
   key's algorithm, a MAC of full length equal to the key's MAC over the reconstructed input, and
   time - fudge <= now < time + fudge, where the start saturates at 0 (truncated subtraction on N =
   u64 saturating_sub, fix 1bb1e89). *)
Theorem C13_update_authorized_iff :
  forall K (mac : alg -> K -> bytes -> bytes) c deep m now,
  (exists cx, authorize_update mac c (parse_request deep m) now = AAllow cx) <->
  allow_update c = true /\ deep = true /\ valid_tsig_request mac (signers c) m now.
Proof.
  intros. exact (decides_allow K _ (update_ok K mac c deep m now) _ (authorize_update_decides K mac c deep m now)).
Qed.
Print Assumptions C13_update_authorized_iff.

(* A transfer is authorised iff the policy is allow-all, or it is signed-only and the request is a
   valid, timely TSIG request.  (Deny: never.) *)
Theorem C13_axfr_authorized_iff :
  forall K (mac : alg -> K -> bytes -> bytes) c deep m now,
  (exists cx, authorize_axfr mac c (parse_request deep m) now = AAllow cx) <->
  axfr c = AllowAll \/
  (axfr c = AllowSigned /\ deep = true /\ valid_tsig_request mac (signers c) m now).
Proof.
  intros. exact (decides_allow K _ (axfr_ok K mac c deep m now) _ (authorize_axfr_decides K mac c deep m now)).
Qed.
Print Assumptions C13_axfr_authorized_iff.

(* Whatever an authorised update does, a zone change (or zone data in the reply) implies a valid,
   timely TSIG request. *)
Theorem C13_update_effect_implies_valid :
  forall K (mac : alg -> K -> bytes -> bytes) Zone (apply_update : bytes -> Zone -> Zone * N)
         c deep m now z z' rc cx d,
  do_update mac Zone apply_update c deep m now z = ODone z' rc cx d ->
  z' <> z \/ d = true ->
  allow_update c = true /\ deep = true /\ valid_tsig_request mac (signers c) m now.
Proof.
  intros K mac Zone ap c deep m now z z' rc cx d H E.
  apply do_update_cases in H as (-> & [(_ & -> & _)|(V & _)]); [|exact V].
  destruct E; [contradiction|discriminate].
Qed.
Print Assumptions C13_update_effect_implies_valid.

(* Every request that is not a valid, timely TSIG request (unsigned, unknown key, wrong algorithm,
   MAC wrong or truncated, stale) leaves the zone as it was, returns no zone data, and is answered
   REFUSED (5) or NOTAUTH (9) — unless it is dropped undecoded (no handler runs). *)
Theorem C13_rejected_changes_nothing :
  forall K (mac : alg -> K -> bytes -> bytes) Zone (apply_update : bytes -> Zone -> Zone * N)
         c deep m now z z' rc cx d,
  ~ (allow_update c = true /\ deep = true /\ valid_tsig_request mac (signers c) m now) ->
  do_update mac Zone apply_update c deep m now z = ODone z' rc cx d ->
  z' = z /\ d = false /\ (rc = 5 \/ rc = 9).
Proof.
  intros K mac Zone ap c deep m now z z' rc cx d NV H.
  apply do_update_cases in H as (-> & [(_ & -> & Hr)|(V & _)]); [auto|contradiction].
Qed.
Print Assumptions C13_rejected_changes_nothing.

(* A transfer never changes the zone; zone data is returned only under allow-all, or under
   signed-only to a valid, timely TSIG request; every other request gets REFUSED / NOTAUTH. *)
Theorem C13_axfr_data_implies_policy_or_valid :
  forall K (mac : alg -> K -> bytes -> bytes) Zone c deep m now (z z' : Zone) rc cx d,
  do_axfr mac Zone c deep m now z = ODone z' rc cx d ->
  z' = z /\
  (d = true -> axfr c = AllowAll \/
               (axfr c = AllowSigned /\ deep = true /\ valid_tsig_request mac (signers c) m now)) /\
  (d = false -> rc = 5 \/ rc = 9).
Proof.
  intros K mac Zone c deep m now z z' rc cx d H.
  apply do_axfr_cases in H as (-> & [(_ & -> & Hr)|(A & -> & _)]); repeat split; auto; discriminate.
Qed.
Print Assumptions C13_axfr_data_implies_policy_or_valid.

(* Completeness: a valid, timely request is handed to the update machinery and its reply is signed
   by the selected key over the request MAC (CSigned .. 0). *)
Theorem C13_valid_request_served :
  forall K (mac : alg -> K -> bytes -> bytes) Zone (apply_update : bytes -> Zone -> Zone * N) c m now z,
  allow_update c = true -> valid_tsig_request mac (signers c) m now ->
  exists s reqmac,
    do_update mac Zone apply_update c true m now z =
      ODone (fst (apply_update m z)) (snd (apply_update m z)) (CSigned s reqmac 0) false.
Proof.
  intros K mac Zone ap c m now z Hu Hv.
  assert (V : update_ok K mac c true m now) by (repeat split; assumption).
  destruct (do_update mac Zone ap c true m now z) as [| |z' rc cx d] eqn:C; apply do_update_cases in C;
    [destruct C|contradiction|].
  destruct C as (-> & [(NV & _)|(_ & Eu & v & s & _ & _ & ->)]); [contradiction|].
  exists s, (t_mac (v_tsig v)). now rewrite <- Eu.
Qed.
Print Assumptions C13_valid_request_served.

(* Two signed messages with the same MAC input agree on everything in [covered]: flags other than
   Z, all four counts, every byte between the header and the TSIG record, key name and algorithm
   name up to ASCII case, time, fudge, original id, error, other data.  (Listed as uncovered in
   Model.v: header id, Z bit, TSIG class/TTL, name case/compression, the MAC field, trailing bytes.) *)
Theorem C13_tbs_injective :
  forall prev (m1 m2 : bytes) v1 v2,
  bytes_ok m1 -> bytes_ok m2 -> frame m1 = FSigned v1 -> frame m2 = FSigned v2 ->
  tbs prev true v1 = tbs prev true v2 -> covered_of v1 = covered_of v2.
Proof.
  intros prev m1 m2 v1 v2 B1 B2 F1 F2.
  exact (tbs_framed_inj prev true v1 v2 (frame_framed m1 v1 B1 F1) (frame_framed m2 v2 B2 F2)).
Qed.
Print Assumptions C13_tbs_injective.

(* A request that reuses the MAC of an accepted request (any server configurations, any clocks) is
   accepted only if it agrees with it on every covered part — or a MAC collision is exhibited. *)
Theorem C13_modified_request_rejected :
  forall K (mac : alg -> K -> bytes -> bytes) (ss ss' : list (signer K)) (m m' : bytes) now now' v v',
  bytes_ok m -> bytes_ok m' ->
  valid_tsig_request mac ss m now -> valid_tsig_request mac ss' m' now' ->
  frame m = FSigned v -> frame m' = FSigned v' ->
  t_mac (v_tsig v') = t_mac (v_tsig v) ->
  covered_of v = covered_of v' \/ mac_collision mac.
Proof.
  intros K mac ss ss' m m' now now' v v' B B'.
  intros (v0 & s & F0 & Q & S & A & M & _) (v0' & s' & F0' & Q' & S' & A' & M' & _) F F' E.
  assert (v0 = v) by congruence. assert (v0' = v') by congruence. subst.
  exact (same_mac_same_covered K mac None true v v' _ _ _ _
           (frame_framed m v B F) (frame_framed m' v' B' F') M M' E).
Qed.
Print Assumptions C13_modified_request_rejected.

(* The reply signed by TSigResponseContext::sign for an accepted request is accepted by the
   client's verifier: [rv] is the reply as framed by the client, whose TSIG record carries the fields
   the server attached (tsig_agrees: owner name up to case — wire encoding/decoding of the record is
   C02/C03's subject), the client holds the same key, and its request time lies in the reply's
   window now - fudge <= T < now + fudge (start saturating at 0).  The first hypothesis: HMAC output
   has the algorithm's length. *)
Theorem C13_reply_roundtrip :
  forall K (mac : alg -> K -> bytes -> bytes),
  (forall a k d, length (mac a k d) = out_len a) ->
  forall (s cs : signer K) reqmac err rid now r rv t reqtime,
  frame r = FSigned rv ->
  h_id (v_hdr rv) = rid ->
  sign_ctx mac (CSigned s reqmac err) rid now (unsigned_of rv) = Some t ->
  tsig_agrees t (v_tsig rv) ->
  lower_name (s_name cs) = lower_name (s_name s) -> s_alg cs = s_alg s -> s_key cs = s_key s ->
  now - s_fudge s <= reqtime < now + s_fudge s ->
  client_verify mac true (mkVerifier cs reqmac 0 reqtime) r =
    CRAccept (mkVerifier cs (t_mac t) now reqtime).
Proof.
  intros K mac mac_len s cs reqmac err rid now r rv t reqtime Hframe <- Hs Hag Hn Ha Hk Hr.
  assert (Hl : (out_len (s_alg s) <= length (t_mac t))%nat).
  { injection Hs as <-. cbn [set_mac t_mac]. rewrite mac_len. apply le_n. }
  unfold client_verify, verify. cbn [negb vf_signer vf_prev vf_remote vf_reqtime]. rewrite Hframe.
  change (0 =? 0) with true.
  rewrite (signed_reply_verifies K mac s cs reqmac err now rv t Hs Hag Hn Ha Hk Hl).
  now rewrite (proj2 (in_range_spec _ _ _) Hr), (proj2 (N.leb_le 0 now)) by lia.
Qed.
Print Assumptions C13_reply_roundtrip.

(* A reply that reuses the MAC of an accepted reply is accepted by the same verifier only if it
   agrees with it on every covered part, or a MAC collision is exhibited.  First message of a reply
   (remote_time = 0): the full TSIG variables are covered. *)
Theorem C13_modified_reply_rejected :
  forall K (mac : alg -> K -> bytes -> bytes) (vf : verifier K) (r r' : bytes) v v' vf1 vf2,
  vf_remote vf = 0 -> bytes_ok r -> bytes_ok r' ->
  client_verify mac true vf r = CRAccept vf1 -> client_verify mac true vf r' = CRAccept vf2 ->
  frame r = FSigned v -> frame r' = FSigned v' ->
  t_mac (v_tsig v') = t_mac (v_tsig v) ->
  covered_of v = covered_of v' \/ mac_collision mac.
Proof.
  intros K mac vf r r' v v' vf1 vf2 R0 B B' A A' F F' E.
  pose proof (modified_reply K mac vf r r' v v' vf1 vf2 B B' A A' F F' E) as H.
  rewrite R0 in H. exact H.
Qed.
Print Assumptions C13_modified_reply_rejected.

(* Later messages of a multi-message reply (remote_time <> 0, first_message = false): header, counts,
   body, original id, time and fudge are covered (key name, algorithm, error and other data of the
   record are, by RFC 8945 5.3.1, not). *)
Theorem C13_modified_later_reply_rejected :
  forall K (mac : alg -> K -> bytes -> bytes) (vf : verifier K) (r r' : bytes) v v' vf1 vf2,
  vf_remote vf <> 0 -> bytes_ok r -> bytes_ok r' ->
  client_verify mac true vf r = CRAccept vf1 -> client_verify mac true vf r' = CRAccept vf2 ->
  frame r = FSigned v -> frame r' = FSigned v' ->
  t_mac (v_tsig v') = t_mac (v_tsig v) ->
  covered_later_of v = covered_later_of v' \/ mac_collision mac.
Proof.
  intros K mac vf r r' v v' vf1 vf2 R0 B B' A A' F F' E.
  pose proof (modified_reply K mac vf r r' v v' vf1 vf2 B B' A A' F F' E) as H.
  apply N.eqb_neq in R0. rewrite R0 in H. exact H.
Qed.
Print Assumptions C13_modified_later_reply_rejected.

(* With the repairs 1bb1e89 (window start saturates) and 4e36f86 (counts added in usize; a
   misplaced TSIG record is an error) no byte string, configuration, clock or MAC function makes
   the request path panic: OPanic is never the outcome. *)
Theorem C13_no_panic :
  forall K (mac : alg -> K -> bytes -> bytes) Zone (apply_update : bytes -> Zone -> Zone * N) c deep m now z,
  do_update mac Zone apply_update c deep m now z <> OPanic /\
  do_axfr mac Zone c deep m now z <> OPanic.
Proof.
  intros K mac Zone ap c deep m now z. split; intros H.
  - exact (do_update_cases K mac Zone ap c deep m now z _ H).
  - exact (do_axfr_cases K mac Zone c deep m now z _ H).
Qed.
Print Assumptions C13_no_panic.

(* verify_message_byte and TSigVerifier::verify never panic, for any bytes and any verifier state. *)
Theorem C13_client_no_panic :
  forall K (mac : alg -> K -> bytes -> bytes) deep (s : signer K) (vf : verifier K) r prev first,
  verify mac deep s r prev first <> VPanic /\ client_verify mac deep vf r <> CRPanic.
Proof.
  intros. split; [apply (verify_no_panic K mac)|apply (client_verify_no_panic K mac)].
Qed.
Print Assumptions C13_client_no_panic.

Section Examples.

Definition lbl_key : list bytes := [unhex "7570646174652d6b6579"%string; unhex "6578616d706c65"%string; unhex "636f6d"%string].
Definition s0 : signer unit := mkSigner lbl_key Sha256 tt 300.
Definition cfg0 : config unit := mkConfig true AllowSigned [s0].

(* taken from a run of the harness against the real implementation: a pristine signed UPDATE
   (key update-key.example.com., HMAC-SHA256, T=1700000248), the MAC input the server reconstructed,
   the two real HMAC values, and the server's signed reply (server clock 1700000244) *)
Definition m_ok : bytes := unhex "61f828000001000000010001076578616d706c6503636f6d0000060001056e65773130c00c000100010000007800040a01cf450a7570646174652d6b6579076578616d706c6503636f6d0000fa00ff00000000003d0b686d61632d7368613235360000006553f1f8012c002090ccd857f5e642c633800ab9d3baea2bb0423198ff5f8b9fba1a61493317573661f800000000"%string.
Definition tbs_ok : bytes := unhex "61f828000001000000010000076578616d706c6503636f6d0000060001056e65773130c00c000100010000007800040a01cf450a7570646174652d6b6579076578616d706c6503636f6d0000ff000000000b686d61632d7368613235360000006553f1f8012c00000000"%string.
Definition mac_req : bytes := unhex "90ccd857f5e642c633800ab9d3baea2bb0423198ff5f8b9fba1a614933175736"%string.
Definition mac_rep : bytes := unhex "dedc039c3c3799ced73c14db03f1da8c5f7f2d657ca03895af2e3dd95e36d1df"%string.
Definition reply_ok : bytes := unhex "61f8a8000001000000000001076578616d706c6503636f6d00000600010a7570646174652d6b6579076578616d706c6503636f6d0000fa00ff00000000003d0b686d61632d7368613235360000006553f1f4012c0020dedc039c3c3799ced73c14db03f1da8c5f7f2d657ca03895af2e3dd95e36d1df61f800000000"%string.
(* the real HMAC-SHA256 values: mac_req on tbs_ok, and mac_rep (real on the reply's MAC input) on
   every other input *)
Definition mac1 (_ : alg) (_ : unit) (d : bytes) : bytes := if bytes_eqb d tbs_ok then mac_req else mac_rep.

(* the same request with the Z bit set: a different message with the same MAC input *)
Definition m_z : bytes := firstn 3 m_ok ++ [64] ++ skipn 4 m_ok.

Lemma served_valid m now :
  do_update mac1 nat (fun _ z => (S z, 0)) cfg0 true m now O = ODone 1%nat 0 (CSigned s0 mac_req 0) false ->
  valid_tsig_request mac1 [s0] m now.
Proof.
  intros D. destruct (C13_update_effect_implies_valid _ _ _ _ _ _ _ _ _ _ _ _ _ D) as (_ & _ & V);
    [left; discriminate|exact V].
Qed.

(* the runs on the real request, in one evaluation *)
Lemma m_ok_runs :
  do_update mac1 nat (fun _ z => (S z, 0)) cfg0 true m_ok 1700000244 O =
    ODone 1%nat 0 (CSigned s0 mac_req 0) false /\
  do_update mac1 nat (fun _ z => (S z, 0)) cfg0 true m_ok (1700000248 + 300) O =
    ODone O 9 (CSigned s0 mac_req 18) false /\
  (match frame m_ok with FSigned v => tbs None true v = tbs_ok | _ => False end).
Proof. vm_compute. repeat split; reflexivity. Qed.

(* hypotheses of C13_update_effect_implies_valid / C13_valid_request_served are satisfiable: the
   model accepts the real request, the update machinery runs *)
Example C13_valid_request_example :
  valid_tsig_request mac1 [s0] m_ok 1700000244 /\
  do_update mac1 nat (fun _ z => (S z, 0)) cfg0 true m_ok 1700000244 O =
    ODone 1%nat 0 (CSigned s0 mac_req 0) false /\
  (* the MAC input the model reconstructs is the one the implementation reconstructed *)
  (match frame m_ok with FSigned v => tbs None true v = tbs_ok | _ => False end).
Proof.
  destruct m_ok_runs as (D & _ & T).
  split; [exact (served_valid _ _ D)|split; [exact D|exact T]].
Qed.

(* hypotheses of C13_rejected_changes_nothing: the same request at the first instant outside the
   window (now = T + fudge) is not valid and is answered NOTAUTH with a signed BADTIME *)
Example C13_stale_request_example :
  ~ valid_tsig_request mac1 [s0] m_ok (1700000248 + 300) /\
  do_update mac1 nat (fun _ z => (S z, 0)) cfg0 true m_ok (1700000248 + 300) O =
    ODone O 9 (CSigned s0 mac_req 18) false.
Proof.
  destruct m_ok_runs as (_ & D & _). split; [|exact D]. intros V.
  (* a valid request would have been served *)
  destruct (C13_valid_request_served _ mac1 nat (fun _ z => (S z, 0)) cfg0 m_ok _ O eq_refl V)
    as (s & mc & D').
  rewrite D in D'. discriminate.
Qed.

(* hypotheses of C13_tbs_injective / C13_modified_request_rejected with two DIFFERENT messages:
   the Z bit is outside the MAC input (known finding C13-F7-uncovered-bits) *)
Example C13_uncovered_z_bit_example :
  m_z <> m_ok /\ bytes_ok m_ok /\ bytes_ok m_z /\
  valid_tsig_request mac1 [s0] m_z 1700000244 /\
  (match frame m_ok, frame m_z with
   | FSigned v, FSigned v' =>
       tbs None true v = tbs None true v' /\ t_mac (v_tsig v') = t_mac (v_tsig v) /\
       covered_of v = covered_of v'
   | _, _ => False end).
Proof.
  assert (B : forallb byteb m_ok && forallb byteb m_z = true) by (vm_compute; reflexivity).
  apply andb_prop in B as [B B'].
  split; [|split; [|split]].
  - intros E. apply (f_equal (fun m => nth 3 m 0)) in E. vm_compute in E. discriminate.
  - exact (forallb_Forall_impl _ _ _ (fun x => proj1 (N.ltb_lt x 256)) B).
  - exact (forallb_Forall_impl _ _ _ (fun x => proj1 (N.ltb_lt x 256)) B').
  - split; [apply served_valid; vm_compute; reflexivity|]. vm_compute. auto.
Qed.

(* hypotheses of C13_reply_roundtrip / C13_modified_reply_rejected: the real reply is
   accepted by the model's client verifier holding the request MAC and the request time *)
Example C13_reply_example :
  client_verify mac1 true (mkVerifier s0 mac_req 0 1700000248) reply_ok =
    CRAccept (mkVerifier s0 mac_rep 1700000244 1700000248) /\
  (match frame reply_ok with
   | FSigned rv =>
       match sign_ctx mac1 (CSigned s0 mac_req 0) 25080 1700000244 (unsigned_of rv) with
       | Some t => tsig_agrees t (v_tsig rv) /\ h_id (v_hdr rv) = 25080
       | None => False end
   | _ => False end).
Proof. vm_compute. repeat split; reflexivity. Qed.

(* The former panic witnesses (known findings C13-F7-time-underflow, C13-client-count-overflow,
   C13-client-double-tsig, all repaired), as the repaired code treats them: *)

(* key update-key.example.com., time 292 < fudge 300, correct HMAC-SHA256, server clock 292: the
   window is [0, 592) and the request is served *)
Definition m_uf : bytes := unhex "ea0328000001000000020001076578616d706c6503636f6d0000060001046e657737c00c000100010000007800040a01ef29056e65773732c00c000100010000007800040a018ef70a7570646174652d6b6579076578616d706c6503636f6d0000fa00ff00000000003d0b686d61632d73686132353600000000000124012c00203d4dc04eb6f86e369bd4c2cc24a485a23e122a1fdabc02017dd9c0e96aa5e8cbea0300000000"%string.
Definition mac2 (_ : alg) (_ : unit) (_ : bytes) : bytes :=
  unhex "3d4dc04eb6f86e369bd4c2cc24a485a23e122a1fdabc02017dd9c0e96aa5e8cb"%string.

Example C13_small_time_example :
  do_update mac2 nat (fun _ z => (S z, 0)) cfg0 true m_uf 292 O = ODone 1%nat 0 (CSigned s0 (mac2 Sha256 tt []) 0) false /\
  do_update mac2 nat (fun _ z => (S z, 0)) cfg0 true m_uf 592 O = ODone O 9 (CSigned s0 (mac2 Sha256 tt []) 18) false.
Proof. vm_compute. split; reflexivity. Qed.

(* a count-edited request (ANCOUNT=0xffff, NSCOUNT=2), and the real reply with its TSIG record
   appended a second time (ARCOUNT=2): decoding errors *)
Definition m_cnt : bytes := unhex "cf7328000001ffff00020001076578616d706c6503636f6d0000060001046e657737c00c000100010000007800040a01e8ae056e65773533c00c000100010000007800040a01bd620a7570646174652d6b6579076578616d706c6503636f6d0000fa00ff00000000003d0b686d61632d7368613235360000006553f19e012c00209e6616161962ec10fcc1137ecf38b9679eb924d0f3481b296c3b87193fd87ce1cf7300000000"%string.
Definition reply_twice : bytes :=
  firstn 11 reply_ok ++ [2] ++ skipn 12 reply_ok ++ skipn 29 reply_ok.

Example C13_misframed_example :
  frame m_cnt = FErr /\ frame reply_twice = FErr /\
  client_verify mac1 true (mkVerifier s0 mac_req 0 1700000248) reply_twice = CRErr.
Proof. vm_compute. repeat split; reflexivity. Qed.

End Examples.

(* "the MAC verifies over the exact request bytes" — refuted: two different byte strings are both
   valid requests under the same MAC (guarded form: C13_modified_request_rejected — they agree on
   every covered part; replayed on the real code: known finding C13-F7-uncovered-bits) *)
Theorem C13_exact_bytes_refuted :
  exists (mac : alg -> unit -> bytes -> bytes) ss m m' now,
    m <> m' /\ valid_tsig_request mac ss m now /\ valid_tsig_request mac ss m' now.
Proof.
  exists mac1, [s0], m_z, m_ok, 1700000244.
  destruct C13_uncovered_z_bit_example as (Hne & _ & _ & Hz & _).
  destruct C13_valid_request_example as (Hok & _).
  auto.
Qed.
Print Assumptions C13_exact_bytes_refuted.

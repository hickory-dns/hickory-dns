(* C08 — the boolean versions of the specification are sound tests for it.  A boolean and its
   proposition are built alike, so most proofs below descend the two in step. *)
From HV Require Import Lib.Base Lib.ListX C08.Model C08.Order.
Open Scope N_scope.

Section Connectives.
  Variables (a b : bool) (P Q : Prop).
  Hypotheses (HP : a = true <-> P) (HQ : b = true <-> Q).

  Lemma andb_iff : a && b = true <-> P /\ Q.
  Proof. rewrite <- HP, <- HQ. apply andb_true_iff. Qed.

  Lemma orb_iff : a || b = true <-> P \/ Q.
  Proof. rewrite <- HP, <- HQ. apply orb_true_iff. Qed.

  Lemma implb_iff : negb a || b = true <-> (P -> Q).
  Proof. rewrite <- HP, <- HQ. destruct a, b; cbn; intuition discriminate. Qed.
End Connectives.

Lemma negb_iff (a : bool) (P : Prop) : (a = true <-> P) -> (negb a = true <-> ~ P).
Proof. intros <-. destruct a; cbn; intuition discriminate. Qed.

Lemma contains_in ts t : contains ts t = true <-> In t ts.
Proof. apply (existsb_eqb_in N.eqb N.eqb_eq). Qed.

Lemma name_inb_iff n l : name_inb n l = true <-> In n l.
Proof. apply (existsb_eqb_in name_eqb name_eqb_eq). Qed.

Lemma exists_nameb_iff z n : exists_nameb z n = true <-> exists_name z n.
Proof. apply existsb_iff. intros o. apply zone_of_prefix. Qed.

Lemma rrs_existsb z n (g : list N -> bool) :
  existsb (fun p => name_eqb (fst p) n && g (snd p)) (z_rrs z) = true <->
  exists ts, In (n, ts) (z_rrs z) /\ g ts = true.
Proof.
  rewrite existsb_exists. split.
  - intros ([o ts] & Hin & H). cbn [fst snd] in H. apply andb_true_iff in H. destruct H as [E H].
    apply name_eqb_eq in E. subst o. eauto.
  - intros (ts & Hin & H). exists (n, ts). split; [exact Hin|]. cbn [fst snd].
    now rewrite H, name_eqb_refl.
Qed.

Lemma has_typeb_iff z n t : has_typeb z n t = true <-> has_type z n t.
Proof. apply (rrs_existsb z n (fun ts => contains ts t)). Qed.

Lemma is_cutb_iff z d : is_cutb z d = true <-> is_cut z d.
Proof.
  unfold is_cutb. rewrite <- andb_assoc.
  repeat apply andb_iff; [apply name_inb_iff|apply has_typeb_iff|apply negb_iff, has_typeb_iff].
Qed.

Lemma is_dnameb_iff z d : is_dnameb z d = true <-> is_dname z d.
Proof. apply andb_iff; [apply name_inb_iff|apply has_typeb_iff]. Qed.

Lemma wf_zoneb_sound z : wf_zoneb z = true -> wf_zone z.
Proof.
  unfold wf_zoneb, wf_zone. rewrite !andb_true_iff.
  intros ((((Hapex & Hunder) & Hfun) & Hsoa) & Hbelow).
  split; [now apply name_inb_iff|].
  split; [exact (proj1 (forallb_iff _ _ _ (zone_of_prefix _)) Hunder)|].
  split; [|split; [now apply has_typeb_iff|]].
  - assert (Hfun' : forall p, In p (z_rrs z) -> forall p', In p' (z_rrs z) ->
                      fst p = fst p' -> snd p = snd p').
    { refine (proj1 (forallb_iff _ _ _ _) Hfun). intros p. apply forallb_iff. intros p'.
      apply implb_iff; [apply name_eqb_eq|apply (list_eqb_eq N.eqb N.eqb_eq)]. }
    intros o ts ts' Hi Hi'. exact (Hfun' _ Hi _ Hi' eq_refl).
  - assert (Hbelow' : forall d, In d (owners z) -> is_cut z d \/ is_dname z d ->
                        forall o, In o (owners z) -> prefix d o -> o = d).
    { refine (proj1 (forallb_iff _ _ _ _) Hbelow). intros d.
      apply implb_iff; [apply orb_iff; [apply is_cutb_iff|apply is_dnameb_iff]|].
      apply forallb_iff. intros o. apply implb_iff; [apply zone_of_prefix|apply name_eqb_eq]. }
    intros d o Hd Ho Hp. apply (Hbelow' d); auto. destruct Hd as [(H & _)|(H & _)]; exact H.
Qed.

Lemma same_typesb_sound a b : same_typesb a b = true -> forall t, contains a t = contains b t.
Proof.
  unfold same_typesb. rewrite forallb_forall. intros H t.
  destruct (in_dec N.eq_dec t (a ++ b)) as [Hin|Hn]; [apply eqb_prop; now apply H|].
  rewrite in_app_iff, <- !contains_in in Hn.
  destruct (contains a t), (contains b t); try reflexivity; exfalso; auto.
Qed.

Lemma genuineb_sound z r : genuineb z r = true -> genuine z r.
Proof.
  unfold genuineb. rewrite <- andb_assoc, andb_true_iff. intros [Hown Hnext]. split.
  { apply rrs_existsb in Hown. destruct Hown as (ts & Hin & H).
    exists ts. split; [exact Hin|]. now apply same_typesb_sound. }
  revert Hnext. apply andb_iff; [apply name_inb_iff|]. apply orb_iff; apply andb_iff.
  - apply name_ltb_lt.
  - apply forallb_iff. intros o. apply negb_iff, andb_iff; apply name_ltb_lt.
  - apply name_eqb_eq.
  - apply forallb_iff. intros o. apply name_gtb_nle.
Qed.

Lemma genuine_allb_sound z ns : forallb (genuineb z) ns = true -> forall r, In r ns -> genuine z r.
Proof. rewrite forallb_forall. intros H r Hr. now apply genuineb_sound, H. Qed.

Lemma forall_prefixes q (f : name -> bool) (P : name -> Prop) :
  (forall c, f c = true <-> P c) ->
  (forallb f (prefixes q) = true <-> forall c, prefix c q -> P c).
Proof.
  intros H. rewrite (forallb_iff f P _ H).
  split; intros Hq c Hc; apply Hq; now apply in_prefixes.
Qed.

Lemma is_ceb_iff z q c : is_ceb z q c = true <-> is_ce z q c.
Proof.
  unfold is_ceb. rewrite <- andb_assoc.
  repeat apply andb_iff; [apply zone_of_prefix|apply exists_nameb_iff|].
  apply forall_prefixes. intros c'. apply implb_iff; [apply exists_nameb_iff|apply Nat.leb_le].
Qed.

Lemma forall_ce_iff z q (g : name -> bool) (P : name -> Prop) :
  (forall c, g c = true <-> (is_ce z q c -> P c)) ->
  (forallb g (prefixes q) = true <-> forall c, is_ce z q c -> P c).
Proof.
  intros H. rewrite (forall_prefixes q g _ H).
  split; intros Hq c.
  - intros Hc. apply Hq; [apply Hc|exact Hc].
  - intros _. apply Hq.
Qed.

(* what stands in the way of a denial for q/qt at the name d above q.  This and [occluderb] are
   the bodies of [occluded] and [occludedb] copied out: the [change] in [occludedb_iff] works
   only while the texts agree *)
Definition occluder (z : zone) (q : name) (qt : N) (d : name) : Prop :=
  (is_cut z d /\ ~ (d = q /\ qt = T_DS)) \/ (is_dname z d /\ d <> q).

Lemma occluder_owner z q qt d : occluder z q qt d -> In d (owners z) /\ (is_cut z d \/ is_dname z d).
Proof. intros [[H _]|[H _]]; (split; [apply H|auto]). Qed.

Definition occluderb (z : zone) (q : name) (qt : N) (d : name) : bool :=
  zone_of d q && ((is_cutb z d && negb (name_eqb d q && N.eqb qt T_DS))
                  || (is_dnameb z d && negb (name_eqb d q))).

Lemma occluderb_iff z q qt d : occluderb z q qt d = true <-> prefix d q /\ occluder z q qt d.
Proof.
  apply andb_iff; [apply zone_of_prefix|]. apply orb_iff; apply andb_iff.
  - apply is_cutb_iff.
  - apply negb_iff, andb_iff; [apply name_eqb_eq|apply N.eqb_eq].
  - apply is_dnameb_iff.
  - apply negb_iff, name_eqb_eq.
Qed.

Lemma occludedb_iff z q qt : occludedb z q qt = true <-> occluded z q qt.
Proof.
  change (occludedb z q qt) with (existsb (occluderb z q qt) (owners z)).
  rewrite (existsb_iff _ _ _ (occluderb_iff z q qt)). unfold occluded.
  split; intros (d & H); exists d; [apply H|].
  split; [apply (occluder_owner z q qt), H|exact H].
Qed.

Lemma lacksb_iff z n qt : lacksb z n qt = true <-> lacks z n qt.
Proof.
  unfold lacksb. rewrite <- andb_assoc.
  repeat apply andb_iff; [apply name_inb_iff|apply negb_iff, has_typeb_iff..].
Qed.

Lemma ent_b_iff z n : ent_b z n = true <-> (exists_name z n /\ ~ In n (owners z)).
Proof. apply andb_iff; [apply exists_nameb_iff|apply negb_iff, name_inb_iff]. Qed.

Lemma claim_nxdomainb_iff z q : claim_nxdomainb z q = true <-> claim_nxdomain z q.
Proof.
  apply andb_iff; [apply negb_iff, exists_nameb_iff|].
  apply forall_ce_iff. intros c. apply implb_iff; [apply is_ceb_iff|apply negb_iff, exists_nameb_iff].
Qed.

Lemma claim_nodatab_iff z q qt : claim_nodatab z q qt = true <-> claim_nodata z q qt.
Proof.
  unfold claim_nodatab. rewrite <- orb_assoc.
  repeat apply orb_iff; [apply lacksb_iff|apply ent_b_iff|].
  apply andb_iff; [apply negb_iff, exists_nameb_iff|].
  apply forall_ce_iff. intros c. rewrite <- orb_assoc.
  apply implb_iff; [apply is_ceb_iff|apply orb_iff; [apply lacksb_iff|apply ent_b_iff]].
Qed.

Lemma wild_rrsigb_iff r l : wild_rrsigb r = true /\ a_rrsig r = Some l <-> wild_rrsig r l.
Proof.
  unfold wild_rrsigb, wild_rrsig. rewrite andb_true_iff. split.
  - intros [[H1 H2] H3]. rewrite H3 in H2. apply N.ltb_lt in H2. auto.
  - intros (H1 & H2 & H3). rewrite H2. repeat split; auto. now apply N.ltb_lt.
Qed.

Lemma genuine_answersb_sound z answers : genuine_answersb z answers = true -> genuine_answers z answers.
Proof.
  unfold genuine_answersb, genuine_answers. rewrite forallb_forall. intros H r l Hr Hw.
  apply wild_rrsigb_iff in Hw. destruct Hw as [Hw E]. specialize (H r Hr). rewrite Hw, E in H.
  apply name_inb_iff, H.
Qed.

Lemma claim_wildcardb_iff z q answers : claim_wildcardb z q answers = true <-> claim_wildcard z q answers.
Proof.
  apply andb_iff; [apply negb_iff, exists_nameb_iff|].
  rewrite forallb_forall. split; intros H.
  - intros r l Hr Hw Hn. apply wild_rrsigb_iff in Hw. destruct Hw as [Hw E]. specialize (H r Hr).
    rewrite Hw, E, (proj2 (name_eqb_eq _ _) Hn) in H. apply is_ceb_iff, H.
  - intros r Hr. destruct (wild_rrsigb r && name_eqb (a_name r) q) eqn:E; [|reflexivity].
    apply andb_true_iff in E. destruct E as [Ew En]. apply name_eqb_eq in En.
    destruct (a_rrsig r) as [l|] eqn:El; [|reflexivity].
    apply is_ceb_iff, (H r l Hr); [now apply wild_rrsigb_iff|exact En].
Qed.

Theorem claimb_iff z q qt rc answers : claimb z q qt rc answers = true <-> claim_holds z q qt rc answers.
Proof.
  unfold claimb. rewrite <- andb_assoc.
  repeat apply andb_iff; [apply zone_of_prefix|apply negb_iff, occludedb_iff|].
  destruct rc, answers; first [apply claim_nodatab_iff|apply claim_wildcardb_iff
                              |apply claim_nxdomainb_iff|split; [discriminate|contradiction]].
Qed.

(* the NSEC list holds the NSEC of every owner name (the whole chain) *)
Definition whole_chain (z : zone) (ns : list nsec) : Prop :=
  (forall r, In r ns -> genuine z r) /\ (forall o, In o (owners z) -> exists r, In r ns /\ n_owner r = o).

Definition whole_chainb (z : zone) (ns : list nsec) : bool :=
  forallb (genuineb z) ns
  && forallb (fun o => existsb (fun r => name_eqb (n_owner r) o) ns) (owners z).

Lemma whole_chainb_sound z ns : whole_chainb z ns = true -> whole_chain z ns.
Proof.
  unfold whole_chainb, whole_chain. rewrite andb_true_iff. intros [Hgen Hall].
  split; [now apply genuine_allb_sound|].
  exact (proj1 (forallb_iff _ _ _ (fun o => existsb_iff _ _ ns (fun r => name_eqb_eq (n_owner r) o))) Hall).
Qed.

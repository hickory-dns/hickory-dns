(* C08 — the canonical order on names (lexicographic on root-first label lists) is a
   total order; prefixes (ancestors), parents and longest common prefixes; prefixes and the
   order: subtrees are convex. *)
From HV Require Lib.LexOrd.
From HV Require Import Lib.Base C08.Model.
Open Scope N_scope.

(* [lex_cmp c] is [LexOrd.lex c] by conversion *)
Section LexOrder.
  Context {A : Type} (c : A -> A -> comparison).
  Hypothesis c_eq : forall x y, c x y = Eq <-> x = y.

  Lemma lex_refl a : lex_cmp c a a = Eq.
  Proof. exact (LexOrd.lex_refl c c_eq a). Qed.
End LexOrder.

Lemma label_cmp_eq x y : label_cmp x y = Eq <-> x = y.
Proof. apply LexOrd.lex_eq, N.compare_eq_iff. Qed.
Lemma label_cmp_refl x : label_cmp x x = Eq.
Proof. apply lex_refl, N.compare_eq_iff. Qed.
Lemma label_cmp_anti x y : label_cmp y x = CompOpp (label_cmp x y).
Proof. apply LexOrd.lex_anti, N.compare_antisym. Qed.
Lemma label_cmp_trans x y z : label_cmp x y = Lt -> label_cmp y z = Lt -> label_cmp x z = Lt.
Proof. apply LexOrd.lex_trans; [apply N.compare_eq_iff|exact N.lt_trans]. Qed.

Lemma name_cmp_eq a b : name_cmp a b = Eq <-> a = b.
Proof. apply LexOrd.lex_eq, label_cmp_eq. Qed.
Lemma name_cmp_refl a : name_cmp a a = Eq.
Proof. apply lex_refl, label_cmp_eq. Qed.
Lemma name_cmp_anti a b : name_cmp b a = CompOpp (name_cmp a b).
Proof. apply LexOrd.lex_anti, label_cmp_anti. Qed.

Lemma eqb_of_cmp {A} (c : A -> A -> comparison) :
  (forall x y, c x y = Eq <-> x = y) ->
  forall x y, match c x y with Eq => true | _ => false end = true <-> x = y.
Proof. intros H x y. rewrite <- H. destruct (c x y); split; congruence. Qed.

Lemma label_eqb_eq x y : label_eqb x y = true <-> x = y.
Proof. apply (eqb_of_cmp label_cmp label_cmp_eq). Qed.

Lemma name_eqb_eq a b : name_eqb a b = true <-> a = b.
Proof. apply (eqb_of_cmp name_cmp name_cmp_eq). Qed.

Lemma name_eqb_refl a : name_eqb a a = true.
Proof. now apply name_eqb_eq. Qed.

Lemma name_eqb_neq a b : name_eqb a b = false <-> a <> b.
Proof. rewrite <- name_eqb_eq. symmetry. apply not_true_iff_false. Qed.

Lemma name_ltb_lt a b : name_ltb a b = true <-> nlt a b.
Proof. unfold name_ltb, nlt. destruct (name_cmp a b); split; congruence. Qed.

Lemma name_gtb_lt a b : name_gtb a b = true <-> nlt b a.
Proof.
  unfold name_gtb, nlt. rewrite (name_cmp_anti a b).
  destruct (name_cmp a b); cbn; split; congruence.
Qed.

Lemma name_gtb_nle a b : negb (name_gtb a b) = true <-> nle a b.
Proof. unfold name_gtb, nle. destruct (name_cmp a b); cbn; intuition discriminate. Qed.

Lemma nlt_trans a b d : nlt a b -> nlt b d -> nlt a d.
Proof. apply LexOrd.lex_trans; [apply label_cmp_eq|apply label_cmp_trans]. Qed.

Lemma nlt_irrefl a : ~ nlt a a.
Proof. unfold nlt. rewrite name_cmp_refl. discriminate. Qed.

Lemma nlt_nil_false a : ~ nlt a [].
Proof. unfold nlt, name_cmp. destruct a; cbn; discriminate. Qed.

Lemma nlt_nle a b : nlt a b -> nle a b.
Proof. unfold nlt, nle. congruence. Qed.

Lemma nle_cases a b : nle a b <-> (a = b \/ nlt a b).
Proof.
  unfold nle, nlt. destruct (name_cmp a b) eqn:E.
  - apply name_cmp_eq in E. split; [tauto|discriminate].
  - split; [tauto|discriminate].
  - split; [congruence|]. intros [->|H]; [|discriminate]. rewrite name_cmp_refl in E. discriminate.
Qed.

Lemma nle_nlt_trans a b d : nle a b -> nlt b d -> nlt a d.
Proof. rewrite nle_cases. intros [->|H]; [auto|]. now apply nlt_trans. Qed.

Lemma nlt_nle_trans a b d : nlt a b -> nle b d -> nlt a d.
Proof. rewrite nle_cases. intros H [<-|H2]; [auto|]. now apply (nlt_trans a b). Qed.

Lemma nle_or_nlt a b : nle a b \/ nlt b a.
Proof.
  unfold nle, nlt. rewrite (name_cmp_anti a b).
  destruct (name_cmp a b); cbn; [left; discriminate..|right; reflexivity].
Qed.

Lemma prefix_refl n : prefix n n.
Proof. exists []. now rewrite app_nil_r. Qed.

Lemma prefix_nil n : prefix [] n.
Proof. now exists n. Qed.

Lemma prefix_trans a b d : prefix a b -> prefix b d -> prefix a d.
Proof. intros [r ->] [s ->]. exists (r ++ s). now rewrite app_assoc. Qed.

Lemma prefix_app p r : prefix p (p ++ r).
Proof. now exists r. Qed.

Lemma prefix_firstn k n : prefix (firstn k n) n.
Proof. exists (skipn k n). now rewrite firstn_skipn. Qed.

Lemma prefix_is_firstn p n : prefix p n -> p = firstn (length p) n.
Proof.
  intros [r ->]. now rewrite firstn_app, Nat.sub_diag, firstn_all, firstn_O, app_nil_r.
Qed.

(* lengths are taken in N, as the model takes them *)
Lemma prefix_len p n : prefix p n -> len p <= len n.
Proof. intros [r ->]. unfold len. rewrite app_length. lia. Qed.

Lemma trim_to_le q k : k <= len q -> prefix (trim_to q k) q /\ len (trim_to q k) = k.
Proof.
  intros H. unfold trim_to, len in *. rewrite (proj2 (N.ltb_ge _ _) H).
  split; [apply prefix_firstn|]. rewrite firstn_length, Nat.min_l by lia. apply N2Nat.id.
Qed.

Lemma trim_to_prefix q c : prefix c q -> trim_to q (len c) = c.
Proof.
  intros H. pose proof (prefix_len _ _ H). unfold trim_to, len in *.
  rewrite (proj2 (N.ltb_ge _ _)), Nat2N.id by lia. symmetry. now apply prefix_is_firstn.
Qed.

Lemma prefix_len_eq p p' n : prefix p n -> prefix p' n -> len p = len p' -> p = p'.
Proof.
  intros H H' L. rewrite <- (trim_to_prefix n p H), <- (trim_to_prefix n p' H'), L. reflexivity.
Qed.

Lemma prefix_antisym a b : prefix a b -> prefix b a -> a = b.
Proof.
  intros H1 H2. apply (prefix_len_eq a b b H1 (prefix_refl b)). apply prefix_len in H1, H2. lia.
Qed.

Lemma prefix_chain q a b : prefix a q -> prefix b q -> len a <= len b -> prefix a b.
Proof.
  intros Ha Hb Hl. destruct (trim_to_le b (len a) Hl) as [Hp El].
  now rewrite <- (prefix_len_eq _ _ q (prefix_trans _ _ _ Hp Hb) Ha El).
Qed.

Lemma strict_prefix_len q c : prefix c q -> c <> q -> len c < len q.
Proof.
  intros Hp Hne. pose proof (prefix_len _ _ Hp).
  assert (len c <> len q) by (intros E; apply Hne, (prefix_len_eq c q q Hp (prefix_refl q) E)). lia.
Qed.

Lemma base_name_prefix q : prefix (base_name q) q.
Proof.
  unfold base_name. destruct q as [|x q]; [apply prefix_nil|].
  exists [last (x :: q) []]. apply app_removelast_last. discriminate.
Qed.

Lemma base_name_len q : len (base_name q) = len q - 1.
Proof.
  destruct q as [|x q]; [reflexivity|]. unfold base_name, len.
  rewrite (@app_removelast_last _ (x :: q) []) at 2 by discriminate.
  rewrite app_length. cbn [length]. lia.
Qed.

Lemma base_name_neq q : q <> [] -> base_name q <> q.
Proof.
  intros H E. pose proof (base_name_len q) as Hl. rewrite E in Hl.
  destruct q; [contradiction|]. unfold len in Hl. cbn [length] in Hl. lia.
Qed.

Lemma prefix_nle p n : prefix p n -> nle p n.
Proof.
  intros [r ->]. unfold nle, name_cmp. induction p as [|x p IH]; cbn [lex_cmp app].
  - destruct r; discriminate.
  - now rewrite label_cmp_refl.
Qed.

Lemma zone_of_prefix p n : zone_of p n = true <-> prefix p n.
Proof.
  revert n. induction p as [|x p IH]; intros n; cbn [zone_of].
  - split; [intros _; apply prefix_nil|reflexivity].
  - destruct n as [|y n].
    + split; [discriminate|]. intros [r E]. discriminate.
    + rewrite andb_true_iff, label_eqb_eq, IH. split.
      * intros [-> [r ->]]. now exists r.
      * intros [r E]. cbn in E. inversion E; subst. split; [reflexivity|now exists r].
Qed.

Lemma convex p a b d : prefix p a -> prefix p d -> nle a b -> nle b d -> prefix p b.
Proof.
  unfold nle, name_cmp. revert a b d.
  induction p as [|x p IH]; intros a b d [ra ->] [rd ->] H1 H2; [apply prefix_nil|].
  destruct b as [|y b]; cbn [lex_cmp app] in H1, H2; [congruence|].
  destruct (label_cmp x y) eqn:E.
  - apply label_cmp_eq in E. subst y. rewrite label_cmp_refl in H2.
    destruct (IH _ b _ (prefix_app p ra) (prefix_app p rd) H1 H2) as [rb ->]. now exists rb.
  - rewrite (label_cmp_anti x y), E in H2. cbn in H2. congruence.
  - congruence.
Qed.

Lemma lcp_prefix a b : prefix (lcp a b) a /\ prefix (lcp a b) b.
Proof.
  revert b. induction a as [|x a IH]; intros [|y b]; cbn [lcp]; try (split; apply prefix_nil).
  destruct (label_eqb x y) eqn:E; [|split; apply prefix_nil].
  apply label_eqb_eq in E. subst y. destruct (IH b) as [[r Ea] [s Eb]].
  split; [exists r|exists s]; cbn; congruence.
Qed.

Lemma lcp_prefix_l a b : prefix (lcp a b) a.
Proof. apply lcp_prefix. Qed.

Lemma lcp_prefix_r a b : prefix (lcp a b) b.
Proof. apply lcp_prefix. Qed.

Lemma lcp_strict q s : ~ prefix q s -> lcp q s <> q.
Proof. intros H E. apply H. rewrite <- E. apply lcp_prefix_r. Qed.

Lemma lcp_greatest p a b : prefix p a -> prefix p b -> prefix p (lcp a b).
Proof.
  revert a b. induction p as [|x p IH]; intros a b Ha Hb.
  - apply prefix_nil.
  - destruct Ha as [ra ->], Hb as [rb ->]. cbn [app lcp].
    rewrite (proj2 (label_eqb_eq x x) eq_refl).
    destruct (IH (p ++ ra) (p ++ rb) (prefix_app _ _) (prefix_app _ _)) as [r E].
    exists r. cbn. now rewrite <- E.
Qed.

Lemma in_prefixes q c : In c (prefixes q) <-> prefix c q.
Proof.
  unfold prefixes. rewrite in_map_iff. split.
  - intros (k & <- & _). apply prefix_firstn.
  - intros H. exists (length c). split; [symmetry; now apply prefix_is_firstn|].
    apply in_seq. apply prefix_len in H. unfold len in H. lia.
Qed.

(* C08 — the model of verify_nsec against the semantic specification: the inputs it accepts
   ([verify_secure_iff]); closest enclosers as lengths along the ancestors of the query name
   ([is_ce_level], [cover_level], [nce_of_spec]); per accepting path what it shows (soundness
   outside the known classes, [sound]) and what evidence leads to it (from which Props.v proves
   completeness). *)
From HV Require Import Lib.Base Lib.ListX C08.Model C08.Order C08.DecideProofs.
Open Scope N_scope.

Lemma contains_spec ts t : contains ts t = true <-> In t ts.
Proof. apply contains_in. Qed.

Lemma last_in {A} (l : list A) d : l <> [] -> In (last l d) l.
Proof.
  intros H. destruct (exists_last H) as (l' & a & ->). rewrite last_last.
  apply in_or_app. right. now left.
Qed.

Lemma existsb_ext_in {A} (f g : A -> bool) l :
  (forall x, In x l -> f x = g x) -> existsb f l = existsb g l.
Proof.
  induction l as [|a l IH]; intros H; [reflexivity|]. cbn [existsb].
  rewrite (H a (or_introl eq_refl)), IH; [reflexivity|]. intros x Hx. apply H. now right.
Qed.

Lemma min_by_key_some {A} (key : A -> N) l :
  l <> [] -> exists x, min_by_key key l = Some x /\ In x l.
Proof.
  induction l as [|a l IH]; [contradiction|]. intros _. cbn [min_by_key].
  destruct l as [|b l]; [cbn; eauto|].
  destruct IH as (y & -> & Hy); [discriminate|].
  destruct (N.leb (key a) (key y)); [exists a|exists y]; (split; [reflexivity|]); [now left|now right].
Qed.

Lemma min_by_key_const {A B} (key : A -> N) (g : A -> B) l x v :
  In x l -> (forall y, In y l -> g y = v) -> option_map g (min_by_key key l) = Some v.
Proof.
  intros Hx H. destruct (min_by_key_some key l) as (y & -> & Hy); [intros ->; destruct Hx|].
  cbn. f_equal. now apply H.
Qed.

Lemma filter_map_in {A B} (f : A -> option B) l y :
  In y (filter_map f l) <-> exists x, In x l /\ f x = Some y.
Proof.
  induction l as [|a l IH]; cbn [filter_map In]; [split; [tauto|intros (x & [] & _)]|].
  assert (H : In y (match f a with Some b => b :: filter_map f l | None => filter_map f l end)
              <-> f a = Some y \/ In y (filter_map f l)).
  { destruct (f a) as [b|]; cbn [In]; intuition congruence. }
  rewrite H, IH. split.
  - intros [E|(x & Hx & E)]; eauto.
  - intros (x & [->|Hx] & E); eauto.
Qed.

Lemma num_labels_bounds n : num_labels n <= len n <= num_labels n + 1.
Proof. unfold num_labels, len. destruct (is_wildcard n); lia. Qed.

Lemma num_labels_plain n : is_wildcard n = false -> num_labels n = len n.
Proof. unfold num_labels, len. now intros ->. Qed.

Lemma strict_prefix_not_wild q c :
  k_star q = false -> prefix c q -> c <> q -> is_wildcard c = false.
Proof.
  intros Hs [r ->] Hne. destruct c as [|x c]; [reflexivity|].
  apply not_true_iff_false. intros Hw. apply not_true_iff_false in Hs. apply Hs.
  unfold k_star. rewrite removelast_app by (intros ->; now rewrite app_nil_r in Hne).
  rewrite existsb_app. apply orb_true_iff. left.
  apply existsb_exists. exists (last (x :: c) []). split; [apply last_in; discriminate|exact Hw].
Qed.

Lemma base_name_star c : base_name (prepend_star c) = c.
Proof. unfold base_name, prepend_star. apply removelast_last. Qed.

Lemma is_wildcard_star c : is_wildcard (prepend_star c) = true.
Proof.
  unfold is_wildcard, prepend_star. destruct (c ++ [star]) eqn:E.
  - destruct c; discriminate.
  - rewrite <- E, last_last. reflexivity.
Qed.

Lemma num_labels_star c : num_labels (prepend_star c) = len c.
Proof.
  unfold num_labels. rewrite is_wildcard_star. unfold prepend_star, len.
  rewrite app_length. cbn [length]. lia.
Qed.

Lemma seed_loop_spec q nce seed :
  k_star q = false -> prefix nce q -> nce <> q -> ~ prefix q seed ->
  forall fuel cand, prefix (lcp q seed) cand -> prefix cand seed -> (length cand < fuel)%nat ->
    prefix (seed_loop fuel q cand nce) q /\
    len (seed_loop fuel q cand nce) = N.max (len nce) (len (lcp q seed)).
Proof.
  intros Hs Hn Hne Hq.
  pose proof (lcp_strict q seed Hq) as Hlq.
  pose proof (num_labels_plain _ (strict_prefix_not_wild q nce Hs Hn Hne)) as Hnl.
  pose proof (num_labels_plain _ (strict_prefix_not_wild q _ Hs (lcp_prefix_l q seed) Hlq)) as Hll.
  (* walking up from the seed, [cand] stays at or below [lcp q seed], the only ancestor of the seed
     on that stretch that is one of q; [nce] is replaced only on a strict >, so it stays on a tie *)
  induction fuel as [|fuel IH]; intros cand Hlc Hcs Hf; [lia|]. cbn [seed_loop]. rewrite Hnl.
  destruct (zone_of cand q) eqn:Ez.
  - apply zone_of_prefix in Ez.
    rewrite <- (prefix_antisym _ _ Hlc (lcp_greatest _ _ _ Ez Hcs)), Hll.
    destruct (N.ltb_spec (len nce) (len (lcp q seed))); (split; [auto using lcp_prefix_l|lia]).
  - assert (Hc : lcp q seed <> cand).
    { intros E. rewrite <- E, (proj2 (zone_of_prefix _ _) (lcp_prefix_l q seed)) in Ez. discriminate. }
    pose proof (strict_prefix_len cand _ Hlc Hc) as Hl. pose proof (base_name_len cand) as Hb.
    pose proof (prefix_trans _ _ _ (base_name_prefix cand) Hcs) as Hbs.
    destruct (N.ltb_spec (len nce) (num_labels cand)) as [E|E].
    + apply IH; [|exact Hbs|unfold len in *; lia].
      apply (prefix_chain seed); [apply lcp_prefix_r|exact Hbs|lia].
    + pose proof (num_labels_bounds cand). split; [exact Hn|lia].
Qed.

Lemma encloser_step_spec q nce seed :
  k_star q = false -> prefix nce q -> nce <> q -> ~ prefix q seed ->
  prefix (encloser_step q nce seed) q /\
  len (encloser_step q nce seed) = N.max (len nce) (len (lcp q seed)).
Proof.
  intros Hs Hn Hne Hq. apply seed_loop_spec; auto using lcp_prefix_r, prefix_refl.
Qed.

(* the closest encloser read off the covering NSEC: the longer of the common ancestors with its
   owner and with its next name *)
Definition ce_of (q : name) (r : nsec) : name := trim_to q (maxlcp q r).

Lemma ce_of_spec q r : prefix (ce_of q r) q /\ len (ce_of q r) = maxlcp q r.
Proof.
  apply trim_to_le. unfold maxlcp. pose proof (prefix_len _ _ (lcp_prefix_l q (n_owner r))).
  pose proof (prefix_len _ _ (lcp_prefix_l q (n_next r))). lia.
Qed.

Lemma soa_is_iff soa n : soa_is soa n = true <-> soa = Some n.
Proof.
  unfold soa_is. destruct soa as [s|]; [rewrite name_eqb_eq|]; split; congruence.
Qed.

Lemma covers_spec soa t r :
  covers soa t r = true <->
  nlt (n_owner r) t /\ (nlt t (n_next r) \/ soa = Some (n_next r)).
Proof. apply andb_iff; [apply name_gtb_lt|apply orb_iff; [apply name_ltb_lt|apply soa_is_iff]]. Qed.

Lemma find_cover_some soa t ns r :
  find_cover soa t ns = Some r -> In r ns /\ covers soa t r = true.
Proof. unfold find_cover. apply find_some. Qed.

(* verify_nsec's next_closest_encloser: its initial value, and its value after the loop has run
   from the covering NSEC's owner and from its next name *)
Definition nce0_of (q : name) (soa : option name) : name :=
  match soa with Some s => s | None => base_name q end.

Definition nce_of (q : name) (soa : option name) (cov : nsec) : name :=
  encloser_step q (encloser_step q (nce0_of q soa) (n_owner cov)) (n_next cov).

Lemma nce0_prefix q soa : (forall s, soa = Some s -> prefix s q) -> prefix (nce0_of q soa) q.
Proof. intros H. destruct soa as [s|]; [now apply H|apply base_name_prefix]. Qed.

Lemma nce_of_spec q soa cov :
  k_star q = false -> prefix (nce0_of q soa) q -> nce0_of q soa <> q ->
  ~ prefix q (n_owner cov) -> ~ prefix q (n_next cov) ->
  prefix (nce_of q soa cov) q /\
  len (nce_of q soa cov) = N.max (len (nce0_of q soa)) (maxlcp q cov) /\
  len (nce_of q soa cov) < len q.
Proof.
  intros Hs Hp Hne Ho Hx. unfold nce_of, maxlcp.
  destruct (encloser_step_spec q _ (n_owner cov) Hs Hp Hne Ho) as [Hp1 El1].
  pose proof (strict_prefix_len q _ Hp Hne).
  pose proof (strict_prefix_len q _ (lcp_prefix_l q _) (lcp_strict q _ Ho)).
  pose proof (strict_prefix_len q _ (lcp_prefix_l q _) (lcp_strict q _ Hx)).
  destruct (encloser_step_spec q _ (n_next cov) Hs Hp1) as [Hp2 El2];
    [intros E; rewrite E in El1; lia|exact Hx|].
  split; [exact Hp2|lia].
Qed.

(* The two early returns of verify_nsec, each with what follows it as a variable: rewriting with them
   leaves the rest of the model's text standing, the loop's start value named [nce0_of q soa]. *)
Lemma rc_guard rc (E : proof) :
  match rc with OtherRc => Bogus | _ => E end = Secure <-> rc <> OtherRc /\ E = Secure.
Proof. destruct rc; intuition congruence. Qed.

Lemma soa_guard q soa (B : name -> proof) :
  match (match soa with
         | Some s => if zone_of s q then Some s else None
         | None => Some (base_name q)
         end) with
  | None => Bogus
  | Some nce0 => B nce0
  end = Secure <->
  (forall s, soa = Some s -> prefix s q) /\ B (nce0_of q soa) = Secure.
Proof.
  destruct soa as [s|]; cbn [nce0_of]; [|intuition discriminate].
  destruct (zone_of s q) eqn:Z; split.
  - intros H. split; [|exact H]. intros s' E. inversion E; subst s'. now apply zone_of_prefix.
  - now intros [_ H].
  - discriminate.
  - intros [H _]. specialize (H s eq_refl). apply zone_of_prefix in H. congruence.
Qed.

Inductive secure_path (q : name) (qt : N) (soa : option name) (rc : rcode)
          (answers : list ans) (ns : list nsec) : Prop :=
| PathDirect r :
    find (fun r => name_eqb q (n_owner r)) ns = Some r ->
    contains (n_types r) qt = false -> contains (n_types r) T_CNAME = false ->
    rc = NoError -> answers = [] -> secure_path q qt soa rc answers ns
| PathNx cov w :
    find (fun r => name_eqb q (n_owner r)) ns = None ->
    find_cover soa q ns = Some cov ->
    find_cover soa (prepend_star (nce_of q soa cov)) ns = Some w ->
    rc = NXDomain -> answers = [] -> secure_path q qt soa rc answers ns
| PathWildAnswer cov w :
    find (fun r => name_eqb q (n_owner r)) ns = None ->
    find_cover soa q ns = Some cov ->
    find_cover soa (prepend_star (nce_of q soa cov)) ns = Some w ->
    no_closer_matches q soa ns (wildcard_base q answers ns) = true ->
    rc = NoError -> answers <> [] -> secure_path q qt soa rc answers ns
| PathWildNodata cov r :
    find (fun r => name_eqb q (n_owner r)) ns = None ->
    find_cover soa q ns = Some cov ->
    find_cover soa (prepend_star (nce_of q soa cov)) ns = None ->
    In r ns -> n_owner r = prepend_star (nce_of q soa cov) ->
    contains (n_types r) qt = false -> contains (n_types r) T_CNAME = false ->
    no_closer_matches q soa ns (wildcard_base q answers ns) = true ->
    rc = NoError -> answers = [] -> secure_path q qt soa rc answers ns.
Arguments PathDirect {q qt soa rc answers ns}.
Arguments PathNx {q qt soa rc answers ns}.
Arguments PathWildAnswer {q qt soa rc answers ns}.
Arguments PathWildNodata {q qt soa rc answers ns}.

Theorem verify_secure_iff q qt soa rc answers ns :
  verify_nsec q qt soa rc answers ns = Secure <->
  (forall s, soa = Some s -> prefix s q) /\ secure_path q qt soa rc answers ns.
Proof.
  unfold verify_nsec. rewrite rc_guard, soa_guard. cbv beta. split.
  - intros (_ & Hs & H). split; [exact Hs|]. revert H.
    destruct (find (fun r => name_eqb q (n_owner r)) ns) as [r|] eqn:Ed.
    { destruct (contains (n_types r) qt) eqn:Ec1; [discriminate|].
      destruct (contains (n_types r) T_CNAME) eqn:Ec2; [discriminate|].
      destruct rc, answers; try discriminate. intros _. now apply (PathDirect r). }
    destruct (find_cover soa q ns) as [cov|] eqn:Ecov; [|discriminate].
    fold (nce_of q soa cov).
    destruct (find_cover soa (prepend_star (nce_of q soa cov)) ns) as [w|] eqn:Ew.
    + destruct rc, answers as [|a answers]; try discriminate; cbn [negb andb isSome].
      * rewrite andb_true_r.
        destruct (no_closer_matches q soa ns (wildcard_base q (a :: answers) ns)) eqn:En;
          [|discriminate].
        intros _. now apply (PathWildAnswer cov w).
      * intros _. now apply (PathNx cov w).
    + destruct rc, answers as [|a answers]; try discriminate. cbn [negb andb].
      destruct (existsb _ ns) eqn:Ex; [|discriminate]. intros _.
      apply existsb_exists in Ex. destruct Ex as (r & Hin & Hr).
      rewrite !andb_true_iff, !negb_true_iff, name_eqb_eq in Hr.
      destruct Hr as [[[Ho Ec1] Ec2] En]. now apply (PathWildNodata cov r).
  - intros [Hs P]. split; [destruct P; congruence|]. split; [exact Hs|].
    destruct P as [r Ed Ec1 Ec2 -> -> | cov w Ed Ecov Ew -> -> | cov w Ed Ecov Ew En -> Ha
                  | cov r Ed Ecov Ew Hin Ho Ec1 Ec2 En -> ->]; unfold nce_of in *; rewrite Ed.
    + now rewrite Ec1, Ec2.
    + now rewrite Ecov, Ew.
    + rewrite Ecov, Ew, En. now destruct answers.
    + rewrite Ecov, Ew. cbn [negb andb].
      replace (existsb _ ns) with true; [reflexivity|]. symmetry.
      apply existsb_exists. exists r. split; [exact Hin|].
      now rewrite Ho, name_eqb_refl, Ec1, Ec2, En.
Qed.

Lemma tested_self q : In q (tested q).
Proof. now left. Qed.

Lemma tested_wild q c : prefix c q -> In (prepend_star c) (tested q).
Proof. intros Hp. right. apply in_map. now apply in_prefixes. Qed.

Lemma strict_prefixb_true p n : prefix p n -> p <> n -> strict_prefixb p n = true.
Proof.
  intros Hp Hne. unfold strict_prefixb.
  now rewrite (proj2 (zone_of_prefix p n) Hp), (proj2 (name_eqb_neq p n) Hne).
Qed.

Lemma k_closer_iff {q soa answers ns cov} :
  find_cover soa q ns = Some cov ->
  (k_closer q soa NoError answers ns = true <->
   no_closer_matches q soa ns (wildcard_base q answers ns) = true /\
   exists r l, In r answers /\ wild_rrsig r l /\ a_name r = q /\ l < maxlcp q cov).
Proof.
  intros Hf. unfold k_closer, wild_rrsig. rewrite Hf, andb_true_iff, existsb_exists.
  split; (intros [Hn H]; split; [exact Hn|]).
  - destruct H as (r & Hr & H). rewrite !andb_true_iff, name_eqb_eq in H.
    destruct H as [[Hsec Hq] H]. destruct (a_rrsig r) as [l|] eqn:Hsig; [|discriminate].
    rewrite andb_true_iff, !N.ltb_lt in H. exists r, l. tauto.
  - destruct H as (r & l & Hr & (Hsec & Hsig & Hl) & Hq & Hm). exists r. split; [exact Hr|].
    now rewrite Hsec, Hsig, (proj2 (N.ltb_lt _ _) Hl), Hq, name_eqb_refl, (proj2 (N.ltb_lt _ _) Hm).
Qed.

Lemma wild_from_answer_at q c r :
  prefix c q -> len c < num_labels q ->
  a_secure r = true -> a_rrsig r = Some (len c) -> a_name r = q ->
  wild_from_answer q r = Some (len c, prepend_star c).
Proof.
  intros Hp Hl Hsec Hsig Hn. unfold wild_from_answer.
  rewrite Hsec, Hsig, Hn, (proj2 (N.leb_gt _ _) Hl), (trim_to_prefix q c Hp).
  now rewrite (proj2 (zone_of_prefix c q) Hp).
Qed.

Lemma wild_from_answer_some q r p :
  wild_from_answer q r = Some p -> a_secure r = true /\ exists l, a_rrsig r = Some l.
Proof.
  unfold wild_from_answer. destruct (a_secure r); [|discriminate].
  destruct (a_rrsig r) as [l|]; [eauto|discriminate].
Qed.

Lemma wildcard_base_answers q ns answers c r0 :
  prefix c q -> len c < num_labels q ->
  (forall r l, In r answers -> a_secure r = true -> a_rrsig r = Some l ->
               a_name r = q /\ l = len c) ->
  In r0 answers -> a_secure r0 = true -> a_rrsig r0 = Some (len c) ->
  wildcard_base q answers ns = Some (prepend_star c).
Proof.
  intros Hp Hl Hall Hr0 Hsec0 Hsig0. unfold wildcard_base.
  destruct answers as [|a0 answers']; [destruct Hr0|].
  apply (min_by_key_const _ _ _ (len c, prepend_star c)).
  - apply filter_map_in. exists r0. split; [exact Hr0|].
    apply wild_from_answer_at; auto. now apply (Hall r0 _ Hr0 Hsec0 Hsig0).
  - intros p Hin. apply filter_map_in in Hin. destruct Hin as (r & Hr & Hw).
    destruct (wild_from_answer_some _ _ _ Hw) as (Hsec & l & Hsig).
    destruct (Hall r l Hr Hsec Hsig) as [Hn ->].
    rewrite (wild_from_answer_at q c r Hp Hl Hsec Hsig Hn) in Hw. now inversion Hw.
Qed.

Lemma wildcard_base_nsecs q ns c r :
  prefix c q -> In r ns -> n_owner r = prepend_star c ->
  (forall r', In r' ns -> is_wildcard (n_owner r') = true ->
              prefix (base_name (n_owner r')) q -> n_owner r' = prepend_star c) ->
  wildcard_base q [] ns = Some (prepend_star c).
Proof.
  intros Hp Hr Ho Honly. unfold wildcard_base. apply (min_by_key_const _ _ _ r).
  - apply filter_In. split; [exact Hr|].
    rewrite Ho, is_wildcard_star, base_name_star. now apply zone_of_prefix.
  - intros x Hx. apply filter_In in Hx. destruct Hx as [Hxin Hxf].
    apply andb_true_iff in Hxf. destruct Hxf as [Hwild Hbase]. apply zone_of_prefix in Hbase.
    now apply Honly.
Qed.

Lemma rr_owner z o ts : In (o, ts) (z_rrs z) -> In o (owners z).
Proof. intros H. unfold owners. apply in_map_iff. exists (o, ts). auto. Qed.

Lemma genuine_owner z r : genuine z r -> In (n_owner r) (owners z).
Proof. intros ((ts & H & _) & _). now apply (rr_owner z _ ts). Qed.

Lemma genuine_next z r : genuine z r -> In (n_next r) (owners z).
Proof. intros (_ & H & _). exact H. Qed.

Lemma is_ce_level z q c :
  is_ce z q c <-> prefix c q /\ forall p, prefix p q -> (exists_name z p <-> len p <= len c).
Proof.
  unfold is_ce, len. split.
  - intros (Hp & (o & Ho & Hco) & Hmax). split; [exact Hp|]. intros p Hpq. split.
    + intros H. apply Hmax in H; [lia|exact Hpq].
    + intros H. exists o. split; [exact Ho|]. apply (prefix_trans _ c); [|exact Hco].
      now apply (prefix_chain q).
  - intros (Hp & H). split; [exact Hp|]. split; [apply H; [exact Hp|lia]|].
    intros c' Hc' He. apply H in He; [lia|exact Hc'].
Qed.

Lemma is_ce_unique z q c c' : is_ce z q c -> is_ce z q c' -> c = c'.
Proof.
  intros (Hp & He & Hm) (Hp' & He' & Hm'). apply (prefix_len_eq c c' q Hp Hp').
  pose proof (Hm c' Hp' He'). pose proof (Hm' c Hp He). unfold len. lia.
Qed.

Section Zone.
  Variable z : zone.
  Hypothesis WF : wf_zone z.

  Definition soa_ok (soa : option name) : Prop := soa = None \/ soa = Some (z_apex z).

  Lemma owner_apex o : In o (owners z) -> prefix (z_apex z) o.
  Proof. destruct WF as (_ & H & _). apply H. Qed.

  Lemma apex_exists : exists_name z (z_apex z).
  Proof. exists (z_apex z). split; [apply WF|apply prefix_refl]. Qed.

  Lemma below_cut d o : is_cut z d \/ is_dname z d -> In o (owners z) -> prefix d o -> o = d.
  Proof. destruct WF as (_ & _ & _ & _ & H). apply H. Qed.

  Lemma genuine_types r t :
    genuine z r -> (contains (n_types r) t = true <-> has_type z (n_owner r) t).
  Proof.
    intros ((ts & Hin & Hty) & _). rewrite Hty. split.
    - intros H. exists ts. auto.
    - intros (ts' & Hin' & H). destruct WF as (_ & _ & Hf & _).
      now rewrite (Hf _ _ _ Hin Hin').
  Qed.

  Lemma genuine_lacks r t :
    genuine z r -> (contains (n_types r) t = false <-> ~ has_type z (n_owner r) t).
  Proof. intros G. rewrite <- (genuine_types r t G). symmetry. apply not_true_iff_false. Qed.

  Lemma genuine_typesb r t : genuine z r -> contains (n_types r) t = has_typeb z (n_owner r) t.
  Proof. intros G. apply eq_true_iff_eq. rewrite has_typeb_iff. now apply genuine_types. Qed.

  (* the wrap rule cannot fire for an NSEC that is not the last one *)
  Lemma not_before_apex o : In o (owners z) -> ~ nlt o (z_apex z).
  Proof.
    intros Ho H. apply owner_apex, prefix_nle in Ho.
    exact (nlt_irrefl _ (nle_nlt_trans _ _ _ Ho H)).
  Qed.

  Lemma cover_in_zone t r :
    genuine z r -> covers None t r = true -> prefix (z_apex z) t.
  Proof.
    intros G Hc. apply covers_spec in Hc. destruct Hc as [Hot [Htx|Hc]]; [|discriminate].
    pose proof (genuine_owner z r G) as Ho. pose proof (genuine_next z r G) as Hx.
    apply (convex (z_apex z) (n_owner r) t (n_next r)); auto using owner_apex, nlt_nle.
  Qed.

End Zone.

Section Cover.
  Variable z : zone.
  Hypothesis WF : wf_zone z.
  Variables (soa : option name) (t : name) (r : nsec).
  Hypothesis G : genuine z r.
  Hypothesis SOA : soa_ok z soa.
  Hypothesis C : covers soa t r = true.

  Lemma cover_gap :
    nlt (n_owner r) t /\
    forall o, In o (owners z) -> nle o (n_owner r) \/ (nlt t (n_next r) /\ nle (n_next r) o).
  Proof.
    destruct (proj1 (covers_spec _ _ _) C) as [Hot Hc]. split; [exact Hot|].
    intros o Ho. pose proof (genuine_owner z r G) as Hr.
    (* the two shapes of a genuine NSEC (last of the chain or not) against the two ways of covering
       (t before the next name, or the wrap rule) *)
    destruct G as (_ & _ & [[Hlt Hgap]|[Hnx Hmax]]); [|left; now apply Hmax].
    destruct Hc as [Htx|Hsoa].
    - destruct (nle_or_nlt o (n_owner r)) as [H|H]; [now left|right].
      split; [exact Htx|]. destruct (nle_or_nlt (n_next r) o) as [H2|H2]; [exact H2|].
      destruct (Hgap o Ho). auto.
    - exfalso. destruct SOA as [Es|Es]; rewrite Es in Hsoa; [discriminate|]. inversion Hsoa as [E].
      rewrite <- E in Hlt. exact (not_before_apex z WF _ Hr Hlt).
  Qed.

  Lemma cover_exists : exists_name z t -> prefix t (n_next r) /\ t <> n_next r.
  Proof.
    intros (w & Hw & Hp). destruct cover_gap as [Hot Hgap].
    pose proof (nlt_nle_trans _ _ _ Hot (prefix_nle _ _ Hp)) as How.
    destruct (Hgap w Hw) as [H|[Htx Hxw]].
    - exfalso. exact (nlt_irrefl _ (nlt_nle_trans _ _ _ How H)).
    - split; [|intros E; rewrite E in Htx; exact (nlt_irrefl _ Htx)].
      exact (convex t t (n_next r) w (prefix_refl t) Hp (nlt_nle _ _ Htx) Hxw).
  Qed.

  Lemma cover_not_owner : ~ In t (owners z).
  Proof.
    intros Ht. destruct cover_gap as [Hot Hgap]. destruct (Hgap t Ht) as [H|[Htx Hxt]].
    - exact (nlt_irrefl _ (nlt_nle_trans _ _ _ Hot H)).
    - exact (nlt_irrefl _ (nlt_nle_trans _ _ _ Htx Hxt)).
  Qed.

  Lemma cover_level p : prefix p t -> (exists_name z p <-> len p <= maxlcp t r).
  Proof.
    intros Hpt. destruct cover_gap as [Hot Hgap]. unfold maxlcp. split.
    - intros (w & Hw & Hp).
      (* a subtree that holds t and an owner name holds the NSEC's owner or its next name *)
      assert (prefix p (n_owner r) \/ prefix p (n_next r)) as [H|H].
      { destruct (Hgap w Hw) as [H|[Htx Hxw]].
        - left. exact (convex p w (n_owner r) t Hp Hpt H (nlt_nle _ _ Hot)).
        - right. exact (convex p t (n_next r) w Hpt Hp (nlt_nle _ _ Htx) Hxw). }
      all: apply (lcp_greatest _ _ _ Hpt), prefix_len in H; lia.
    - intros H.
      assert (exists o, In o (owners z) /\ len p <= len (lcp t o)) as (o & Ho & Hl).
      { destruct (N.max_spec (len (lcp t (n_owner r))) (len (lcp t (n_next r)))) as [[_ E]|[_ E]];
          rewrite E in H; eauto using genuine_owner, genuine_next. }
      exists o. split; [exact Ho|]. apply (prefix_trans _ (lcp t o)); [|apply lcp_prefix_r].
      apply (prefix_chain t); [exact Hpt|apply lcp_prefix_l|exact Hl].
  Qed.

  Lemma ce_of_is_ce : is_ce z t (ce_of t r).
  Proof.
    destruct (ce_of_spec t r) as [Hp El]. apply is_ce_level. split; [exact Hp|].
    intros p Hpt. rewrite El. now apply cover_level.
  Qed.

  Lemma cover_occluder d :
    In d (owners z) -> prefix d t -> (is_cut z d \/ is_dname z d) -> n_owner r = d.
  Proof.
    intros Hd Hp Hcut. destruct cover_gap as [Hot Hgap].
    apply (below_cut z WF d (n_owner r) Hcut (genuine_owner z r G)).
    destruct (Hgap d Hd) as [H|[Htx Hxd]].
    - exact (convex d d (n_owner r) t (prefix_refl d) Hp H (nlt_nle _ _ Hot)).
    - exfalso. apply prefix_nle in Hp.
      exact (nlt_irrefl _ (nlt_nle_trans _ _ _ (nlt_nle_trans _ _ _ Htx Hxd) Hp)).
  Qed.
End Cover.

Section Query.
  Variable z : zone.
  Hypothesis WF : wf_zone z.
  Variables (q : name) (qt : N) (soa : option name) (ns : list nsec).
  Hypothesis GEN : forall r, In r ns -> genuine z r.
  Hypothesis SOA : soa_ok z soa.

  Lemma no_ent t r :
    k_ent q soa ns = false -> In t (tested q) -> In r ns -> covers soa t r = true ->
    ~ exists_name z t.
  Proof.
    intros Hk Ht Hr Hc He.
    destruct (cover_exists z WF soa t r (GEN r Hr) SOA Hc He) as [Hp Hne].
    assert (k_ent q soa ns = true); [|congruence].
    unfold k_ent. apply existsb_exists. exists t. split; [exact Ht|].
    apply existsb_exists. exists r. split; [exact Hr|].
    rewrite Hc. now apply strict_prefixb_true.
  Qed.

  Lemma k_deleg_iff :
    k_deleg q qt ns = true <->
    exists r, In r ns /\ prefix (n_owner r) q /\ occluder z q qt (n_owner r).
  Proof.
    (* K1 reads cuts and DNAMEs off the type sets; on the owner of a genuine NSEC that is [occluderb] *)
    unfold k_deleg. rewrite (existsb_ext_in _ (fun r => occluderb z q qt (n_owner r))).
    - apply existsb_iff. intros r. apply occluderb_iff.
    - intros r Hr. unfold occluderb, is_cutb, is_dnameb.
      now rewrite <- !(genuine_typesb z WF r _ (GEN r Hr)),
        (proj2 (name_inb_iff _ _) (genuine_owner z r (GEN r Hr))).
  Qed.

  Lemma not_occluded r :
    k_deleg q qt ns = false -> In r ns ->
    (forall d, In d (owners z) -> prefix d q -> is_cut z d \/ is_dname z d -> n_owner r = d) ->
    ~ occluded z q qt.
  Proof.
    intros Hk Hr H (d & Hp & Hd). destruct (occluder_owner z q qt d Hd) as [Ho Hc].
    assert (k_deleg q qt ns = true); [|congruence].
    apply k_deleg_iff. exists r. rewrite (H d Ho Hp Hc). auto.
  Qed.

  Lemma soa_above : prefix (z_apex z) q -> forall s, soa = Some s -> prefix s q.
  Proof. intros Hz s E. destruct SOA as [H|H]; rewrite H in E; [discriminate|]. now inversion E. Qed.

  Lemma find_cover_exists t c :
    In c ns -> covers soa t c = true ->
    exists cov, find_cover soa t ns = Some cov /\ In cov ns /\ covers soa t cov = true.
  Proof.
    intros Hc Hcc. destruct (find_exists (covers soa t) ns c Hc Hcc) as [cov Hf].
    exists cov. split; [exact Hf|]. now apply find_cover_some.
  Qed.

  Lemma find_cover_owner t : In t (owners z) -> find_cover soa t ns = None.
  Proof.
    intros Ht. apply find_none_all. intros x Hx. apply not_true_is_false. intros Hc.
    exact (cover_not_owner z WF soa t x (GEN x Hx) SOA Hc Ht).
  Qed.

  Lemma direct_sound r :
    k_deleg q qt ns = false ->
    find (fun r => name_eqb q (n_owner r)) ns = Some r ->
    contains (n_types r) qt = false -> contains (n_types r) T_CNAME = false ->
    claim_holds z q qt NoError [].
  Proof.
    intros Hk Hd Hqt Hcn. apply find_some in Hd. destruct Hd as [Hr Eq]. apply name_eqb_eq in Eq.
    pose proof (genuine_owner z r (GEN r Hr)) as Ho. rewrite <- Eq in Ho.
    split; [now apply owner_apex|]. split.
    - apply (not_occluded r Hk Hr). intros d Hd Hp Hcut. rewrite <- Eq.
      now apply (below_cut z WF d q).
    - left. split; [exact Ho|]. rewrite Eq. now rewrite <- !(genuine_lacks z WF r _ (GEN r Hr)).
  Qed.

  Lemma direct_path r :
    In r ns -> n_owner r = q -> ~ has_type z q qt -> ~ has_type z q T_CNAME ->
    secure_path q qt soa NoError [] ns.
  Proof.
    intros Hin Ho Hqt Hcn.
    destruct (find_exists (fun r => name_eqb q (n_owner r)) ns r Hin) as [r' Hf].
    { rewrite Ho. apply name_eqb_refl. }
    pose proof (find_some _ _ Hf) as [Hin' E]. apply name_eqb_eq in E. rewrite E in Hqt, Hcn.
    apply (PathDirect r' Hf); auto; now apply (genuine_lacks z WF r' _ (GEN r' Hin')).
  Qed.

  Lemma found_cover cov :
    k_deleg q qt ns = false -> k_ent q soa ns = false -> (forall s, soa = Some s -> prefix s q) ->
    find_cover soa q ns = Some cov ->
    prefix (z_apex z) q /\ ~ occluded z q qt /\ ~ exists_name z q /\ is_ce z q (ce_of q cov).
  Proof.
    intros K1 K2 GUARD Hf. destruct (find_cover_some _ _ _ _ Hf) as [Hin Hc]. pose proof (GEN cov Hin) as G.
    split; [|split; [|split]].
    - destruct SOA as [E|E]; [|now apply GUARD]. rewrite E in Hc. now apply (cover_in_zone z WF q cov).
    - exact (not_occluded cov K1 Hin (cover_occluder z WF soa q cov G SOA Hc)).
    - exact (no_ent q cov K2 (tested_self q) Hin Hc).
    - exact (ce_of_is_ce z WF soa q cov G SOA Hc).
  Qed.

  (* q does not exist, cov is the NSEC found to cover it, ce its closest encloser: what the
     procedure does from there, and per accepting path what that shows (soundness) and what
     evidence leads there (completeness) *)
  Section Absent.
    Variables (cov : nsec) (ce : name).
    Hypothesis STAR : k_star q = false.
    Hypothesis GUARD : forall s, soa = Some s -> prefix s q.
    Hypothesis FOUND : find_cover soa q ns = Some cov.
    Hypothesis ABSENT : ~ exists_name z q.
    Hypothesis CE : is_ce z q ce.

    Let IN : In cov ns := proj1 (find_cover_some _ _ _ _ FOUND).
    Let COV : covers soa q cov = true := proj2 (find_cover_some _ _ _ _ FOUND).

    Lemma absent_level p : prefix p q -> (exists_name z p <-> len p <= len ce).
    Proof. apply is_ce_level, CE. Qed.

    Lemma absent_ce_below : len ce < len q.
    Proof. apply N.lt_nge. intros H. now apply ABSENT, absent_level; [apply prefix_refl|]. Qed.

    Lemma absent_nonroot : q <> [].
    Proof. intros E. pose proof absent_ce_below as H. rewrite E in H. cbn in H. lia. Qed.

    Lemma absent_above o : In o (owners z) -> ~ prefix q o.
    Proof. intros Ho H. apply ABSENT. now exists o. Qed.

    Lemma absent_nce_level :
      nce0_of q soa <> q ->
      prefix (nce_of q soa cov) q /\
      len (nce_of q soa cov) = N.max (len (nce0_of q soa)) (maxlcp q cov) /\
      len (nce_of q soa cov) < len q.
    Proof.
      intros Hne. apply nce_of_spec; auto using nce0_prefix, absent_above, genuine_owner, genuine_next.
    Qed.

    Lemma absent_nce0_ne : nce0_of q soa <> q.
    Proof.
      pose proof SOA as [E|E]; rewrite E; cbn [nce0_of]; [apply base_name_neq, absent_nonroot|].
      intros Eq. apply ABSENT. rewrite <- Eq. now apply apex_exists.
    Qed.

    Lemma absent_ce_len : maxlcp q cov = len ce.
    Proof.
      rewrite <- (is_ce_unique z q _ _ (ce_of_is_ce z WF soa q cov (GEN cov IN) SOA COV) CE).
      symmetry. apply ce_of_spec.
    Qed.

    Lemma nce_is_ce : len (nce0_of q soa) <= len ce -> nce_of q soa cov = ce.
    Proof.
      intros H. destruct (absent_nce_level absent_nce0_ne) as (Hp & El & _).
      apply (prefix_len_eq _ _ q Hp (proj1 CE)). rewrite absent_ce_len in El. lia.
    Qed.

    Lemma absent_apex_level : soa = Some (z_apex z) -> len (nce0_of q soa) <= len ce.
    Proof. intros E. rewrite E. apply absent_level; [now apply GUARD|now apply apex_exists]. Qed.

    Lemma no_direct_match : find (fun r => name_eqb q (n_owner r)) ns = None.
    Proof.
      apply find_none_all. intros x Hx. apply name_eqb_neq. intros E.
      apply ABSENT. exists q. split; [|apply prefix_refl].
      rewrite E. apply (genuine_owner z x (GEN x Hx)).
    Qed.

    Lemma subtree_cover p t :
      prefix p q -> ~ exists_name z p -> prefix p t -> covers soa t cov = true.
    Proof.
      intros Hpq Hne Hpt. pose proof (GEN cov IN) as G.
      destruct (proj1 (covers_spec _ _ _) COV) as [Hoq Hc]. apply covers_spec. split.
      - destruct (nle_or_nlt t (n_owner cov)) as [H|H]; [exfalso|exact H]. apply Hne.
        exists (n_owner cov). split; [now apply genuine_owner|].
        exact (convex p t (n_owner cov) q Hpt Hpq H (nlt_nle _ _ Hoq)).
      - destruct Hc as [Hqx|Hs]; [left|now right].
        destruct (nle_or_nlt (n_next cov) t) as [H|H]; [exfalso|exact H]. apply Hne.
        exists (n_next cov). split; [now apply genuine_next|].
        exact (convex p q (n_next cov) t Hpq Hpt (nlt_nle _ _ Hqx) H).
    Qed.

    Lemma closer_loop_true :
      forall fuel nm, prefix nm q -> nm <> q -> closer_loop fuel soa ns (prepend_star ce) nm = true.
    Proof.
      induction fuel as [|fuel IH]; intros nm Hp Hnq; [reflexivity|].
      cbn [closer_loop]. rewrite num_labels_star.
      destruct (N.ltb_spec (len ce) (num_labels nm)) as [E|E]; [|reflexivity].
      rewrite (num_labels_plain nm (strict_prefix_not_wild q nm STAR Hp Hnq)) in E.
      assert (Hne : ~ exists_name z nm) by (rewrite (absent_level nm Hp); lia).
      destruct (find_cover_exists _ cov IN (subtree_cover nm (prepend_star nm) Hp Hne (prefix_app _ _)))
        as (y & -> & _).
      pose proof (prefix_trans _ _ _ (base_name_prefix nm) Hp) as Hbp. apply IH; [exact Hbp|].
      intros Eq. apply Hnq, prefix_antisym; [exact Hp|]. rewrite <- Eq. apply base_name_prefix.
    Qed.

    Lemma no_closer_matches_ce :
      (forall s, soa = Some s -> prefix s ce) ->
      no_closer_matches q soa ns (Some (prepend_star ce)) = true.
    Proof.
      intros Hs. pose proof (proj1 CE) as Hcp. pose proof absent_ce_below as Hm.
      pose proof (base_name_len q) as Hbl. pose proof (num_labels_bounds q) as Hnl.
      unfold no_closer_matches.
      rewrite num_labels_star, base_name_star, (proj2 (zone_of_prefix _ q) Hcp).
      rewrite (proj2 (N.ltb_ge _ _)) by lia.
      rewrite closer_loop_true; [|apply base_name_prefix|apply base_name_neq, absent_nonroot].
      revert GUARD Hs. generalize soa. intros [s|] GUARD' Hs; [|reflexivity].
      rewrite (proj2 (zone_of_prefix s q) (GUARD' s eq_refl)).
      now rewrite (proj2 (zone_of_prefix s (prepend_star _))
                     (prefix_trans _ _ _ (Hs s eq_refl) (prefix_app _ [star]))).
    Qed.

    Lemma nx_sound w :
      k_ent q soa ns = false -> k_nosoa q soa NXDomain [] ns = false ->
      find_cover soa (prepend_star (nce_of q soa cov)) ns = Some w ->
      claim_nxdomain z q.
    Proof.
      intros K2 K3 Hw. rewrite nce_is_ce in Hw.
      - apply find_cover_some in Hw. destruct Hw as [Hwin Hwc]. split; [exact ABSENT|].
        intros c Hc'. rewrite (is_ce_unique z q c _ Hc' CE).
        apply (no_ent _ w K2); auto. apply tested_wild, CE.
      - (* without an SOA the loop starts from parent(q); outside K3 that is no longer than the
           encloser the covering NSEC shows *)
        pose proof SOA as [E|E]; [|now apply absent_apex_level].
        pose proof FOUND as Hf. unfold k_nosoa in K3. rewrite E in Hf, K3 |- *. rewrite Hf in K3.
        apply N.ltb_ge in K3. cbn [nce0_of]. rewrite base_name_len, <- absent_ce_len. lia.
    Qed.

    Lemma nx_path w :
      len (nce0_of q soa) <= len ce -> In w ns -> covers soa (prepend_star ce) w = true ->
      secure_path q qt soa NXDomain [] ns.
    Proof.
      intros H0 Hw Hcw. destruct (find_cover_exists _ w Hw Hcw) as (w' & Hf' & _).
      rewrite <- (nce_is_ce H0) in Hf'.
      exact (PathNx cov w' no_direct_match FOUND Hf' eq_refl eq_refl).
    Qed.

    Lemma wild_nodata_sound r :
      In r ns -> n_owner r = prepend_star (nce_of q soa cov) ->
      contains (n_types r) qt = false -> contains (n_types r) T_CNAME = false ->
      claim_nodata z q qt.
    Proof.
      intros Hin Eo Hqt Hcn.
      pose proof (genuine_owner z r (GEN r Hin)) as Ho. rewrite Eo in Ho.
      (* the wildcard exists, so the loop's answer does: it is the closest encloser *)
      assert (E : nce_of q soa cov = ce).
      { apply nce_is_ce. destruct (absent_nce_level absent_nce0_ne) as (Hp & El & _).
        assert (Hx : len (nce_of q soa cov) <= len ce); [|lia].
        apply (absent_level _ Hp). exists (prepend_star (nce_of q soa cov)). split; [exact Ho|apply prefix_app]. }
      rewrite E in Ho, Eo. right. right. split; [exact ABSENT|].
      intros c Hc'. rewrite (is_ce_unique z q c _ Hc' CE). left.
      split; [exact Ho|]. rewrite <- Eo. now rewrite <- !(genuine_lacks z WF r _ (GEN r Hin)).
    Qed.

    Lemma wild_nodata_path r :
      len (nce0_of q soa) <= len ce -> In r ns -> n_owner r = prepend_star ce ->
      contains (n_types r) qt = false -> contains (n_types r) T_CNAME = false ->
      wildcard_base q [] ns = Some (prepend_star ce) ->
      secure_path q qt soa NoError [] ns.
    Proof.
      intros H0 Hr Ho Hqt Hcn Hwb.
      apply (PathWildNodata cov r no_direct_match FOUND); rewrite ?(nce_is_ce H0), ?Hwb; auto.
      - apply find_cover_owner. rewrite <- Ho. apply (genuine_owner z r (GEN r Hr)).
      - apply no_closer_matches_ce. intros s E. apply (prefix_chain q); [now apply GUARD|apply CE|].
        now rewrite E in H0.
    Qed.

    Lemma claim_wildcard_level answers :
      claim_wildcard z q answers <->
      forall r l, In r answers -> wild_rrsig r l -> a_name r = q -> l = len ce.
    Proof.
      split.
      - intros [_ H] r l Hr Hw Hn. specialize (H r l Hr Hw Hn).
        pose proof Hw as (_ & _ & Hl). rewrite Hn in Hl. pose proof (num_labels_bounds q).
        rewrite <- (is_ce_unique z q _ _ H CE). symmetry. apply trim_to_le. lia.
      - intros H. split; [exact ABSENT|]. intros r l Hr Hw Hn.
        now rewrite (H r l Hr Hw Hn), (trim_to_prefix q ce (proj1 CE)).
    Qed.

    Lemma wild_answer_sound answers :
      genuine_answers z answers -> k_closer q soa NoError answers ns = false ->
      no_closer_matches q soa ns (wildcard_base q answers ns) = true ->
      claim_wildcard z q answers.
    Proof.
      intros GA K4 Hncm. apply claim_wildcard_level. intros r l Hr Hw Hn.
      pose proof Hw as (_ & _ & Hl). rewrite Hn in Hl. pose proof (num_labels_bounds q).
      destruct (trim_to_le q l) as [Hpre Elen]; [lia|]. apply N.le_antisymm.
      - (* the wildcard exists, so its parent is an existing ancestor of q *)
        rewrite <- Elen. apply (absent_level _ Hpre).
        exists (prepend_star (trim_to q l)). split; [|apply prefix_app].
        rewrite <- Hn. now apply (GA r l Hr).
      - apply N.le_ngt. intros Hm. apply not_true_iff_false in K4. apply K4.
        apply (k_closer_iff FOUND). split; [exact Hncm|]. rewrite absent_ce_len. now exists r, l.
    Qed.

    Lemma wild_answer_path answers :
      soa = None -> len ce + 1 < len q -> answers <> [] ->
      wildcard_base q answers ns = Some (prepend_star ce) ->
      secure_path q qt soa NoError answers ns.
    Proof.
      intros Es Hlen Hans Hwb. pose proof (base_name_len q) as Hbl.
      (* the loop answers parent(q), which does not exist, so *.parent(q) is covered with q *)
      assert (En : nce_of q soa cov = base_name q).
      { destruct absent_nce_level as (Hp & El & Hl); [rewrite Es; apply base_name_neq, absent_nonroot|].
        replace (nce0_of q soa) with (base_name q) in El by now rewrite Es.
        apply (prefix_len_eq _ _ q Hp (base_name_prefix q)). lia. }
      destruct (find_cover_exists (prepend_star (base_name q)) cov IN) as (y & Hfy & _).
      { apply (subtree_cover (base_name q)); [apply base_name_prefix| |apply prefix_app].
        rewrite (absent_level _ (base_name_prefix q)). lia. }
      rewrite <- En in Hfy.
      apply (PathWildAnswer cov y no_direct_match FOUND Hfy); [rewrite Hwb|reflexivity|exact Hans].
      apply no_closer_matches_ce. intros s E. rewrite Es in E. discriminate.
    Qed.
  End Absent.

End Query.

Theorem sound z q qt soa rc answers ns :
  wf_zone z -> (forall r, In r ns -> genuine z r) -> genuine_answers z answers ->
  soa_ok z soa -> known_code q qt soa rc answers ns = 0 ->
  verify_nsec q qt soa rc answers ns = Secure -> claim_holds z q qt rc answers.
Proof.
  intros WF GEN GA SOA HK HV.
  unfold known_code in HK.
  destruct (k_deleg q qt ns) eqn:K1; [discriminate|].
  destruct (k_ent q soa ns) eqn:K2; [discriminate|].
  destruct (k_nosoa q soa rc answers ns) eqn:K3; [discriminate|].
  destruct (k_closer q soa rc answers ns) eqn:K4; [discriminate|].
  destruct (k_star q) eqn:K5; [discriminate|]. clear HK.
  apply verify_secure_iff in HV. destruct HV as [Hs P].
  destruct P as [r Hd Hqt Hcn -> -> | cov w _ Hf Hw -> -> | cov w _ Hf _ Hncm -> Han
                | cov r _ Hf _ Hin Eo Hqt Hcn _ -> ->].
  1: now apply direct_sound with (ns := ns) (r := r).
  all: destruct (found_cover z WF q qt soa ns GEN SOA cov K1 K2 Hs Hf) as (Hz & Hocc & Hne & Hce);
    split; [exact Hz|]; split; [exact Hocc|].
  - exact (nx_sound z WF q soa ns GEN SOA cov _ K5 Hs Hf Hne Hce w K2 K3 Hw).
  - destruct answers; [contradiction|].
    exact (wild_answer_sound z WF q soa ns GEN SOA cov _ Hf Hne Hce _ GA K4 Hncm).
  - exact (wild_nodata_sound z WF q qt soa ns GEN SOA cov _ K5 Hs Hf Hne Hce r Hin Eo Hqt Hcn).
Qed.

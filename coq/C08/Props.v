(* C08 — property theorems.  [verify_nsec] is the line-by-line model of the Rust function.  A zone [z]
   is an apex plus its authoritative owner names with type sets; [genuine z r] says that the
   NSEC record r is the one RFC 4034 section 4 prescribes for its owner in z; [claim_holds]
   is what the response asserts (RFC 4035 5.4, RFC 4592, RFC 6840 4.1), evaluated in z.
   Soundness = for EVERY zone that genuinely contains the NSEC records handed to
   verify_nsec, Secure implies the claim.  The model (and the real code: see the KNOWN
   findings of the check) violates this in five ways; each is a decidable class of INPUTS
   ([k_deleg], [k_ent], [k_nosoa], [k_closer], [k_star]), each is shown necessary by a
   witness, and outside them soundness is proved for all inputs. *)
From HV Require Import Lib.Base Lib.ListX C08.Model C08.Order C08.DecideProofs C08.SoundProofs.
Open Scope N_scope.

(* Only NOERROR and NXDOMAIN responses can be accepted on NSEC evidence. *)
Theorem C08_unsupported_rcode : forall q qt soa answers nsecs,
  verify_nsec q qt soa OtherRc answers nsecs = Bogus.
Proof. reflexivity. Qed.
Print Assumptions C08_unsupported_rcode.

(* "Covered" (find_nsec_covering_record) is sound up to empty non-terminals: a name
   covered by a genuine NSEC (SOA name absent or the apex) does not exist in the zone,
   unless the NSEC's next name lies beneath it. *)
Theorem C08_covered_absent : forall z soa t r,
  wf_zone z -> genuine z r -> soa_ok z soa -> covers soa t r = true ->
  exists_name z t -> prefix t (n_next r) /\ t <> n_next r.
Proof. intros z soa t r WF. now apply cover_exists. Qed.
Print Assumptions C08_covered_absent.

(* The closest encloser of a covered name can be read off the covering NSEC: it is the
   longer of the common ancestors with the NSEC's owner and with its next name. *)
Theorem C08_closest_encloser_from_cover : forall z soa q r,
  wf_zone z -> genuine z r -> soa_ok z soa -> covers soa q r = true ->
  is_ce z q (ce_of q r) /\ len (ce_of q r) = maxlcp q r.
Proof. intros z soa q r WF G SOA C. split; [now apply (ce_of_is_ce z WF soa)|apply ce_of_spec]. Qed.
Print Assumptions C08_closest_encloser_from_cover.

(* SOUNDNESS, guarded: for every zone, every query, every rcode, every answer list and every
   list of NSEC records genuine in the zone (any subset, any order, duplicates), with the SOA
   owner name absent or the apex: outside the five known classes, Secure implies the claim. *)
Theorem C08_sound_guarded : forall z q qt soa rc answers nsecs,
  wf_zone z ->
  (forall r, In r nsecs -> genuine z r) ->
  genuine_answers z answers ->
  soa_ok z soa ->
  ~ Known q qt soa rc answers nsecs ->
  verify_nsec q qt soa rc answers nsecs = Secure ->
  claim_holds z q qt rc answers.
Proof.
  intros z q qt soa rc answers nsecs WF GEN GA SOA HK HV.
  apply (sound z q qt soa rc answers nsecs WF GEN GA SOA); [|exact HV].
  unfold Known in HK. destruct (N.eq_dec (known_code q qt soa rc answers nsecs) 0); tauto.
Qed.
Print Assumptions C08_sound_guarded.

(* ---- the unguarded statement is false: one witness per class, on which ONLY that class
        fires, so none of the five guards can be dropped ---- *)

Definition unsound (z : zone) q qt soa rc answers nsecs : Prop :=
  wf_zone z /\ (forall r, In r nsecs -> genuine z r) /\ genuine_answers z answers /\
  soa_ok z soa /\ verify_nsec q qt soa rc answers nsecs = Secure /\
  ~ claim_holds z q qt rc answers.

Definition classes q qt soa rc answers nsecs : list bool :=
  [k_deleg q qt nsecs; k_ent q soa nsecs; k_nosoa q soa rc answers nsecs;
   k_closer q soa rc answers nsecs; k_star q].

(* The hypotheses on the zone that soundness, its witnesses and its instances share have sound
   boolean tests: a closed instance discharges the three of them by one evaluation. *)
Definition premisesb (z : zone) (answers : list ans) (nsecs : list nsec) : bool :=
  wf_zoneb z && forallb (genuineb z) nsecs && genuine_answersb z answers.

Lemma premises_decided z answers nsecs (P : Prop) :
  premisesb z answers nsecs = true -> P ->
  wf_zone z /\ (forall r, In r nsecs -> genuine z r) /\ genuine_answers z answers /\ P.
Proof.
  unfold premisesb. rewrite !andb_true_iff. intros [[Hwf Hgen] Hans] HP.
  split; [now apply wf_zoneb_sound|]. split; [now apply genuine_allb_sound|].
  split; [now apply genuine_answersb_sound|exact HP].
Qed.

Ltac witness :=
  apply premises_decided; [vm_compute; reflexivity|];
  split; [first [left; reflexivity|right; reflexivity]|]; split; [vm_compute; reflexivity|];
  let H := fresh in intros H; apply claimb_iff in H; vm_compute in H; discriminate.

Definition nE : name := [[101]].                       (* e. *)
Definition nAE : name := [[101]; [97]].                (* a.e. *)
Definition nBE : name := [[101]; [98]].                (* b.e. *)
Definition nCE : name := [[101]; [99]].                (* c.e. *)
Definition nSE : name := [[101]; [42]].                (* *.e. *)
Definition nAAE : name := [[101]; [97]; [97]].         (* a.a.e. *)
Definition nBAE : name := [[101]; [97]; [98]].         (* b.a.e. *)
Definition nABE : name := [[101]; [98]; [97]].         (* a.b.e. *)
Definition nBSE : name := [[101]; [42]; [98]].         (* b.*.e. *)
Definition n_sE : name := [[101]; [115]].              (* s.e. *)
Definition n_wsE : name := [[101]; [115]; [119]].      (* w.s.e. *)
Definition apexT := [2; 6; 46; 47].                    (* NS SOA RRSIG NSEC *)

(* 1. parent-side NSEC of the delegation a.e. "proves" NXDOMAIN for b.a.e. *)
Theorem C08_sound_refuted_delegation :
  exists z q qt soa rc answers nsecs,
    unsound z q qt soa rc answers nsecs /\
    classes q qt soa rc answers nsecs = [true; false; false; false; false].
Proof.
  exists (mkZone nE [(nE, apexT); (nAE, [2; 46; 47])]), nBAE, 5, (Some nE), NXDomain, [],
         [mkNsec nAE nE [2; 46; 47]].
  split; [witness|vm_compute; reflexivity].
Qed.
Print Assumptions C08_sound_refuted_delegation.

(* 2. a.e. is an empty non-terminal (a.a.e. exists); NXDOMAIN for a.e. is accepted *)
Theorem C08_sound_refuted_ent :
  exists z q qt soa rc answers nsecs,
    unsound z q qt soa rc answers nsecs /\
    classes q qt soa rc answers nsecs = [false; true; false; false; false].
Proof.
  exists (mkZone nE [(nE, apexT); (nAAE, [16; 46; 47])]), nAE, 1, (Some nE), NXDomain, [],
         [mkNsec nE nAAE apexT].
  split; [witness|vm_compute; reflexivity].
Qed.
Print Assumptions C08_sound_refuted_ent.

(* 3. no SOA: NXDOMAIN for a.b.e. accepted although *.e. exists and matches it *)
Theorem C08_sound_refuted_nosoa :
  exists z q qt soa rc answers nsecs,
    unsound z q qt soa rc answers nsecs /\
    classes q qt soa rc answers nsecs = [false; false; true; false; false].
Proof.
  exists (mkZone nE [(nE, apexT); (nSE, [1; 46; 47]); (nCE, [1; 46; 47])]), nABE, 1, None,
         NXDomain, [], [mkNsec nSE nCE [1; 46; 47]].
  split; [witness|vm_compute; reflexivity].
Qed.
Print Assumptions C08_sound_refuted_nosoa.

(* 4. answer for a.b.e. expanded from *.e. (RRSIG labels = 1) accepted although b.e. exists *)
Theorem C08_sound_refuted_closer_encloser :
  exists z q qt soa rc answers nsecs,
    unsound z q qt soa rc answers nsecs /\
    classes q qt soa rc answers nsecs = [false; false; false; true; false].
Proof.
  exists (mkZone nE [(nE, apexT); (nSE, [1; 46; 47]); (nBE, [1; 46; 47]); (nCE, [1; 46; 47])]),
         nABE, 1, None, NoError,
         [mkAns nABE true None; mkAns nABE true (Some 1)], [mkNsec nBE nCE [1; 46; 47]].
  split; [witness|vm_compute; reflexivity].
Qed.
Print Assumptions C08_sound_refuted_closer_encloser.

(* 5. b.*.e. does not exist (closest encloser *.e., no *.*.e.): NXDOMAIN is the truth,
      NODATA "at the wildcard *.e." is accepted *)
Theorem C08_sound_refuted_interior_star :
  exists z q qt soa rc answers nsecs,
    unsound z q qt soa rc answers nsecs /\
    classes q qt soa rc answers nsecs = [false; false; false; false; true].
Proof.
  exists (mkZone nE [(nE, apexT); (nSE, [16; 46; 47]); (nAE, [1; 46; 47])]), nBSE, 1, (Some nE),
         NoError, [], [mkNsec nSE nAE [16; 46; 47]].
  split; [witness|vm_compute; reflexivity].
Qed.
Print Assumptions C08_sound_refuted_interior_star.

(* The hypothesis on the SOA name is necessary too.  The caller takes the owner of the FIRST
   SOA record of the authority section whatever its proof (find_soa_name); if that name is
   not the apex but the next name of some genuine NSEC, the "next == soa" rule makes that
   NSEC cover everything after its owner: here NXDOMAIN for the existing name w.s.e., with
   none of the five classes firing. *)
Theorem C08_sound_refuted_foreign_soa_name :
  exists z q qt soa rc answers nsecs,
    wf_zone z /\ (forall r, In r nsecs -> genuine z r) /\ genuine_answers z answers /\
    (exists s, soa = Some s /\ In s (owners z) /\ prefix s q /\ s <> z_apex z) /\
    verify_nsec q qt soa rc answers nsecs = Secure /\
    ~ claim_holds z q qt rc answers /\
    classes q qt soa rc answers nsecs = [false; false; false; false; false].
Proof.
  exists (mkZone nE [(nE, apexT); (nAE, [1; 46; 47]); (n_sE, [1; 46; 47]); (n_wsE, [1; 46; 47])]),
         n_wsE, 1, (Some n_sE), NXDomain, [], [mkNsec nAE n_sE [1; 46; 47]].
  apply premises_decided; [vm_compute; reflexivity|]. split.
  { exists n_sE. split; [reflexivity|]. split; [vm_compute; tauto|].
    split; [exists [[119]]; reflexivity|discriminate]. }
  split; [vm_compute; reflexivity|].
  split; [|vm_compute; reflexivity].
  intros H; apply claimb_iff in H; vm_compute in H; discriminate.
Qed.
Print Assumptions C08_sound_refuted_foreign_soa_name.

(* ---- two of the classes are exact: inside them the claim is false in every zone, so an
        acceptance there is always wrong ---- *)

Theorem C08_class_delegation_exact : forall z q qt rc answers nsecs,
  wf_zone z -> (forall r, In r nsecs -> genuine z r) ->
  k_deleg q qt nsecs = true -> ~ claim_holds z q qt rc answers.
Proof.
  intros z q qt rc answers nsecs WF GEN Hk (_ & Hocc & _). apply Hocc.
  apply (k_deleg_iff z WF q qt nsecs GEN) in Hk. destruct Hk as (r & _ & Hp & Hd).
  now exists (n_owner r).
Qed.
Print Assumptions C08_class_delegation_exact.

Theorem C08_class_closer_encloser_exact : forall z q qt soa rc answers nsecs,
  wf_zone z -> (forall r, In r nsecs -> genuine z r) -> soa_ok z soa ->
  k_closer q soa rc answers nsecs = true -> ~ claim_holds z q qt rc answers.
Proof.
  intros z q qt soa rc answers nsecs WF GEN SOA Hk (_ & _ & Hcl).
  assert (rc = NoError) as -> by (unfold k_closer in Hk; now destruct rc).
  destruct (find_cover soa q nsecs) as [cov|] eqn:Hf; [|unfold k_closer in Hk; now rewrite Hf in Hk].
  apply (k_closer_iff Hf) in Hk. destruct Hk as (_ & r & l & Hr & Hw & Hn & Hm).
  destruct answers as [|a0 answers']; [destruct Hr|].
  destruct (find_cover_some _ _ _ _ Hf) as [Hin Hc].
  pose proof (ce_of_is_ce z WF soa q cov (GEN cov Hin) SOA Hc) as Hce.
  rewrite (proj1 (claim_wildcard_level z q _ (proj1 Hcl) Hce _) Hcl r l Hr Hw Hn),
    (proj2 (ce_of_spec q cov)) in Hm. lia.
Qed.
Print Assumptions C08_class_closer_encloser_exact.

(* ---- COMPLETENESS, the validator's half: when the NSEC list contains what RFC 4035 3.1.3
        prescribes (whatever else it contains, in any order), verify_nsec accepts.  "partial":
        the other half, that the SERVER attaches these records (nsec_records / closest_nsec in
        crates/server), is not modelled here; the check measures it end to end on the real
        in-memory server (family e2e of the harness) and reports where it fails. ---- *)

(* NODATA at an owner name: its own NSEC suffices (SOA name absent or the apex). *)
Theorem C08_complete_nodata_partial : forall z q qt soa nsecs r,
  wf_zone z -> (forall r, In r nsecs -> genuine z r) -> soa_ok z soa ->
  In r nsecs -> n_owner r = q -> ~ has_type z q qt -> ~ has_type z q T_CNAME ->
  verify_nsec q qt soa NoError [] nsecs = Secure.
Proof.
  intros z q qt soa nsecs r WF GEN SOA Hin Ho Hqt Hcn. apply verify_secure_iff. split.
  - apply (soa_above z q soa SOA), (owner_apex z WF). rewrite <- Ho. apply (genuine_owner z r (GEN r Hin)).
  - now apply (direct_path z WF q qt soa nsecs GEN r).
Qed.
Print Assumptions C08_complete_nodata_partial.

(* NXDOMAIN (the response carries the SOA): an NSEC covering the name and one covering the
   wildcard at the closest encloser suffice.  Guard: no interior "*" in the query name. *)
Theorem C08_complete_nxdomain_guarded_partial : forall z q qt soa nsecs c w,
  wf_zone z -> (forall r, In r nsecs -> genuine z r) ->
  soa = Some (z_apex z) -> prefix (z_apex z) q -> ~ exists_name z q -> k_star q = false ->
  In c nsecs -> covers soa q c = true ->
  In w nsecs -> (forall ce, is_ce z q ce -> covers soa (prepend_star ce) w = true) ->
  verify_nsec q qt soa NXDomain [] nsecs = Secure.
Proof.
  intros z q qt soa nsecs c w WF GEN Hs Hz Hne Hst Hc Hcc Hw Hcw.
  assert (SOA : soa_ok z soa) by now right. pose proof (soa_above z q soa SOA Hz) as GUARD.
  destruct (find_cover_exists soa nsecs q c Hc Hcc) as (cov & Hf & Hin & Hcov).
  pose proof (ce_of_is_ce z WF soa q cov (GEN cov Hin) SOA Hcov) as Hce.
  apply verify_secure_iff. split; [exact GUARD|].
  exact (nx_path z WF q qt soa nsecs GEN SOA cov _ Hst GUARD Hf Hne Hce w
           (absent_apex_level z WF q soa _ GUARD Hce Hs) Hw (Hcw _ Hce)).
Qed.
Print Assumptions C08_complete_nxdomain_guarded_partial.

(* Wildcard-expanded answer (such responses carry no SOA): an NSEC covering the query name
   inside the chain suffices.  Guards: the closest encloser is not the parent of the query
   name; the covering NSEC is not the wrap-around one (covers with soa = None); no interior
   "*"; every Secure RRSIG of the answer is at the query name with Labels = |encloser|. *)
Theorem C08_complete_wildcard_answer_guarded_partial : forall z q qt nsecs answers ce c,
  wf_zone z -> (forall r, In r nsecs -> genuine z r) ->
  k_star q = false -> ~ exists_name z q -> is_ce z q ce -> len ce + 1 < len q ->
  answers <> [] ->
  (forall r l, In r answers -> a_secure r = true -> a_rrsig r = Some l -> a_name r = q /\ l = len ce) ->
  (exists r, In r answers /\ a_secure r = true /\ a_rrsig r = Some (len ce)) ->
  In c nsecs -> covers None q c = true ->
  verify_nsec q qt None NoError answers nsecs = Secure.
Proof.
  intros z q qt nsecs answers ce c _ GEN Hst Hne Hce Hlen Hans Hall (r0 & Hr0 & Hsec0 & Hsig0) Hc Hcc.
  destruct (find_cover_exists None nsecs q c Hc Hcc) as (cov & Hf & Hin & Hcov).
  apply verify_secure_iff. split; [discriminate|].
  apply (wild_answer_path z q qt None nsecs GEN cov ce Hst); auto; [discriminate|].
  assert (Hlc : len ce < num_labels q) by (pose proof (num_labels_bounds q); lia).
  exact (wildcard_base_answers q nsecs answers ce r0 (proj1 Hce) Hlc Hall Hr0 Hsec0 Hsig0).
Qed.
Print Assumptions C08_complete_wildcard_answer_guarded_partial.

(* NODATA at the wildcard of the closest encloser (the response carries the SOA): the NSEC
   covering the name and the wildcard's own NSEC suffice.  Guards: no interior "*"; no NSEC of
   another wildcard enclosing the query name in the list (the code would pick the shortest
   one as "the" wildcard and then demand the real one to be covered). *)
Theorem C08_complete_wildcard_nodata_guarded_partial : forall z q qt soa nsecs ce c r,
  wf_zone z -> (forall r, In r nsecs -> genuine z r) ->
  soa = Some (z_apex z) -> prefix (z_apex z) q -> k_star q = false ->
  ~ exists_name z q -> is_ce z q ce ->
  In c nsecs -> covers soa q c = true ->
  In r nsecs -> n_owner r = prepend_star ce ->
  ~ has_type z (prepend_star ce) qt -> ~ has_type z (prepend_star ce) T_CNAME ->
  (forall r', In r' nsecs -> is_wildcard (n_owner r') = true ->
              prefix (base_name (n_owner r')) q -> n_owner r' = prepend_star ce) ->
  verify_nsec q qt soa NoError [] nsecs = Secure.
Proof.
  intros z q qt soa nsecs ce c r WF GEN Hs Hz Hst Hne Hce Hc Hcc Hr Hro Hqt Hcn Honly.
  assert (SOA : soa_ok z soa) by now right. pose proof (soa_above z q soa SOA Hz) as GUARD.
  destruct (find_cover_exists soa nsecs q c Hc Hcc) as (cov & Hf & Hin & Hcov).
  apply verify_secure_iff. split; [exact GUARD|].
  rewrite <- Hro in Hqt, Hcn. apply (genuine_lacks z WF r _ (GEN r Hr)) in Hqt, Hcn.
  exact (wild_nodata_path z WF q qt soa nsecs GEN SOA cov ce Hst GUARD Hf Hne Hce r
           (absent_apex_level z WF q soa ce GUARD Hce Hs) Hr Hro Hqt Hcn
           (wildcard_base_nsecs q nsecs ce r (proj1 Hce) Hr Hro Honly)).
Qed.
Print Assumptions C08_complete_wildcard_nodata_guarded_partial.

(* ---- where completeness is lost although the list is the WHOLE genuine chain and the
        claim is true ---- *)

Definition rejected (z : zone) q qt soa rc answers nsecs : Prop :=
  wf_zone z /\ whole_chain z nsecs /\ genuine_answers z answers /\ soa_ok z soa /\
  claim_holds z q qt rc answers /\ verify_nsec q qt soa rc answers nsecs = Bogus.

Ltac rejected_witness :=
  split; [apply wf_zoneb_sound; vm_compute; reflexivity|];
  split; [apply whole_chainb_sound; vm_compute; reflexivity|];
  split; [apply genuine_answersb_sound; vm_compute; reflexivity|];
  split; [first [left; reflexivity|right; reflexivity]|];
  split; [apply claimb_iff; vm_compute; reflexivity|vm_compute; reflexivity].

(* NODATA for the empty non-terminal a.e. (a.a.e. exists) *)
Theorem C08_complete_refuted_ent_nodata :
  exists z q qt soa rc answers nsecs, rejected z q qt soa rc answers nsecs.
Proof.
  exists (mkZone nE [(nE, apexT); (nAAE, [16; 46; 47])]), nAE, 1, (Some nE), NoError, [],
         [mkNsec nE nAAE apexT; mkNsec nAAE nE [16; 46; 47]].
  rejected_witness.
Qed.
Print Assumptions C08_complete_refuted_ent_nodata.

(* b.e. answered from *.e. (RRSIG labels 1): the closest encloser is the parent of the
   query name, the code wants *.e. itself covered *)
Theorem C08_complete_refuted_wildcard_child :
  exists z q qt soa rc answers nsecs, rejected z q qt soa rc answers nsecs.
Proof.
  exists (mkZone nE [(nE, apexT); (nSE, [1; 46; 47]); (nCE, [1; 46; 47])]), nBE, 1, None, NoError,
         [mkAns nBE true None; mkAns nBE true (Some 1)],
         [mkNsec nE nSE apexT; mkNsec nSE nCE [1; 46; 47]; mkNsec nCE nE [1; 46; 47]].
  rejected_witness.
Qed.
Print Assumptions C08_complete_refuted_wildcard_child.

(* a.b.e. answered from *.e.; the covering NSEC is the last of the chain; no SOA, no wrap *)
Theorem C08_complete_refuted_wrap_without_soa :
  exists z q qt soa rc answers nsecs, rejected z q qt soa rc answers nsecs.
Proof.
  exists (mkZone nE [(nE, apexT); (nSE, [1; 46; 47])]), nABE, 1, None, NoError,
         [mkAns nABE true None; mkAns nABE true (Some 1)],
         [mkNsec nE nSE apexT; mkNsec nSE nE [1; 46; 47]].
  rejected_witness.
Qed.
Print Assumptions C08_complete_refuted_wrap_without_soa.

(* b.*.e.: NXDOMAIN is true (closest encloser *.e., no *.*.e.) and rejected *)
Theorem C08_complete_refuted_interior_star :
  exists z q qt soa rc answers nsecs, rejected z q qt soa rc answers nsecs.
Proof.
  exists (mkZone nE [(nE, apexT); (nSE, [16; 46; 47])]), nBSE, 1, (Some nE), NXDomain, [],
         [mkNsec nE nSE apexT; mkNsec nSE nE [16; 46; 47]].
  rejected_witness.
Qed.
Print Assumptions C08_complete_refuted_interior_star.

(* The specification is decidable; [claimb] is what the harness's oracle is compared with. *)
Theorem C08_claim_decided : forall z q qt rc answers,
  claimb z q qt rc answers = true <-> claim_holds z q qt rc answers.
Proof. exact claimb_iff. Qed.
Print Assumptions C08_claim_decided.

(* ---- non-vacuity of C08_sound_guarded: all hypotheses hold and verify_nsec = Secure,
        one instance per accepting path (RFC 4035 B.2, B.3, B.6, B.7 in miniature) ---- *)

Definition hyps (z : zone) q qt soa rc answers nsecs : Prop :=
  wf_zone z /\ (forall r, In r nsecs -> genuine z r) /\ genuine_answers z answers /\
  soa_ok z soa /\ ~ Known q qt soa rc answers nsecs /\
  verify_nsec q qt soa rc answers nsecs = Secure.

Ltac instance :=
  apply premises_decided; [vm_compute; reflexivity|];
  split; [first [left; reflexivity|right; reflexivity]|];
  split; [unfold Known; vm_compute; tauto|vm_compute; reflexivity].

Definition zEx : zone :=
  mkZone nE [(nE, apexT); (nSE, [1; 46; 47]); (nBE, [1; 46; 47]); (nAAE, [16; 46; 47])].
(* chain: e. -> *.e. -> a.a.e. -> b.e. -> e. *)

Example C08_example_nodata :          (* b.e. has A but no TXT *)
  hyps zEx nBE 16 (Some nE) NoError [] [mkNsec nBE nE [1; 46; 47]].
Proof. instance. Qed.

Example C08_example_nxdomain :        (* c.b.e.: covered by b.e. -> e.; *.b.e. covered too *)
  hyps zEx [[101]; [98]; [99]] 1 (Some nE) NXDomain [] [mkNsec nBE nE [1; 46; 47]].
Proof. instance. Qed.

Example C08_example_wildcard_answer : (* x.0.e. answered from *.e. (labels 1), no SOA *)
  hyps zEx [[101]; [48]; [120]] 1 None NoError
       [mkAns [[101]; [48]; [120]] true None; mkAns [[101]; [48]; [120]] true (Some 1)]
       [mkNsec nBE nE [1; 46; 47]; mkNsec nSE nAAE [1; 46; 47]].
Proof. instance. Qed.

Example C08_example_wildcard_nodata : (* c.e. TXT: *.e. has A only *)
  hyps zEx nCE 16 (Some nE) NoError [] [mkNsec nBE nE [1; 46; 47]; mkNsec nSE nAAE [1; 46; 47]].
Proof. instance. Qed.

(* ---- non-vacuity of the completeness theorems and of the two theorems about covering:
        each is applied to concrete data, all hypotheses discharged ---- *)

Lemma wf_zEx : wf_zone zEx.
Proof. apply wf_zoneb_sound. vm_compute. reflexivity. Qed.

Example C08_complete_nodata_example :
  verify_nsec nBE 16 (Some nE) NoError [] [mkNsec nBE nE [1; 46; 47]] = Secure.
Proof.
  apply (C08_complete_nodata_partial zEx nBE 16 (Some nE) _ (mkNsec nBE nE [1; 46; 47]) wf_zEx).
  - apply genuine_allb_sound. vm_compute. reflexivity.
  - right. reflexivity.
  - now left.
  - reflexivity.
  - intros H. apply has_typeb_iff in H. vm_compute in H. discriminate.
  - intros H. apply has_typeb_iff in H. vm_compute in H. discriminate.
Qed.

Example C08_complete_nxdomain_example :
  verify_nsec [[101]; [98]; [99]] 1 (Some nE) NXDomain [] [mkNsec nBE nE [1; 46; 47]] = Secure.
Proof.
  apply (C08_complete_nxdomain_guarded_partial zEx [[101]; [98]; [99]] 1 (Some nE) _
           (mkNsec nBE nE [1; 46; 47]) (mkNsec nBE nE [1; 46; 47]) wf_zEx).
  - apply genuine_allb_sound. vm_compute. reflexivity.
  - reflexivity.
  - exists [[98]; [99]]. reflexivity.
  - intros H. apply exists_nameb_iff in H. vm_compute in H. discriminate.
  - reflexivity.
  - now left.
  - reflexivity.
  - now left.
  - intros ce Hce.
    assert (E : ce = nBE).
    { apply (is_ce_unique zEx [[101]; [98]; [99]]); [exact Hce|]. apply is_ceb_iff. vm_compute. reflexivity. }
    subst ce. reflexivity.
Qed.

Example C08_complete_wildcard_answer_example :
  verify_nsec [[101]; [48]; [120]] 1 None NoError
    [mkAns [[101]; [48]; [120]] true None; mkAns [[101]; [48]; [120]] true (Some 1)]
    [mkNsec nSE nAAE [1; 46; 47]] = Secure.
Proof.
  apply (C08_complete_wildcard_answer_guarded_partial zEx [[101]; [48]; [120]] 1 _ _ nE
           (mkNsec nSE nAAE [1; 46; 47]) wf_zEx).
  - apply genuine_allb_sound. vm_compute. reflexivity.
  - reflexivity.
  - intros H. apply exists_nameb_iff in H. vm_compute in H. discriminate.
  - apply is_ceb_iff. vm_compute. reflexivity.
  - vm_compute. reflexivity.
  - discriminate.
  - intros r l [<-|[<-|[]]] Hs Hl; cbn in Hl; [discriminate|]. inversion Hl. split; reflexivity.
  - exists (mkAns [[101]; [48]; [120]] true (Some 1)). split; [right; now left|]. split; reflexivity.
  - now left.
  - reflexivity.
Qed.

Example C08_complete_wildcard_nodata_example :
  verify_nsec nCE 16 (Some nE) NoError [] [mkNsec nBE nE [1; 46; 47]; mkNsec nSE nAAE [1; 46; 47]] = Secure.
Proof.
  apply (C08_complete_wildcard_nodata_guarded_partial zEx nCE 16 (Some nE) _ nE
           (mkNsec nBE nE [1; 46; 47]) (mkNsec nSE nAAE [1; 46; 47]) wf_zEx).
  - apply genuine_allb_sound. vm_compute. reflexivity.
  - reflexivity.
  - exists [[99]]. reflexivity.
  - reflexivity.
  - intros H. apply exists_nameb_iff in H. vm_compute in H. discriminate.
  - apply is_ceb_iff. vm_compute. reflexivity.
  - now left.
  - reflexivity.
  - right. now left.
  - reflexivity.
  - intros H. apply has_typeb_iff in H. vm_compute in H. discriminate.
  - intros H. apply has_typeb_iff in H. vm_compute in H. discriminate.
  - intros r' [<-|[<-|[]]] Hw Hp; [vm_compute in Hw; discriminate|reflexivity].
Qed.

(* C08_covered_absent / C08_closest_encloser_from_cover: a.e. is covered by *.e. -> a.a.e.,
   exists (as an empty non-terminal), and indeed lies above the next name; the closest
   encloser of x.0.e. read off the same NSEC is e. *)
Example C08_covered_absent_example :
  prefix nAE nAAE /\ nAE <> nAAE /\ is_ce zEx [[101]; [48]; [120]] nE.
Proof.
  pose proof (C08_covered_absent zEx (Some nE) nAE (mkNsec nSE nAAE [1; 46; 47]) wf_zEx) as H.
  destruct H as [H1 H2].
  - apply genuineb_sound. vm_compute. reflexivity.
  - right. reflexivity.
  - reflexivity.
  - apply exists_nameb_iff. vm_compute. reflexivity.
  - split; [exact H1|]. split; [exact H2|].
    pose proof (C08_closest_encloser_from_cover zEx None [[101]; [48]; [120]]
                  (mkNsec nSE nAAE [1; 46; 47]) wf_zEx) as H.
    destruct H as [H _].
    + apply genuineb_sound. vm_compute. reflexivity.
    + left. reflexivity.
    + reflexivity.
    + exact H.
Qed.

(* the two exact classes are inhabited by the witnesses above (k_deleg, k_closer = true there) *)

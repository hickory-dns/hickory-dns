(* C20 — lexical level: every layout of a line (blanks, comments, CRLF, quoted strings,
   parenthesised groups with line breaks and comments) lexes to the tokens of its items, with the
   cap too while no call crosses too many characters; a long word trips the cap. *)
From Coq Require Import String Ascii.
From HV Require Import Lib.Base C20.Model C20.LexProofs.
Open Scope N_scope.

Lemma cons_snoc {A} (v : list A) x l : v ++ x :: l = (v ++ [x]) ++ l.
Proof. now rewrite <- app_assoc. Qed.

Definition cfg := (str * lst * option str * option (list str))%type.

Inductive Steps : cfg -> cfg -> Prop :=
| steps_refl c : Steps c c
| steps_cons txt st cd cdv t s c v c' :
    step txt st cd cdv = Cont t s c v -> Steps (t, s, c, v) c' -> Steps (txt, st, cd, cdv) c'.

Lemma steps_trans a b c : Steps a b -> Steps b c -> Steps a c.
Proof. induction 1; intros; [assumption|]. eapply steps_cons; eauto. Qed.

Lemma steps_one txt st cd cdv t s c v :
  step txt st cd cdv = Cont t s c v -> Steps (txt, st, cd, cdv) (t, s, c, v).
Proof. intros H. eapply steps_cons; [exact H|apply steps_refl]. Qed.

Definition run (f : nat) (x : cfg) : lres := let '(txt, st, cd, cdv) := x in lex_loop f txt st cd cdv.

Lemma steps_run a b : Steps a b -> forall f, exists f', run f' a = run f b.
Proof.
  induction 1 as [x|txt st cd cdv t s c v c' Hs _ IH]; intros f; [now exists f|].
  destruct (IH f) as [f' E]. exists (S f'). cbn [run lex_loop]. now rewrite Hs.
Qed.

Lemma lex_of_steps n {txt st t s c v} r :
  Steps (txt, st, None, None) (t, s, c, v) -> lex_loop n t s c v = r -> r <> LPanic ->
  next_token_nocap txt st = r.
Proof.
  intros HS <- NP. destruct (steps_run _ _ HS n) as [f E]. cbn [run] in E.
  unfold next_token_nocap. rewrite <- E. apply lex_loop_fuel_indep; [apply next_token_nocap_total|now rewrite E].
Qed.

Lemma tok_of_steps {txt st t s c v tk r s'} :
  Steps (txt, st, None, None) (t, s, c, v) -> step t s c v = RetTok tk r s' ->
  next_token_nocap txt st = LTok tk r s'.
Proof.
  intros H1 H2. apply (lex_of_steps 1 _ H1); [cbn [lex_loop]; now rewrite H2|discriminate].
Qed.

Lemma nocap_steps txt st t s :
  Steps (txt, st, None, None) (t, s, None, None) -> next_token_nocap txt st = next_token_nocap t s.
Proof. intros H. exact (lex_of_steps _ _ H eq_refl (next_token_nocap_total t s)). Qed.

Lemma blank_cases c : blank c = true -> c = 32 \/ c = 9.
Proof. unfold blank. intros H. apply orb_true_iff in H as [H|H]; apply N.eqb_eq in H; auto. Qed.

Lemma ws_false_nl c : is_ws c = false -> is_nl c = false.
Proof. intros H. destruct (is_nl c) eqn:E; [|reflexivity]. apply is_nl_ws in E. congruence. Qed.

Lemma wordch_facts c : wordch c = true ->
  is_plain c = true /\ is_ws c = false /\ is_nl c = false /\
  (c =? 40) = false /\ (c =? 41) = false /\ (c =? 34) = false /\ (c =? 59) = false.
Proof.
  unfold wordch, is_plain. rewrite !andb_true_iff, !negb_true_iff.
  intros [[[[[Hctl Hws] H40] H41] H34] H59]. repeat split; auto using ws_false_nl.
Qed.

Lemma step_rol_blank c r cd cdv : blank c = true ->
  step (c :: r) SRestOfLine cd cdv = Cont r SRestOfLine cd cdv.
Proof. intros H. destruct (blank_cases c H); subst; reflexivity. Qed.

Lemma step_rol_word c r cd cdv : wordch c = true -> (c =? 64) = false -> (c =? 36) = false ->
  step (c :: r) SRestOfLine cd cdv = Cont (c :: r) (SCharData false) (Some []) cdv.
Proof.
  intros W H64 H36. destruct (wordch_facts c W) as (P & Hws & Hnl & H40 & H41 & H34 & H59).
  cbn [step]. now rewrite H64, H40, H41, H36, Hnl, H34, H59, Hws, P.
Qed.

Lemma step_cd_push c r l s cdv : wordch c = true ->
  step (c :: r) (SCharData l) (Some s) cdv = Cont r (SCharData l) (Some (s ++ [c])) cdv.
Proof.
  intros W. destruct (wordch_facts c W) as (P & Hws & _ & _ & H41 & _ & H59).
  cbn [step]. rewrite H41, H59, Hws, P. cbn. reflexivity.
Qed.

(* what ends a word outside parentheses *)
Definition wend (c : N) : bool := is_ws c || (c =? 59).

Lemma wend_not41 c : wend c = true -> (c =? 41) = false.
Proof.
  unfold wend. intros H. apply orb_true_iff in H as [H|H].
  - destruct (N.eqb_spec c 41); [subst; discriminate|reflexivity].
  - apply N.eqb_eq in H. subst. reflexivity.
Qed.

Lemma step_cd_end c r s cdv : wend c = true ->
  step (c :: r) (SCharData false) (Some s) cdv = RetTok (TChar s) (c :: r) SRestOfLine.
Proof.
  intros H. pose proof (wend_not41 c H) as H41. cbn [step]. rewrite H41. cbn [andb negb].
  unfold wend in H. apply orb_true_iff in H as [H|H]; rewrite H; cbn [orb]; rewrite ?orb_true_r; reflexivity.
Qed.

Lemma steps_word_chars : forall w r l acc cdv, forallb wordch w = true ->
  Steps (w ++ r, SCharData l, Some acc, cdv) (r, SCharData l, Some (acc ++ w), cdv).
Proof.
  induction w as [|c w IH]; intros r l acc cdv H; cbn [app].
  - rewrite app_nil_r. apply steps_refl.
  - cbn [forallb] in H. apply andb_true_iff in H as [Hc Hw].
    eapply steps_cons; [apply step_cd_push; exact Hc|].
    rewrite (cons_snoc acc c w). apply IH. exact Hw.
Qed.

Lemma steps_blanks : forall g r cd cdv, forallb blank g = true ->
  Steps (g ++ r, SRestOfLine, cd, cdv) (r, SRestOfLine, cd, cdv).
Proof.
  induction g as [|c g IH]; intros r cd cdv H; cbn [app]; [apply steps_refl|].
  cbn [forallb] in H. apply andb_true_iff in H as [Hc Hg].
  eapply steps_cons; [apply step_rol_blank; exact Hc|]. apply IH. exact Hg.
Qed.

Lemma skip_blanks g txt : forallb blank g = true ->
  next_token_nocap (g ++ txt) SRestOfLine = next_token_nocap txt SRestOfLine.
Proof. intros H. apply nocap_steps, steps_blanks, H. Qed.

Lemma step_quote_esc c r s cdv : (c =? 34) || (c =? 92) = true ->
  step (92 :: c :: r) SQuote (Some s) cdv = Cont r SQuote (Some (s ++ [c])) cdv.
Proof.
  intros H. apply orb_true_iff in H as [H|H]; apply N.eqb_eq in H; subst; reflexivity.
Qed.

Lemma step_quote_plain c r s cdv : (c =? 34) || (c =? 92) = false ->
  step (c :: r) SQuote (Some s) cdv = Cont r SQuote (Some (s ++ [c])) cdv.
Proof.
  intros H. apply orb_false_iff in H as [H1 H2]. cbn [step]. now rewrite H1, H2.
Qed.

Lemma steps_quote_body : forall s r acc cdv,
  Steps (esc s ++ r, SQuote, Some acc, cdv) (r, SQuote, Some (acc ++ s), cdv).
Proof.
  induction s as [|c s IH]; intros r acc cdv; cbn [esc flat_map app].
  - rewrite app_nil_r. apply steps_refl.
  - fold (esc s). unfold esc_ch. destruct ((c =? 34) || (c =? 92)) eqn:E; cbn [app].
    + eapply steps_cons; [apply step_quote_esc; exact E|]. rewrite (cons_snoc acc c s). apply IH.
    + eapply steps_cons; [apply step_quote_plain; exact E|]. rewrite (cons_snoc acc c s). apply IH.
Qed.

Lemma lws_cases c : blank c || is_nl c = true -> c = 32 \/ c = 9 \/ c = 13 \/ c = 10.
Proof.
  intros H. apply orb_true_iff in H as [H|H].
  - destruct (blank_cases c H); auto.
  - unfold is_nl in H. apply orb_true_iff in H as [H|H]; apply N.eqb_eq in H; auto.
Qed.

Lemma step_list_ws c r cd cdv : blank c || is_nl c = true ->
  step (c :: r) SList cd cdv = Cont r SList cd cdv.
Proof. intros H. destruct (lws_cases c H) as [->|[->|[->| ->]]]; reflexivity. Qed.

Lemma step_comment_char c r l cd cdv : is_nl c = false ->
  step (c :: r) (SComment l) cd cdv = Cont r (SComment l) cd cdv.
Proof. intros H. cbn [step]. now rewrite H. Qed.

Lemma steps_comment_text : forall t r l cd cdv, forallb (fun c => negb (is_nl c)) t = true ->
  Steps (t ++ r, SComment l, cd, cdv) (r, SComment l, cd, cdv).
Proof.
  induction t as [|c t IH]; intros r l cd cdv H; cbn [app]; [apply steps_refl|].
  cbn [forallb] in H. apply andb_true_iff in H as [Hc Ht]. apply negb_true_iff in Hc.
  eapply steps_cons; [apply step_comment_char; exact Hc|]. now apply IH.
Qed.

Lemma steps_lpiece p r cd cdv : lpiece_ok p = true ->
  Steps (render_lpiece p ++ r, SList, cd, cdv) (r, SList, cd, cdv).
Proof.
  destruct p as [c|t nl]; cbn [lpiece_ok render_lpiece]; intros H.
  - cbn [app]. apply steps_one. now apply step_list_ws.
  - apply andb_true_iff in H as [Ht Hnl]. cbn [app].
    eapply steps_cons; [reflexivity|]. rewrite <- app_assoc.
    eapply steps_trans; [apply steps_comment_text; exact Ht|]. cbn [app].
    eapply steps_cons; [cbn [step]; rewrite Hnl; reflexivity|].
    apply steps_one. apply step_list_ws. rewrite Hnl. apply orb_true_r.
Qed.

Lemma steps_lgap : forall g r cd cdv, lgap_ok g = true ->
  Steps (render_lgap g ++ r, SList, cd, cdv) (r, SList, cd, cdv).
Proof.
  induction g as [|p g IH]; intros r cd cdv H; cbn [render_lgap flat_map app]; [apply steps_refl|].
  cbn [lgap_ok forallb] in H. apply andb_true_iff in H as [Hp Hg].
  rewrite <- app_assoc. eapply steps_trans; [apply steps_lpiece; exact Hp|]. now apply IH.
Qed.

Lemma step_list_word c r cd cdv : wordch c = true ->
  step (c :: r) SList cd cdv = Cont (c :: r) (SCharData true) (Some []) cdv.
Proof.
  intros W. destruct (wordch_facts c W) as (P & Hws & _ & _ & H41 & _ & H59).
  cbn [step]. now rewrite H59, H41, Hws, P.
Qed.

Lemma step_cd_end_list c r s v : sepch c = true ->
  step (c :: r) (SCharData true) (Some s) (Some v) = Cont (c :: r) SList None (Some (v ++ [s])).
Proof. intros H. cbn [step]. unfold sepch in H. rewrite H. now rewrite andb_false_r. Qed.

Lemma lgap_head_sepch : forall g r, lgap_ok g = true -> g <> [] ->
  exists c t, render_lgap g ++ r = c :: t /\ sepch c = true.
Proof.
  intros [|p g] r H Hne; [congruence|]. cbn [lgap_ok forallb] in H. apply andb_true_iff in H as [Hp _].
  destruct p as [c|t nl]; cbn [render_lgap flat_map render_lpiece app].
  - exists c. eexists. split; [reflexivity|]. unfold sepch. cbn [lpiece_ok] in Hp.
    destruct (lws_cases c Hp) as [->|[->|[->| ->]]]; reflexivity.
  - exists 59. eexists. split; [reflexivity|]. reflexivity.
Qed.

Lemma group_seps_ok_cons_inv g w ws : group_seps_ok ((g, w) :: ws) = true ->
  lgap_ok g = true /\ gword_ok w = true /\ group_seps_ok ws = true /\
  match ws with [] => True | (g2, _) :: _ => g2 <> [] end.
Proof.
  cbn [group_seps_ok]. rewrite !andb_true_iff. intros [[[Hg Hw] Hsep] Hrest]. repeat split; auto.
  destruct ws as [|[[|p g2] w2] ws2]; [exact I|discriminate..].
Qed.

(* a word of a group is followed by a separator: a gap that is not empty, or ")" *)
Lemma group_rest_head ws close r : group_seps_ok ws = true -> lgap_ok close = true ->
  match ws with [] => True | (g, _) :: _ => g <> [] end ->
  exists x t, render_group_body ws ++ render_lgap close ++ 41 :: r = x :: t /\ sepch x = true.
Proof.
  intros Hs Hc Hne. destruct ws as [|[g w] ws]; cbn [render_group_body flat_map fst app].
  - destruct close; [exists 41; eexists; split; reflexivity|]. apply lgap_head_sepch; [exact Hc|discriminate].
  - rewrite <- !app_assoc. destruct (group_seps_ok_cons_inv g w ws Hs) as (Hg & _). now apply lgap_head_sepch.
Qed.

Lemma steps_group_words : forall ws close r v,
  group_seps_ok ws = true -> lgap_ok close = true ->
  Steps (render_group_body ws ++ render_lgap close ++ 41 :: r, SList, None, Some v)
        (41 :: r, SList, None, Some (v ++ map snd ws)).
Proof.
  induction ws as [|[g w] ws IH]; intros close r v Hs Hc.
  - cbn [render_group_body flat_map app map]. rewrite app_nil_r. now apply steps_lgap.
  - destruct (group_seps_ok_cons_inv g w ws Hs) as (Hg & Hw & Hrest & Hsep).
    cbn [render_group_body flat_map fst snd]. fold (render_group_body ws).
    rewrite <- !app_assoc.
    eapply steps_trans; [apply steps_lgap; exact Hg|].
    unfold gword_ok in Hw. destruct w as [|c w]; [discriminate|].
    pose proof Hw as Hc0. cbn [forallb] in Hc0. apply andb_true_iff in Hc0 as [Hc0 _].
    cbn [app]. eapply steps_cons; [apply step_list_word; exact Hc0|]. rewrite app_comm_cons.
    eapply steps_trans; [apply steps_word_chars; exact Hw|].
    destruct (group_rest_head ws close r Hrest Hc Hsep) as (x & t & E & Hx). rewrite E.
    eapply steps_cons; [apply step_cd_end_list; exact Hx|]. rewrite <- E.
    cbn [map snd]. rewrite (cons_snoc v (c :: w) (map snd ws)).
    apply IH; assumption.
Qed.

(* what must come next for the token of an item to end: the end of the text will do *)
Definition follows (i : item) (more : str) : Prop :=
  match i, more with
  | IWord _, c :: _ => wend c = true
  | IDir _, c :: _ => is_upper c = false
  | _, _ => True
  end.

Lemma word_ok_inv w : word_ok w = true ->
  exists c r, w = c :: r /\ forallb wordch w = true /\ (c =? 64) = false /\ (c =? 36) = false.
Proof.
  destruct w as [|c r]; [discriminate|]. cbn [word_ok]. intros H.
  apply andb_true_iff in H as [H H36]. apply andb_true_iff in H as [H H64].
  apply negb_true_iff in H36. apply negb_true_iff in H64. exists c, r. auto.
Qed.

Lemma steps_word w more : word_ok w = true ->
  Steps (w ++ more, SRestOfLine, None, None) (more, SCharData false, Some w, None).
Proof.
  intros H. destruct (word_ok_inv w H) as (c & r & -> & Hw & H64 & H36).
  pose proof Hw as Hc. cbn [forallb] in Hc. apply andb_true_iff in Hc as [Hc _].
  eapply steps_cons; [apply step_rol_word; assumption|]. exact (steps_word_chars (c :: r) more false [] None Hw).
Qed.

Lemma dollar_steps d more : match more with c :: _ => is_upper c = false | [] => True end ->
  exists s, Steps (render_item (IDir d) ++ more, SRestOfLine, None, None) (more, SDollar, Some s, None)
           /\ step more SDollar (Some s) None = RetTok (item_tok (IDir d)) more SRestOfLine.
Proof.
  intros H. destruct d; cbn [render_item item_tok]; eexists; split.
  1,3: repeat (eapply steps_cons; [reflexivity|]); apply steps_refl.
  all: destruct more as [|c r]; [reflexivity|]; cbn [step]; rewrite H; reflexivity.
Qed.

(* The call returns the token of the item.  It leaves [SRestOfLine], except after a word that runs
   to the end of the text: there it leaves [SEOF], from which the next call returns the same. *)
Lemma tok_item_rol i more : item_ok i = true -> follows i more ->
  exists st, next_token_nocap (render_item i ++ more) SRestOfLine = LTok (item_tok i) more st /\
             next_token_nocap more st = next_token_nocap more SRestOfLine.
Proof.
  intros Hi Hf.
  destruct i as [w|s| |d|ws close]; cbn [item_ok follows] in *;
    [destruct more as [|x t]; [exists SEOF|exists SRestOfLine]|exists SRestOfLine ..]; (split; [|reflexivity]).
  - eapply tok_of_steps; [apply steps_word; exact Hi|reflexivity].
  - eapply tok_of_steps; [apply steps_word; exact Hi|apply step_cd_end; exact Hf].
  - eapply tok_of_steps.
    + cbn [render_item app]. eapply steps_cons; [reflexivity|]. rewrite <- app_assoc. apply steps_quote_body.
    + reflexivity.
  - eapply tok_of_steps; [apply steps_one; reflexivity|reflexivity].
  - destruct (dollar_steps d more Hf) as (s & HS & HR). exact (tok_of_steps HS HR).
  - apply andb_true_iff in Hi as [Hws Hcl].
    eapply tok_of_steps.
    + cbn [render_item app]. eapply steps_cons; [reflexivity|]. rewrite <- !app_assoc. cbn [app].
      apply (steps_group_words ws close more []); assumption.
    + reflexivity.
Qed.

(* unless a blank comes first, a call at the start of a line does what it does further on *)
Definition nonblank_head (txt : str) : Prop :=
  match txt with c :: _ => is_ws c = false \/ is_nl c = true | [] => True end.

Lemma item_head i more : item_ok i = true -> nonblank_head (render_item i ++ more).
Proof.
  destruct i as [w|s| |d|ws close]; cbn [item_ok render_item]; intros H; try (now left).
  - destruct (word_ok_inv w H) as (c & r & -> & Hw & _). cbn [forallb] in Hw.
    apply andb_true_iff in Hw as [Hc _]. left. apply (wordch_facts c Hc).
  - destruct d; now left.
Qed.

Lemma startline_rol txt : nonblank_head txt ->
  next_token_nocap txt SStartLine = next_token_nocap txt SRestOfLine.
Proof.
  destruct txt as [|c t]; [reflexivity|]. intros [Hws|Hnl].
  - apply nocap_steps, steps_one. cbn [step]. now rewrite (ws_false_nl c Hws), Hws.
  - transitivity (next_token_nocap (c :: t) SEOL); [|symmetry]; apply nocap_steps, steps_one; cbn [step].
    + now rewrite Hnl.
    + apply orb_true_iff in Hnl as [H|H]; apply N.eqb_eq in H; subst; reflexivity.
Qed.

Lemma tok_blank c r : blank c = true ->
  next_token_nocap (c :: r) SStartLine = LTok TBlank r SRestOfLine.
Proof.
  intros H. eapply tok_of_steps.
  - apply steps_one. destruct (blank_cases c H); subst; reflexivity.
  - reflexivity.
Qed.

Lemma eol_cases e : eol_ok e = true -> e = [10] \/ e = [13; 10].
Proof. unfold eol_ok. intros H. apply orb_true_iff in H as [H|H]; apply bytes_eqb_eq in H; auto. Qed.

(* three iterations: the change of state, a carriage return if any, the line feed *)
Lemma lex_eol e rest st cd cdv : eol_ok e = true ->
  st = SRestOfLine \/ st = SComment false ->
  lex_loop 3 (e ++ rest) st cd cdv = LTok TEOL rest SStartLine.
Proof. intros He Hs. destruct (eol_cases e He) as [-> | ->]; destruct Hs as [-> | ->]; reflexivity. Qed.

Lemma tok_eol_rol cm e rest : comment_ok cm = true -> eol_ok e = true ->
  next_token_nocap (render_comment cm ++ e ++ rest) SRestOfLine = LTok TEOL rest SStartLine.
Proof.
  intros Hc He. destruct cm as [txt|]; cbn [render_comment comment_ok app] in *.
  - eapply (lex_of_steps 3).
    + do 2 (eapply steps_cons; [reflexivity|]). apply steps_comment_text. exact Hc.
    + apply lex_eol; auto.
    + discriminate.
  - apply (lex_of_steps 3 _ (steps_refl _)); [apply lex_eol; auto|discriminate].
Qed.

(* the calls of [lex] from (txt, st) deliver the tokens [ts] and leave (txt', st') *)
Inductive Toks (lex : str -> lst -> lres) : str -> lst -> list token -> str -> lst -> Prop :=
| toks_nil txt st : Toks lex txt st [] txt st
| toks_cons txt st t txt1 st1 ts txt2 st2 :
    lex txt st = LTok t txt1 st1 -> Toks lex txt1 st1 ts txt2 st2 -> Toks lex txt st (t :: ts) txt2 st2.

Lemma toks_app lex a sa t1 b sb t2 c sc :
  Toks lex a sa t1 b sb -> Toks lex b sb t2 c sc -> Toks lex a sa (t1 ++ t2) c sc.
Proof. induction 1; intros; cbn [app]; [assumption|]. econstructor; eauto. Qed.

(* what may follow the items of a line: nothing, a comment or a line break *)
Definition tail_ok (tail : str) : Prop :=
  match tail with c :: _ => (c =? 59) || is_nl c = true | [] => True end.

Lemma tail_head_facts c : (c =? 59) || is_nl c = true ->
  wend c = true /\ is_upper c = false /\ (is_ws c = false \/ is_nl c = true).
Proof.
  intros H. apply orb_true_iff in H as [H|H]; [apply N.eqb_eq in H; subst; auto|].
  repeat split; [unfold wend; now rewrite (is_nl_ws c H)| |now right].
  apply orb_true_iff in H as [H|H]; apply N.eqb_eq in H; subst; reflexivity.
Qed.

Lemma line_tail_ok cm e rest : eol_ok e = true -> tail_ok (render_comment cm ++ e ++ rest).
Proof. intros He. destruct cm; [reflexivity|]. destruct (eol_cases e He) as [-> | ->]; reflexivity. Qed.

Lemma comment_tail_ok cm : tail_ok (render_comment cm).
Proof. destruct cm; [reflexivity|exact I]. Qed.

Lemma blank_head_facts c : blank c = true -> wend c = true /\ is_upper c = false.
Proof. intros H. destruct (blank_cases c H); subst; split; reflexivity. Qed.

Lemma follows_of_head i c t : wend c = true -> is_upper c = false -> follows i (c :: t).
Proof. intros H1 H2. destruct i; cbn [follows]; auto. Qed.

Definition is_end (r : lres) : Prop := match r with LEnd _ _ => True | _ => False end.

Lemma end_rol cm : comment_ok cm = true ->
  next_token_nocap (render_comment cm) SRestOfLine = LEnd [] SEOF.
Proof.
  intros Hc. destruct cm as [t|]; cbn [render_comment comment_ok] in *; [|reflexivity].
  (* two iterations: from the comment state to [SEOF], which returns *)
  eapply (lex_of_steps 2).
  - do 2 (eapply steps_cons; [reflexivity|]). rewrite <- (app_nil_r t). apply steps_comment_text. exact Hc.
  - reflexivity.
  - discriminate.
Qed.

Lemma end_eof : is_end (next_token_nocap [] SEOF).
Proof. exact I. Qed.

Lemma items_ok_cons_inv i g its : items_ok ((i, g) :: its) = true ->
  item_ok i = true /\ forallb blank g = true /\ items_ok its = true /\
  (its = [] \/ needs_sep i = false \/ g <> []).
Proof.
  cbn [items_ok]. rewrite !andb_true_iff. intros [[[Hi Hg] Hsep] Hrest]. repeat split; auto.
  destruct its; [left; reflexivity|right]. apply orb_true_iff in Hsep as [H|H].
  - left. now apply negb_true_iff.
  - right. now destruct g.
Qed.

Lemma follows_next i g its tail : items_ok ((i, g) :: its) = true -> tail_ok tail ->
  follows i (g ++ render_items its ++ tail).
Proof.
  intros H Ht. destruct (items_ok_cons_inv i g its H) as (_ & Hg & _ & Hsep). destruct g as [|b g'].
  - destruct its as [|ig its'].
    + destruct tail as [|c t]; [destruct i; exact I|].
      destruct (tail_head_facts c Ht) as (H1 & H2 & _). now apply follows_of_head.
    + destruct Hsep as [E|[Hsep|Hne]]; [discriminate| |congruence].
      destruct i; cbn [needs_sep] in Hsep; try discriminate; exact I.
  - cbn [forallb] in Hg. apply andb_true_iff in Hg as [Hb _].
    destruct (blank_head_facts b Hb). now apply follows_of_head.
Qed.

(* the calls from (txt, st) deliver the tokens [ts], and the call after them returns [k] *)
Definition Lexes (txt : str) (st : lst) (ts : list token) (k : lres) : Prop :=
  exists rem st', Toks next_token_nocap txt st ts rem st' /\ next_token_nocap rem st' = k.

Lemma lexes_nil txt st : Lexes txt st [] (next_token_nocap txt st).
Proof. exists txt, st. split; [constructor|reflexivity]. Qed.

Lemma lexes_cons txt st t txt1 st1 ts k :
  next_token_nocap txt st = LTok t txt1 st1 -> Lexes txt1 st1 ts k -> Lexes txt st (t :: ts) k.
Proof. intros H (rem & st' & HT & HE). exists rem, st'. split; [econstructor; eassumption|exact HE]. Qed.

(* the state matters only through what the first call returns *)
Lemma lexes_from txt st st' ts k :
  next_token_nocap txt st = next_token_nocap txt st' -> Lexes txt st' ts k -> Lexes txt st ts k.
Proof.
  intros E (rem & s & HT & HE). inversion HT; subst.
  - rewrite <- E. apply lexes_nil.
  - eapply lexes_cons; [rewrite E; eassumption|]. now exists rem, s.
Qed.

Lemma lexes_toks txt st ts t rem st' :
  Lexes txt st ts (LTok t rem st') -> Toks next_token_nocap txt st (ts ++ [t]) rem st'.
Proof. intros (r & s & HT & HE). eapply toks_app; [exact HT|]. econstructor; [exact HE|constructor]. Qed.

(* after the items (and the blanks before and between them) the next call returns what a call in
   the middle of a line on what follows them would *)
Lemma lexes_items : forall its g0 tail, forallb blank g0 = true -> items_ok its = true -> tail_ok tail ->
  Lexes (g0 ++ render_items its ++ tail) SRestOfLine (map (fun ig => item_tok (fst ig)) its)
        (next_token_nocap tail SRestOfLine).
Proof.
  induction its as [|[i g] its IH]; intros g0 tail Hg0 Hok Ht.
  - cbn [render_items flat_map map app]. rewrite <- (skip_blanks g0 tail Hg0). apply lexes_nil.
  - cbn [render_items flat_map map fst snd]. fold (render_items its). rewrite <- !app_assoc.
    destruct (items_ok_cons_inv _ _ _ Hok) as (Hi & Hg & Hrest & _).
    destruct (tok_item_rol i _ Hi (follows_next i g its tail Hok Ht)) as (st & HT & HE).
    eapply lexes_cons; [rewrite skip_blanks by assumption; exact HT|].
    eapply lexes_from; [exact HE|]. now apply IH.
Qed.

Lemma items_head its tail : items_ok its = true -> tail_ok tail -> nonblank_head (render_items its ++ tail).
Proof.
  intros Hi Ht. destruct its as [|[i g] its].
  - destruct tail as [|c t]; [exact I|]. apply (tail_head_facts c Ht).
  - destruct (items_ok_cons_inv _ _ _ Hi) as (Hi1 & _). cbn [render_items flat_map fst]. rewrite <- !app_assoc.
    now apply item_head.
Qed.

Lemma lexes_line_items lead its tail : forallb blank lead = true -> items_ok its = true -> tail_ok tail ->
  Lexes (lead ++ render_items its ++ tail) SStartLine
        ((match lead with [] => [] | _ => [TBlank] end) ++ map (fun ig => item_tok (fst ig)) its)
        (next_token_nocap tail SRestOfLine).
Proof.
  intros Hl Hi Ht. destruct lead as [|b lead']; cbn [app].
  - eapply lexes_from; [apply startline_rol, items_head; assumption|]. exact (lexes_items its [] tail eq_refl Hi Ht).
  - cbn [forallb] in Hl. apply andb_true_iff in Hl as [Hb Hl'].
    eapply lexes_cons; [apply tok_blank; exact Hb|]. now apply lexes_items.
Qed.

Lemma line_noeol_ok_inv l : line_noeol_ok l = true ->
  forallb blank (l_lead l) = true /\ items_ok (l_items l) = true /\ comment_ok (l_comment l) = true.
Proof. unfold line_noeol_ok. rewrite !andb_true_iff. tauto. Qed.

Lemma line_ok_inv l : line_ok l = true -> line_noeol_ok l = true /\ eol_ok (l_eol l) = true.
Proof. unfold line_ok, line_noeol_ok. now rewrite andb_true_iff. Qed.

Theorem toks_line l rest : line_ok l = true ->
  Toks next_token_nocap (render_line l ++ rest) SStartLine (line_tokens l) rest SStartLine.
Proof.
  intros H. destruct (line_ok_inv l H) as [H' He]. destruct (line_noeol_ok_inv l H') as (Hl & Hi & Hc).
  destruct l as [lead its cm e]. unfold render_line, line_tokens. cbn [l_lead l_items l_comment l_eol] in *.
  rewrite <- !app_assoc, (app_assoc _ _ [TEOL]). apply lexes_toks.
  rewrite <- (tok_eol_rol cm e rest Hc He). apply lexes_line_items; [exact Hl|exact Hi|]. now apply line_tail_ok.
Qed.

Theorem toks_last_line l : line_noeol_ok l = true ->
  exists rem st, Toks next_token_nocap (render_noeol l) SStartLine (line_tokens_noeol l) rem st /\
                 is_end (next_token_nocap rem st).
Proof.
  intros H. destruct (line_noeol_ok_inv l H) as (Hl & Hi & Hc).
  destruct l as [lead its cm e]. unfold render_noeol, line_tokens_noeol. cbn [l_lead l_items l_comment] in *.
  destruct (lexes_line_items lead its (render_comment cm) Hl Hi (comment_tail_ok cm)) as (rem & st & HT & HE).
  exists rem, st. split; [exact HT|]. now rewrite HE, end_rol.
Qed.

Lemma toks_len a sa ts b sb : Toks next_token_nocap a sa ts b sb -> (length b <= length a)%nat.
Proof. induction 1 as [|? ? ? ? ? ? ? ? H]; [lia|]. apply lex_loop_tok in H. lia. Qed.

Lemma toks_cap a sa ts b sb : Toks next_token_nocap a sa ts b sb ->
  (length a - length b <= short)%nat -> Toks next_token a sa ts b sb.
Proof.
  induction 1 as [|txt st t txt1 st1 ts txt2 st2 Hl HT IH]; intros Hc; [constructor|].
  pose proof (toks_len _ _ _ _ _ HT). pose proof (lex_loop_tok _ _ _ _ _ _ _ _ Hl).
  econstructor; [apply next_token_of_nocap; [exact Hl|lia]|]. apply IH. lia.
Qed.

(* A long word trips the cap: a call on a word of n letters takes n + 3 iterations (start of the
   line, rest of the line, one for each letter, and the one that returns). *)
Lemma lex_loop_word_panics : forall f w r acc cdv, forallb wordch w = true -> (f <= length w)%nat ->
  lex_loop f (w ++ r) (SCharData false) (Some acc) cdv = LPanic.
Proof.
  induction f as [|f IH]; intros w r acc cdv Hw Hf; [reflexivity|].
  destruct w as [|c w]; cbn [length] in Hf; [lia|]. cbn [forallb] in Hw. apply andb_true_iff in Hw as [Hc Hw].
  cbn [lex_loop app]. rewrite (step_cd_push c (w ++ r) false acc cdv Hc). apply IH; [exact Hw|lia].
Qed.

Lemma next_token_cap_long_word f m : (f <= m + 3)%nat -> next_token_cap f (repeat 97 (S m)) SStartLine = LPanic.
Proof.
  intros Hf. unfold next_token_cap. destruct f as [|[|f]]; try reflexivity. cbn [repeat].
  change (lex_loop (S (S f)) (97 :: repeat 97 m) SStartLine None None)
    with (lex_loop f (97 :: repeat 97 m) (SCharData false) (Some []) None).
  rewrite <- (app_nil_r (97 :: repeat 97 m)). apply lex_loop_word_panics.
  - apply forallb_forall. intros x Hx. apply (repeat_spec (S m)) in Hx. now subst.
  - cbn [length]. rewrite repeat_length. lia.
Qed.

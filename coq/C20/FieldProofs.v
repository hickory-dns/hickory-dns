(* C20 — field level: decimal numerals, TTLs, u16, IPv4 and domain names read back what the
   printer of the specification writes. *)
From Coq Require Import String Ascii.
From HV Require Import Lib.Base C20.Model.
Open Scope N_scope.

Lemma ltb_false a b : b <= a -> (a <? b) = false.
Proof. apply N.ltb_ge. Qed.

Lemma forallb_impl {A} (f g : A -> bool) l : (forall x, f x = true -> g x = true) -> forallb f l = true -> forallb g l = true.
Proof. intros H. rewrite !forallb_forall. auto. Qed.

Lemma map_id_on {A} (f : A -> A) (p : A -> bool) l : (forall x, p x = true -> f x = x) -> forallb p l = true -> map f l = l.
Proof.
  intros Hf. induction l as [|x l IH]; cbn [map forallb]; intros H; [reflexivity|].
  apply andb_true_iff in H as [Hx Hl]. now rewrite (Hf x Hx), IH.
Qed.

Lemma forallb_filter {A} (f g : A -> bool) l : forallb f l = true -> forallb f (filter g l) = true.
Proof.
  induction l as [|x l IH]; cbn; [reflexivity|]. intros H. apply andb_true_iff in H as [H1 H2].
  destruct (g x); cbn; [rewrite H1|]; auto.
Qed.

(* A character class is a union of intervals; once it is written as one, [lia] decides what
   follows from it. *)
Lemma between_iff a b c : (a <=? c) && (c <=? b) = true <-> a <= c <= b.
Proof. rewrite andb_true_iff, !N.leb_le. reflexivity. Qed.

Lemma is_digit_iff c : is_digit c = true <-> 48 <= c <= 57.
Proof. apply between_iff. Qed.
Lemma is_upper_iff c : is_upper c = true <-> 65 <= c <= 90.
Proof. apply between_iff. Qed.
Lemma is_lower_iff c : is_lower c = true <-> 97 <= c <= 122.
Proof. apply between_iff. Qed.

Lemma is_digit_48 m : m < 10 -> is_digit (48 + m) = true.
Proof. intros H. apply is_digit_iff. lia. Qed.

Lemma digit10_48 m : m < 10 -> digit10 (48 + m) = Some m.
Proof. intros H. unfold digit10. rewrite is_digit_48 by exact H. f_equal. lia. Qed.

Lemma dec_aux_acc : forall f n acc b, n < 2 ^ N.of_nat f -> n <= b ->
  dec_acc b (dec_aux f n acc) 0 = dec_acc b acc n.
Proof.
  induction f as [|f IH]; intros n acc b Hn Hb.
  - cbn in Hn. assert (n = 0) by lia. subst. reflexivity.
  - cbn [dec_aux]. assert (Hm : n mod 10 < 10) by (apply N.mod_lt; lia).
    destruct (n <? 10) eqn:E.
    + apply N.ltb_lt in E. rewrite N.mod_small by lia.
      cbn [dec_acc]. rewrite digit10_48 by lia.
      replace (0 * 10 + n) with n by lia.
      rewrite ltb_false by lia. reflexivity.
    + apply N.ltb_ge in E.
      rewrite IH.
      * cbn [dec_acc]. rewrite digit10_48 by lia.
        replace (n / 10 * 10 + n mod 10) with n by (rewrite (N.div_mod n 10) at 1; lia).
        rewrite ltb_false by lia. reflexivity.
      * rewrite Nat2N.inj_succ, N.pow_succ_r' in Hn.
        apply N.div_lt_upper_bound; lia.
      * assert (n / 10 <= n) by (apply N.div_le_upper_bound; lia). lia.
Qed.

Lemma log2_fuel n : n < 2 ^ N.of_nat (S (N.to_nat (N.log2 n))).
Proof.
  rewrite Nat2N.inj_succ, N2Nat.id.
  destruct (N.eq_dec n 0) as [->|Hz]; [cbn; lia|].
  apply N.log2_spec. lia.
Qed.

Lemma dec_value n b : n <= b -> dec_acc b (dec n) 0 = Some n.
Proof. intros H. unfold dec. rewrite dec_aux_acc; [reflexivity|apply log2_fuel|exact H]. Qed.

Lemma dec_aux_digits : forall f n acc, Forall (fun c => is_digit c = true) acc ->
  Forall (fun c => is_digit c = true) (dec_aux f n acc).
Proof.
  induction f as [|f IH]; intros n acc H; cbn [dec_aux]; [exact H|].
  assert (Hm : n mod 10 < 10) by (apply N.mod_lt; lia).
  destruct (n <? 10); [|apply IH]; constructor; auto using is_digit_48.
Qed.

Lemma dec_digits n : Forall (fun c => is_digit c = true) (dec n).
Proof. apply dec_aux_digits. constructor. Qed.

Lemma dec_aux_nonempty : forall f n acc, acc <> [] \/ f <> O -> dec_aux f n acc <> [].
Proof.
  induction f as [|f IH]; intros n acc H; cbn [dec_aux].
  - destruct H; congruence.
  - destruct (n <? 10); [discriminate|]. apply IH. left. discriminate.
Qed.

Lemma dec_nonempty n : dec n <> [].
Proof. unfold dec. apply dec_aux_nonempty. right. intros E; discriminate E. Qed.

Lemma ttl_loop_digits_app : forall s rest cur v, Forall (fun c => is_digit c = true) s -> s <> [] ->
  ttl_loop (s ++ rest) cur v = ttl_loop rest (Some (match cur with Some ds => ds ++ s | None => s end)) v.
Proof.
  induction s as [|c r IH]; intros rest cur v H Hne; [congruence|].
  inversion H as [|? ? Hc Hr]; subst. cbn [app ttl_loop]. rewrite Hc.
  destruct r as [|c2 r2].
  - destruct cur; reflexivity.
  - rewrite IH by (auto; discriminate). destruct cur; cbn; [rewrite <- app_assoc|]; reflexivity.
Qed.

Lemma parse_ttl_loop s : s <> [] -> parse_ttl s = ttl_loop s None 0.
Proof. destruct s; [congruence|reflexivity]. Qed.

Lemma ttl_loop_dec n v : v + n <= u32max -> ttl_loop (dec n) None v = Some (v + n).
Proof.
  intros H. rewrite <- (app_nil_r (dec n)), ttl_loop_digits_app by (auto using dec_digits, dec_nonempty).
  cbn [ttl_loop]. rewrite dec_value by lia. now rewrite ltb_false.
Qed.

Lemma parse_ttl_dec n : n <= u32max -> parse_ttl (dec n) = Some n.
Proof. intros H. rewrite parse_ttl_loop by apply dec_nonempty. now apply ttl_loop_dec. Qed.

Lemma dec_head_digit n : exists c r, dec n = c :: r /\ is_digit c = true.
Proof.
  pose proof (dec_nonempty n). pose proof (dec_digits n) as D.
  destruct (dec n) as [|c r]; [congruence|]. inversion D; subst. eauto.
Qed.

Lemma strip_plus (c : N) (r : str) : c <> 43 ->
  (match c :: r with 43 :: r0 => r0 | _ => c :: r end) = c :: r.
Proof.
  intros H. destruct c as [|p]; [reflexivity|].
  (* the pattern 43 = 0b101011 is six nested matches on the binary digits of [c] *)
  do 6 (destruct p as [p|p|]; try reflexivity). congruence.
Qed.

Lemma parse_u16_dec n : n <= 65535 -> parse_u16 (dec n) = Some n.
Proof.
  intros H. unfold parse_u16. destruct (dec_head_digit n) as (c & r & E & D).
  assert (c <> 43). { intros ->. discriminate. }
  rewrite E, strip_plus by assumption. rewrite <- E. apply dec_value. exact H.
Qed.

Lemma unit_secs_mult u m : unit_secs u = Some m -> ttl_mult u = Some m /\ is_digit u = false /\ 1 <= m.
Proof.
  unfold unit_secs. intros H.
  repeat match type of H with
  | (if ?b then _ else _) = _ => let E := fresh "E" in destruct b eqn:E;
      [apply orb_true_iff in E as [E|E]; apply N.eqb_eq in E; subst u; injection H as <-; repeat split; easy|]
  end. discriminate.
Qed.

Lemma units_value_le : forall ps v, units_value ps = Some v -> True.
Proof. auto. Qed.

Lemma ttl_loop_units : forall ps tv rest v, units_value ps = Some tv -> v + tv <= u32max ->
  ttl_loop (units_text ps ++ rest) None v = ttl_loop rest None (v + tv).
Proof.
  induction ps as [|[n u] ps IH]; intros tv rest v Hv Hb; cbn [units_text units_value] in *.
  - inversion Hv; subst. cbn [app]. now rewrite N.add_0_r.
  - destruct (unit_secs u) as [m|] eqn:Eu; [|discriminate].
    destruct (units_value ps) as [w|] eqn:Ew; [|discriminate]. inversion Hv; subst. clear Hv.
    destruct (unit_secs_mult u m Eu) as (Hm & Hd & Hm1).
    rewrite <- app_assoc. rewrite ttl_loop_digits_app by (auto using dec_digits, dec_nonempty).
    cbn [app ttl_loop]. rewrite Hd, Hm.
    assert (Hn : n <= n * m) by nia.
    rewrite dec_value by lia.
    rewrite (ltb_false u32max (n * m)), (ltb_false u32max (v + n * m)) by lia.
    rewrite (IH w rest (v + n * m) eq_refl) by lia.
    f_equal. lia.
Qed.

Lemma units_text_nonempty ps : ps <> [] -> units_text ps <> [].
Proof.
  destruct ps as [|[n u] r]; [congruence|]. intros _ E. apply app_eq_nil in E as [E _]. exact (dec_nonempty n E).
Qed.

Lemma parse_ttl_text t s : TtlText t s -> t <= u32max -> parse_ttl s = Some t.
Proof.
  intros [|ps Hne Hv|ps v n Hne Hv ->] Ht.
  - now apply parse_ttl_dec.
  - rewrite parse_ttl_loop by (now apply units_text_nonempty).
    rewrite <- (app_nil_r (units_text ps)).
    rewrite (ttl_loop_units ps t [] 0 Hv) by (rewrite N.add_0_l; exact Ht). reflexivity.
  - rewrite parse_ttl_loop by (intros E; apply app_eq_nil in E as [E _]; now apply units_text_nonempty in E).
    rewrite (ttl_loop_units ps v (dec n) 0 Hv) by lia. now apply ttl_loop_dec.
Qed.

Lemma parse_ttl_nondigit c r : is_digit c = false -> parse_ttl (c :: r) = None.
Proof. intros H. unfold parse_ttl. cbn [ttl_loop]. rewrite H. reflexivity. Qed.

Lemma to_upper_digit c : is_digit c = true -> to_upper c = c.
Proof.
  intros H. apply is_digit_iff in H. unfold to_upper.
  destruct (is_lower c) eqn:E; [apply is_lower_iff in E; lia|reflexivity].
Qed.

Lemma parse_ttl_mnem x X s : Mnem (x :: X) s -> is_upper x = true -> parse_ttl s = None.
Proof.
  unfold Mnem, upper_str. intros H Hx. destruct s as [|c r]; [discriminate|].
  cbn [map] in H. inversion H as [[Hc Hr]]. apply parse_ttl_nondigit.
  destruct (is_digit c) eqn:E; [|reflexivity]. rewrite (to_upper_digit c E) in Hc. subst c.
  apply is_upper_iff in Hx. apply is_digit_iff in E. lia.
Qed.

Lemma split_on_skip : forall x sep rest cur, Forall (fun c => (c =? sep) = false) x ->
  split_on sep (x ++ rest) cur = split_on sep rest (cur ++ x).
Proof.
  induction x as [|c x IH]; intros sep rest cur H; cbn [app split_on].
  - now rewrite app_nil_r.
  - inversion H as [|? ? Hc Hx]; subst. rewrite Hc, IH by exact Hx. now rewrite <- app_assoc.
Qed.

Lemma split_on_nosep x sep rest cur : Forall (fun c => (c =? sep) = false) x ->
  split_on sep (x ++ sep :: rest) cur = (cur ++ x) :: split_on sep rest [].
Proof. intros H. rewrite split_on_skip by exact H. cbn [split_on]. now rewrite N.eqb_refl. Qed.

Lemma digit_not_dot c : is_digit c = true -> (c =? 46) = false.
Proof. intros H. apply is_digit_iff in H. apply N.eqb_neq. lia. Qed.

Lemma dec_nodot n : Forall (fun c => (c =? 46) = false) (dec n).
Proof. eapply Forall_impl; [|apply dec_digits]. intros c. apply digit_not_dot. Qed.

Lemma parse_octet_all : sweep (fun a => option_eqb N.eqb (parse_octet (dec a)) (Some a)) 256 0 = true.
Proof. vm_compute. reflexivity. Qed.

Lemma parse_octet_dec a : a <= 255 -> parse_octet (dec a) = Some a.
Proof.
  intros H. pose proof (sweep_spec _ _ _ parse_octet_all a) as A. cbn beta in A.
  change (N.of_nat 256) with 256 in A. specialize (A ltac:(lia)).
  destruct (parse_octet (dec a)) as [v|]; [|discriminate]. apply N.eqb_eq in A. now subst.
Qed.

Lemma parse_ipv4_print a b c d : a <= 255 -> b <= 255 -> c <= 255 -> d <= 255 ->
  parse_ipv4 (print_ipv4 a b c d) = Some (a, b, c, d).
Proof.
  intros Ha Hb Hc Hd. unfold parse_ipv4, print_ipv4. cbn [app].
  rewrite split_on_nosep by apply dec_nodot.
  rewrite split_on_nosep by apply dec_nodot.
  rewrite split_on_nosep by apply dec_nodot.
  rewrite <- (app_nil_r (dec d)), split_on_skip by apply dec_nodot. cbn [split_on app].
  now rewrite !parse_octet_dec by assumption.
Qed.

Definition labch (c : N) : bool := is_plain c && negb (c =? 92).

Lemma ldh_range c : ldh_ch c = true -> (97 <= c <= 122) \/ (48 <= c <= 57) \/ c = 45 \/ c = 46.
Proof.
  unfold ldh_ch, is_lower, is_digit. intros H.
  repeat (apply orb_true_iff in H as [H|H]); first [apply between_iff in H|apply N.eqb_eq in H]; tauto.
Qed.
Lemma us_range c : us_ch c = true ->
  (97 <= c <= 122) \/ (65 <= c <= 90) \/ (48 <= c <= 57) \/ c = 45 \/ c = 95 \/ c = 46.
Proof.
  unfold us_ch, is_alnum, is_lower, is_upper, is_digit. intros H.
  repeat (apply orb_true_iff in H as [H|H]); first [apply between_iff in H|apply N.eqb_eq in H]; tauto.
Qed.

Lemma ldh_us c : ldh_ch c = true -> us_ch c = true.
Proof.
  unfold ldh_ch, us_ch, is_alnum.
  destruct (is_lower c), (is_digit c), (c =? 45), (c =? 46); cbn; intros H; try discriminate; now rewrite ?orb_true_r.
Qed.

Lemma printable_plain c : 33 <= c <= 126 -> is_plain c = true.
Proof.
  intros H. unfold is_plain. apply andb_true_iff. split; apply negb_true_iff, not_true_iff_false; intros E.
  - unfold is_ctl in E. apply orb_true_iff in E as [E|E]; [apply N.ltb_lt in E|apply between_iff in E]; lia.
  - unfold is_ws in E.
    repeat (apply orb_true_iff in E as [E|E]); first [apply between_iff in E|apply N.eqb_eq in E]; lia.
Qed.

Lemma us_labch c : us_ch c = true -> labch c = true.
Proof.
  intros H. apply us_range in H. unfold labch. rewrite printable_plain by lia.
  apply negb_true_iff, N.eqb_neq. lia.
Qed.
Lemma us_lt128 c : us_ch c = true -> (c <? 128) = true.
Proof. intros H. apply us_range in H. apply N.ltb_lt. lia. Qed.
Lemma us_safe c : us_ch c = true -> safe_ascii false c = true.
Proof. unfold us_ch, safe_ascii. cbn [negb]. rewrite andb_true_r, andb_false_r, orb_false_r. auto. Qed.

Lemma ldh_lower c : ldh_ch c = true -> to_lower c = c.
Proof.
  intros H. apply ldh_range in H. unfold to_lower.
  destruct (is_upper c) eqn:E; [apply is_upper_iff in E; lia|reflexivity].
Qed.
Lemma ldh_uts c : ldh_ch c = true -> uts46_ascii_ok c = true.
Proof.
  unfold ldh_ch, uts46_ascii_ok, is_alnum.
  destruct (is_lower c), (is_digit c), (c =? 45), (c =? 46); cbn; intros H; try discriminate; now rewrite ?orb_true_r.
Qed.
Lemma ldh_safe_first c : ldh_ch c = true -> (c =? 45) = false -> safe_ascii true c = true.
Proof.
  unfold ldh_ch, safe_ascii, is_alnum. intros H E. rewrite E in *.
  destruct (is_lower c), (is_digit c), (c =? 46); cbn in *; try discriminate; now rewrite ?orb_true_r.
Qed.

Lemma label_from_ascii_ok c r : (N.of_nat (length (c :: r)) <=? 63) = true ->
  forallb (fun x => x <? 128) (c :: r) = true -> safe_ascii true c = true -> forallb (safe_ascii false) r = true ->
  label_from_ascii (c :: r) = ROk (c :: r).
Proof.
  intros HL H1 H2 H3. unfold label_from_ascii, all_b. rewrite ltb_false by (now apply N.leb_le).
  rewrite H1, H2, H3. now destruct (str_eqb (c :: r) [42]).
Qed.

Lemma to_label_ok l : lab_ok l = true -> to_label l = ROk l.
Proof.
  unfold lab_ok. intros H. apply andb_true_iff in H as [HL H].
  unfold to_label. destruct (str_eqb l [42]) eqn:E42; [reflexivity|].
  cbn [orb] in H. destruct l as [|c r]; [discriminate|]. cbn [has_prefix].
  destruct (c =? 95) eqn:E95.
  - (* underscore label: taken as it stands *)
    apply N.eqb_eq in E95. subst c. change (95 =? 95) with true. cbn [andb].
    apply label_from_ascii_ok; [exact HL| |reflexivity|exact (forallb_impl _ _ r us_safe H)].
    cbn [forallb]. now rewrite (forallb_impl _ _ r us_lt128 H).
  - (* letters, digits, hyphens: UTS-46 leaves a lower-case ASCII label as it is *)
    apply andb_true_iff in H as [H HX]. apply andb_true_iff in H as [H45 H].
    apply negb_true_iff in H45, HX.
    pose proof (forallb_impl _ _ _ ldh_us H) as Hus.
    pose proof (forallb_impl _ _ _ us_lt128 Hus) as H128.
    rewrite (N.eqb_sym 95 c), E95. cbn [andb]. unfold all_b. rewrite H128. cbn [negb].
    rewrite (map_id_on to_lower ldh_ch _ ldh_lower H), HX, (forallb_impl _ _ _ ldh_uts H).
    cbn [forallb] in H, Hus. apply andb_true_iff in H as [Hc _]. apply andb_true_iff in Hus as [_ Hr].
    apply label_from_ascii_ok; [exact HL|exact H128|exact (ldh_safe_first c Hc H45)|exact (forallb_impl _ _ r us_safe Hr)].
Qed.

Lemma lab_ok_labch l : lab_ok l = true -> forallb labch l = true.
Proof.
  unfold lab_ok. intros H. apply andb_true_iff in H as [_ H]. apply orb_true_iff in H as [H|H].
  - apply bytes_eqb_eq in H. subst. reflexivity.
  - destruct l as [|c r]; [discriminate|]. destruct (c =? 95) eqn:E.
    + apply N.eqb_eq in E. subst. cbn [forallb]. rewrite (forallb_impl _ _ r us_labch H). reflexivity.
    + apply andb_true_iff in H as [H _]. apply andb_true_iff in H as [_ H].
      apply (forallb_impl _ _ _ us_labch), (forallb_impl _ _ _ ldh_us H).
Qed.

Lemma lab_ok_nonempty l : lab_ok l = true -> l <> [].
Proof. intros H ->. discriminate. Qed.

Lemma labch_facts c : labch c = true -> (c =? 92) = false /\ is_plain c = true /\ is_numeric c = false \/ True.
Proof. auto. Qed.

Lemma name_loop_label : forall l rest ls lab, forallb labch l = true ->
  name_loop (print_label l ++ rest) PLabel ls lab = name_loop rest PLabel ls (lab ++ l).
Proof.
  induction l as [|c l IH]; intros rest ls lab H; cbn [print_label flat_map app].
  - now rewrite app_nil_r.
  - cbn [forallb] in H. apply andb_true_iff in H as [Hc Hl].
    unfold labch in Hc. apply andb_true_iff in Hc as [Hp H92]. apply negb_true_iff in H92.
    fold (print_label l). destruct (c =? 46) eqn:E46.
    + (* an escaped dot: two iterations *)
      apply N.eqb_eq in E46. subst c. cbn [app].
      change (name_loop (92 :: 46 :: print_label l ++ rest) PLabel ls lab)
        with (name_loop (print_label l ++ rest) PLabel ls (lab ++ [46])).
      rewrite IH by exact Hl. now rewrite <- app_assoc.
    + cbn [app name_loop]. rewrite E46, H92, Hp. rewrite IH by exact Hl. now rewrite <- app_assoc.
Qed.

Lemma name_data_len_app a b : name_data_len (a ++ b) = name_data_len a + name_data_len b.
Proof. unfold name_data_len. induction a as [|x a IH]; cbn [app fold_right]; [lia|]. rewrite IH. lia. Qed.

Lemma encoded_len_app a b : encoded_len (a ++ b) + 1 = encoded_len a + encoded_len b.
Proof. unfold encoded_len. rewrite app_length, name_data_len_app, Nat2N.inj_add. lia. Qed.

Lemma encoded_len_snoc a l : encoded_len (a ++ [l]) = encoded_len a + N.of_nat (length l) + 1.
Proof. pose proof (encoded_len_app a [l]) as H. unfold encoded_len in *. cbn in *. lia. Qed.

Lemma extend_name_ok ls l : encoded_len (ls ++ [l]) <= 255 -> extend_name ls l = ROk (ls ++ [l]).
Proof.
  intros H. unfold extend_name. rewrite encoded_len_snoc in H.
  rewrite ltb_false by lia.
  reflexivity.
Qed.

Lemma append_label_ok ls l : lab_ok l = true -> encoded_len (ls ++ [l]) <= 255 ->
  append_label ls l = ROk (ls ++ [l]).
Proof. intros H1 H2. unfold append_label. rewrite to_label_ok by exact H1. cbn [bind]. now apply extend_name_ok. Qed.

Lemma encoded_len_prefix a b : encoded_len a <= encoded_len (a ++ b).
Proof. pose proof (encoded_len_app a b). unfold encoded_len in *. lia. Qed.

Lemma append_labels_ok : forall more ls, encoded_len (ls ++ more) <= 255 -> append_labels ls more = ROk (ls ++ more).
Proof.
  induction more as [|l m IH]; intros ls H; cbn [append_labels].
  - now rewrite app_nil_r.
  - assert (H' : encoded_len ((ls ++ [l]) ++ m) <= 255) by (rewrite <- app_assoc; exact H).
    rewrite extend_name_ok by (pose proof (encoded_len_prefix (ls ++ [l]) m); lia).
    cbn [bind]. rewrite IH by exact H'. now rewrite <- app_assoc.
Qed.

Lemma print_labels_head ls : ls <> [] -> forallb lab_ok ls = true ->
  exists c t, print_labels ls = c :: t /\ c <> 46.
Proof.
  destruct ls as [|[|x l] ls]; [congruence|discriminate|]. intros _ _.
  assert (E : exists c t, print_label (x :: l) = c :: t /\ c <> 46).
  { cbn [print_label flat_map]. destruct (N.eqb_spec x 46).
    - (* a dot inside a label is printed escaped *)
      exists 92. eexists. split; [reflexivity|discriminate].
    - exists x. eexists. split; [reflexivity|assumption]. }
  destruct E as (c & t & E & Hc). destruct ls; cbn [print_labels]; rewrite E; cbn [app]; eauto.
Qed.

Lemma str_eqb_not_dot c t : c <> 46 -> str_eqb (c :: t) [46] = false.
Proof. intros H. unfold str_eqb. cbn [list_eqb]. now rewrite (proj2 (N.eqb_neq c 46) H). Qed.

Lemma last_lab_ok ls : ls <> [] -> forallb lab_ok ls = true -> lab_ok (last ls []) = true.
Proof.
  induction ls as [|l ls IH]; [congruence|]. intros _ H. cbn [forallb] in H. apply andb_true_iff in H as [Hl Hls].
  destruct ls; [exact Hl|]. apply IH; [discriminate|exact Hls].
Qed.

Lemma name_loop_labels : forall ls acc rest, ls <> [] -> forallb lab_ok ls = true -> encoded_len (acc ++ ls) <= 255 ->
  name_loop (print_labels ls ++ rest) PLabel acc [] = name_loop rest PLabel (acc ++ removelast ls) (last ls []).
Proof.
  induction ls as [|l ls IH]; intros acc rest Hne Hok Hlen; [congruence|].
  cbn [forallb] in Hok. apply andb_true_iff in Hok as [Hl Hls].
  destruct ls as [|l2 ls'].
  - cbn [print_labels removelast last]. rewrite name_loop_label by (now apply lab_ok_labch). now rewrite app_nil_r.
  - change (print_labels (l :: l2 :: ls')) with (print_label l ++ 46 :: print_labels (l2 :: ls')).
    rewrite <- app_assoc, name_loop_label by (now apply lab_ok_labch). cbn [app name_loop].
    change (46 =? 46) with true. cbn iota.
    rewrite append_label_ok; [|exact Hl|].
    + cbn [bind]. rewrite IH; [|discriminate|exact Hls|now rewrite <- app_assoc].
      rewrite <- app_assoc. reflexivity.
    + pose proof (encoded_len_prefix (acc ++ [l]) (l2 :: ls')) as Hpre. rewrite <- app_assoc in Hpre. cbn [app] in Hpre. lia.
Qed.

Lemma append_last_label ls : ls <> [] -> forallb lab_ok ls = true -> encoded_len ls <= 255 ->
  append_label (removelast ls) (last ls []) = ROk ls.
Proof.
  intros Hne Hok Hlen. pose proof (@app_removelast_last str ls [] Hne) as R.
  rewrite append_label_ok; [now rewrite <- R|now apply last_lab_ok|now rewrite <- R].
Qed.

Theorem name_parse_abs ls o : name_ok ls = true -> name_parse (print_abs ls) o = ROk (MkName ls true).
Proof.
  unfold name_ok. intros H. apply andb_true_iff in H as [Hok Hlen]. apply N.leb_le in Hlen.
  destruct ls as [|l ls]; [reflexivity|].
  unfold print_abs, name_parse.
  rewrite (name_loop_labels (l :: ls) [] [46]) by (auto; discriminate).
  cbn [app name_loop]. change (46 =? 46) with true. cbn iota.
  rewrite append_last_label by (auto; discriminate). cbn [bind name_loop].
  destruct (print_labels_head (l :: ls)) as (c & t & -> & Hc); [discriminate|exact Hok|].
  cbn [app]. now rewrite str_eqb_not_dot.
Qed.

Theorem name_parse_rel rel o : rel <> [] -> name_ok (rel ++ labels o) = true ->
  name_parse (print_rel rel) (Some o) = ROk (MkName (rel ++ labels o) true).
Proof.
  unfold name_ok. intros Hne H. apply andb_true_iff in H as [Hok Hlen]. apply N.leb_le in Hlen.
  rewrite forallb_app in Hok. apply andb_true_iff in Hok as [Hrel _].
  unfold print_rel, name_parse.
  pose proof (encoded_len_prefix rel (labels o)) as Hpre.
  rewrite <- (app_nil_r (print_labels rel)), (name_loop_labels rel [] []) by (auto; cbn [app]; lia).
  cbn [name_loop bind app].
  pose proof (lab_ok_nonempty _ (last_lab_ok rel Hne Hrel)) as HLne.
  rewrite append_last_label by (auto; lia).
  destruct (last rel []) as [|c t]; [congruence|].
  cbn [bind]. rewrite append_labels_ok by exact Hlen.
  destruct (print_labels_head rel Hne Hrel) as (x & s & -> & Hx). cbn [app]. now rewrite str_eqb_not_dot.
Qed.

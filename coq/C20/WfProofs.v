(* C20 — whatever the text, every record the loader returns is well formed: labels of 1..63
   octets, names of at most 255 octets, TTL below 2^32, octets/preferences/SOA timers in range
   (no value is ever accepted by wrapping around). *)
From Coq Require Import String Ascii.
From HV Require Import Lib.Base C20.Model C20.LexProofs C20.FieldProofs.
Open Scope N_scope.

Lemma label_from_ascii_wf s l : label_from_ascii s = ROk l -> l = s /\ label_wf l = true.
Proof.
  unfold label_from_ascii, perr. destruct (63 <? N.of_nat (length s)) eqn:E; [discriminate|].
  apply N.ltb_ge in E. intros H.
  assert (W : s <> [] -> label_wf s = true).
  { intros Hne. unfold label_wf. apply andb_true_iff. split; apply N.leb_le; [|exact E].
    destruct s; [congruence|]. cbn [length]. lia. }
  destruct (str_eqb s [42]) eqn:E42.
  - inversion H; subst. split; [reflexivity|]. apply W. apply bytes_eqb_eq in E42. subst. discriminate.
  - destruct s as [|c r]; [discriminate|].
    destruct (all_b (fun x => x <? 128) (c :: r) && safe_ascii true c && all_b (safe_ascii false) r); [|discriminate].
    inversion H; subst. split; [reflexivity|]. apply W. discriminate.
Qed.

Lemma to_label_wf s l : to_label s = ROk l -> label_wf l = true.
Proof.
  unfold to_label, perr. intros H.
  destruct (str_eqb s [42]) eqn:E42.
  { inversion H; subst. apply bytes_eqb_eq in E42. subst. reflexivity. }
  destruct (has_prefix [95] s); [apply label_from_ascii_wf in H; tauto|].
  destruct (negb (all_b (fun x => x <? 128) s)); [discriminate|].
  destruct (has_infix (s2l "xn--") (map to_lower s)); [discriminate|].
  destruct (all_b uts46_ascii_ok s); [|discriminate].
  apply label_from_ascii_wf in H. tauto.
Qed.

Definition labels_wf (ls : list str) : Prop := forallb label_wf ls = true /\ encoded_len ls <= 255.

Lemma labels_wf_nil : labels_wf [].
Proof. split; [reflexivity|]. unfold encoded_len, name_data_len. cbn [length fold_right]. lia. Qed.

Lemma extend_name_wf ls l ls' : extend_name ls l = ROk ls' -> labels_wf ls -> label_wf l = true -> labels_wf ls'.
Proof.
  unfold extend_name, perr. destruct (255 <? encoded_len ls + N.of_nat (length l) + 1) eqn:E; [discriminate|].
  apply N.ltb_ge in E. intros H [W1 W2] Wl. inversion H; subst. split.
  - rewrite forallb_app, W1. cbn. now rewrite Wl.
  - rewrite encoded_len_snoc. exact E.
Qed.

Lemma append_label_wf ls raw ls' : append_label ls raw = ROk ls' -> labels_wf ls -> labels_wf ls'.
Proof.
  unfold append_label. intros H W. apply bind_ok in H as (l & Hl & He).
  exact (extend_name_wf _ _ _ He W (to_label_wf _ _ Hl)).
Qed.

Lemma append_labels_wf : forall more ls ls', append_labels ls more = ROk ls' ->
  labels_wf ls -> forallb label_wf more = true -> labels_wf ls'.
Proof.
  induction more as [|l m IH]; intros ls ls' H W Wm; cbn [append_labels] in H.
  - inversion H; subst. exact W.
  - cbn [forallb] in Wm. apply andb_true_iff in Wm as [Wl Wm].
    apply bind_ok in H as (x & Hx & Hr). eapply IH; [exact Hr| |exact Wm]. eapply extend_name_wf; eauto.
Qed.

Lemma name_loop_wf : forall s st ls lab ls' lab',
  name_loop s st ls lab = ROk (ls', lab') -> labels_wf ls -> labels_wf ls'.
Proof.
  induction s as [|c r IH]; intros st ls lab ls' lab' H W; cbn [name_loop] in H.
  - inversion H; subst. exact W.
  - (* only a dot changes the labels so far *)
    unfold perr in H. destruct st; break_in H; try discriminate; try (eapply IH; eassumption).
    apply bind_ok in H as (x & Hx & Hr). eapply IH; [exact Hr|]. eapply append_label_wf; eauto.
Qed.

Definition oname_wf (o : option name) : bool := match o with Some n => name_wf n | None => true end.

Lemma name_wf_iff n : name_wf n = true <-> labels_wf (labels n).
Proof.
  unfold name_wf, labels_wf. rewrite andb_true_iff, N.leb_le. tauto.
Qed.

Lemma name_parse_wf s o n : name_parse s o = ROk n -> oname_wf o = true -> name_wf n = true.
Proof.
  unfold name_parse. intros H Wo. destruct (str_eqb s [46]).
  { inversion H; subst. reflexivity. }
  apply bind_ok in H as ([ls lab] & Hloop & H).
  apply bind_ok in H as (ls' & Hl & H).
  assert (W1 : labels_wf ls) by (eapply name_loop_wf; [exact Hloop|apply labels_wf_nil]).
  assert (W2 : labels_wf ls').
  { destruct lab; [inversion Hl; subst; exact W1|eapply append_label_wf; eauto]. }
  (* the result is [ls'], or [ls'] completed with the origin *)
  apply name_wf_iff.
  destruct lab as [|x lab], s as [|y s], o as [o'|]; try (inversion H; subst; exact W2).
  all: apply bind_ok in H as (ls'' & Ha & H); inversion H; subst.
  all: apply name_wf_iff in Wo; eapply append_labels_wf; [exact Ha|exact W2|apply Wo].
Qed.

Lemma dec_acc_bound : forall s b a v, dec_acc b s a = Some v -> a <= b -> v <= b.
Proof.
  induction s as [|c r IH]; intros b a v H Ha; cbn [dec_acc] in H.
  - inversion H; subst. exact Ha.
  - destruct (digit10 c) as [d|]; [|discriminate]. destruct (b <? a * 10 + d) eqn:E; [discriminate|].
    apply N.ltb_ge in E. eapply IH; eauto.
Qed.

Lemma ttl_loop_bound : forall s cur v r, ttl_loop s cur v = Some r -> v <= u32max -> r <= u32max.
Proof.
  induction s as [|c s IH]; intros cur v r H Hv; cbn [ttl_loop] in H.
  - destruct cur as [ds|]; [|inversion H; subst; exact Hv].
    destruct (dec_acc u32max ds 0) as [m|]; [|discriminate]. destruct (u32max <? v + m) eqn:E; [discriminate|].
    apply N.ltb_ge in E. inversion H; subst. exact E.
  - destruct (is_digit c); [eapply IH; eauto|].
    destruct cur as [ds|]; [|discriminate]. destruct (ttl_mult c) as [k|]; [|discriminate].
    destruct (dec_acc u32max ds 0) as [m|]; [|discriminate].
    destruct (u32max <? m * k); [discriminate|]. destruct (u32max <? v + m * k) eqn:E; [discriminate|].
    apply N.ltb_ge in E. eapply IH; eauto.
Qed.

Lemma parse_ttl_bound s v : parse_ttl s = Some v -> v <= u32max.
Proof. unfold parse_ttl. destruct s; [discriminate|]. intros H. eapply ttl_loop_bound; eauto. unfold u32max. lia. Qed.

Lemma parse_u16_bound s v : parse_u16 s = Some v -> v <= 65535.
Proof.
  unfold parse_u16. intros H.
  destruct (match s with 43 :: r => r | _ => s end); [discriminate|]. eapply dec_acc_bound; eauto. lia.
Qed.

Lemma parse_octet_bound s v : parse_octet s = Some v -> v <= 255.
Proof.
  unfold parse_octet. destruct s as [|c r]; [discriminate|]. intros H.
  destruct (3 <? N.of_nat (length (c :: r))); [discriminate|].
  destruct ((c =? 48) && negb match r with [] => true | _ => false end); [discriminate|].
  eapply dec_acc_bound; eauto. lia.
Qed.

Lemma parse_ipv4_bound s a b c d : parse_ipv4 s = Some (a, b, c, d) -> a <= 255 /\ b <= 255 /\ c <= 255 /\ d <= 255.
Proof.
  unfold parse_ipv4. intros H. destruct (split_on 46 s []) as [|x1 [|x2 [|x3 [|x4 [|x5 t]]]]]; try discriminate.
  destruct (parse_octet x1) eqn:E1; [|discriminate]. destruct (parse_octet x2) eqn:E2; [|discriminate].
  destruct (parse_octet x3) eqn:E3; [|discriminate]. destruct (parse_octet x4) eqn:E4; [|discriminate].
  inversion H; subst. repeat split; eapply parse_octet_bound; eauto.
Qed.

Lemma tok_ttl_bound o v : tok_ttl o = ROk v -> v <= u32max.
Proof. unfold tok_ttl, perr. destruct o; [|discriminate]. intros H. apply opt_r_ok in H. eapply parse_ttl_bound; eauto. Qed.

Lemma tok_i32_bound o v : tok_i32 o = ROk v -> v <= i32max.
Proof.
  unfold tok_i32, perr. intros H. apply bind_ok in H as (x & _ & H).
  destruct (i32max <? x) eqn:E; [discriminate|]. apply N.ltb_ge in E. inversion H; subst. exact E.
Qed.

Lemma tok_name_wf t o n : tok_name t o = ROk n -> oname_wf o = true -> name_wf n = true.
Proof. unfold tok_name, perr. destruct t; [apply name_parse_wf|discriminate]. Qed.

Lemma rdata_of_wf t toks o d : rdata_of t toks o = ROk d -> oname_wf o = true -> rdata_wf d = true.
Proof.
  unfold rdata_of, perr. intros H Wo. destruct t.
  2-4: (* NS, CNAME, PTR: one name *)
    apply bind_ok in H as (n & Hn & H); inversion H; subst; eapply tok_name_wf; eauto.
  - destruct toks as [|s r]; [discriminate|]. destruct (parse_ipv4 s) as [[[[a b] c] e]|] eqn:E; [|discriminate].
    inversion H; subst. apply parse_ipv4_bound in E as (Ha & Hb & Hc & He).
    apply N.leb_le in Ha, Hb, Hc, He. cbn [rdata_wf]. rewrite Ha, Hb, Hc, He. reflexivity.
  - apply bind_ok in H as (p & Hp & H). apply bind_ok in H as (n & Hn & H). inversion H; subst.
    cbn [rdata_wf]. apply andb_true_iff. split; [|eapply tok_name_wf; eauto].
    destruct toks; [discriminate|]. apply opt_r_ok in Hp. apply N.leb_le. eapply parse_u16_bound; eauto.
  - inversion H; subst. reflexivity.
  - apply bind_ok in H as (m & Hm & H). apply bind_ok in H as (r & Hr & H).
    apply bind_ok in H as (a & Ha & H). apply bind_ok in H as (b & Hb & H). apply bind_ok in H as (c & Hc & H).
    apply bind_ok in H as (e & He & H). apply bind_ok in H as (f & Hf & H). inversion H; subst.
    apply tok_ttl_bound in Ha, Hf. apply tok_i32_bound in Hb, Hc, He.
    pose proof (tok_name_wf _ _ _ Hm Wo) as Wm. pose proof (tok_name_wf _ _ _ Hr Wo) as Wr.
    apply N.leb_le in Ha, Hf, Hb, Hc, He.
    cbn [rdata_wf]. rewrite Wm, Wr, Ha, Hb, Hc, He, Hf. reflexivity.
  - discriminate.
  - discriminate.
Qed.

Lemma store_put_wf : forall rs r, forallb rr_wf rs = true -> rr_wf r = true -> forallb rr_wf (store_put rs r) = true.
Proof.
  induction rs as [|x rs IH]; intros r W Wr; cbn [store_put].
  - cbn. now rewrite Wr.
  - cbn [forallb] in W. apply andb_true_iff in W as [Wx Wrs].
    destruct (same_key x r && rdata_eqb (rdat x) (rdat r)).
    + destruct (rec_eqb x r); cbn [forallb]; [now rewrite Wx, Wrs|now rewrite Wr, Wrs].
    + cbn [forallb]. rewrite Wx. now apply IH.
Qed.

Lemma store_insert_wf rs r rs' : store_insert rs r = ROk rs' -> forallb rr_wf rs = true -> rr_wf r = true ->
  forallb rr_wf rs' = true.
Proof.
  unfold store_insert, perr. intros H W Wr.
  assert (A : forall l, forallb rr_wf l = true -> forallb rr_wf (l ++ [r]) = true).
  { intros l Hl. rewrite forallb_app, Hl. cbn. now rewrite Wr. }
  destruct (rty_of_rdata (rdat r)); try (inversion H; subst; now apply store_put_wf).
  - inversion H; subst. apply A. now apply forallb_filter.
  - destruct (existsb (fun x => same_key x r) rs); [discriminate|]. inversion H; subst. now apply A.
Qed.

Definition ottl_wf (o : option N) : bool := match o with Some t => t <=? u32max | None => true end.
Definition ctx_wf (c : ctx) : Prop :=
  oname_wf (c_origin c) = true /\ forallb rr_wf (c_recs c) = true /\ class_known (c_class c) = true /\
  oname_wf (c_cur c) = true /\ ottl_wf (c_default c) = true /\ ottl_wf (c_last c) = true /\ ottl_wf (c_this c) = true.

Lemma class_of_known s k : class_of s = Some k -> class_known k = true.
Proof.
  unfold class_of. intros H.
  repeat match type of H with (if ?b then _ else _) = _ => destruct b end;
    inversion H; subst; reflexivity.
Qed.

Lemma ttl_take_wf c t c' : ttl_take c = Some (t, c') -> ctx_wf c -> t <= u32max /\ ctx_wf c'.
Proof.
  unfold ttl_take. intros H (Wo & Wrs & Wk & Wcur & Wd & Wl & Wt).
  destruct (c_this c) as [x|] eqn:E1.
  - inversion H; subst. cbn [ottl_wf] in Wt. split; [now apply N.leb_le|]. repeat split; cbn; auto.
  - assert (W : ctx_wf c) by (repeat split; auto; now rewrite E1).
    destruct (c_default c) as [x|] eqn:E2.
    + inversion H; subst. cbn [ottl_wf] in Wd. split; [now apply N.leb_le|exact W].
    + destruct (c_last c) as [x|] eqn:E3; [|discriminate]. inversion H; subst. cbn [ottl_wf] in Wl.
      split; [now apply N.leb_le|exact W].
Qed.

Lemma ctx_insert_wf c parts c' : ctx_insert c parts = ROk c' -> ctx_wf c -> ctx_wf c'.
Proof.
  unfold ctx_insert. intros H W. pose proof W as (Wo & Wrs & Wk & Wcur & Wd & Wl & Wt).
  apply bind_ok in H as (t & Ht & H). apply bind_ok in H as (d & Hd & H).
  apply bind_ok in H as (n & Hn & H). apply bind_ok in H as ([ttl c1] & Htt & H).
  apply bind_ok in H as (rs & Hrs & H). inversion H; subst. clear H.
  apply opt_r_ok in Hn, Htt. destruct (ttl_take_wf _ _ _ Htt W) as (Httl & (Vo & Vrs & Vk & Vcur & Vd & Vl & Vt)).
  repeat split; cbn; auto.
  eapply store_insert_wf; [exact Hrs|exact Vrs|].
  rewrite Hn in Wcur. unfold rr_wf. cbn [rname rclass rttl rdat fqdn]. rewrite !andb_true_iff. repeat split.
  - exact Wcur.
  - exact Vk.
  - now apply N.leb_le.
  - eapply rdata_of_wf; eauto.
Qed.

Lemma ptoken_wf c st t c' st' : ptoken c st t = ROk (c', st') -> ctx_wf c -> ctx_wf c'.
Proof.
  intros H W. pose proof W as (Wo & Wrs & Wk & Wcur & Wd & Wl & Wt).
  assert (W0 : ctx_wf (set_rtype c None)) by (repeat split; cbn; auto).
  unfold ptoken, perr in H. destruct st as [ | | |parts|p| ].
  - destruct t; try discriminate; try (inversion H; subst; exact W0).
    + apply bind_ok in H as (n & Hn & H). inversion H; subst.
      repeat split; cbn; auto. cbn [oname_wf]. eapply name_parse_wf; eauto.
    + inversion H; subst. repeat split; cbn; auto.
  - destruct t as [ |l|s| | | | | ]; try discriminate; [|inversion H; subst; exact W].
    destruct (parse_ttl s) eqn:E.
    + inversion H; subst. repeat split; cbn; auto. apply N.leb_le. eapply parse_ttl_bound; eauto.
    + destruct (class_of (upper_str s)) eqn:Ec.
      * inversion H; subst. repeat split; cbn; auto. eapply class_of_known; eauto.
      * destruct (type_of (upper_str s)); [|discriminate]. inversion H; subst. repeat split; cbn; auto.
  - destruct t; try discriminate. apply bind_ok in H as (v & Hv & H). inversion H; subst.
    apply opt_r_ok in Hv. repeat split; cbn; auto. apply N.leb_le. eapply parse_ttl_bound; eauto.
  - destruct t; try discriminate.
    + inversion H; subst. exact W.
    + inversion H; subst. exact W.
    + apply bind_ok in H as (c2 & Hc & H). inversion H; subst. eapply ctx_insert_wf; eauto.
  - destruct t; destruct p as [path|]; try discriminate; try (inversion H; subst; exact W).
    destruct (has_prefix [47] path); discriminate.
  - destruct t; try discriminate. apply bind_ok in H as (n & Hn & H). inversion H; subst.
    repeat split; cbn; auto. cbn [oname_wf]. eapply name_parse_wf; eauto.
Qed.

Lemma parse_loop_wf lex : forall f txt ls c st c', parse_loop lex f txt ls c st = ROk c' -> ctx_wf c -> ctx_wf c'.
Proof.
  induction f as [|f IH]; intros txt ls c st c' H W; [discriminate|].
  cbn [parse_loop] in H. destruct (lex txt ls); try discriminate.
  - apply bind_ok in H as ([c1 st1] & Hp & H). eapply IH; [exact H|]. eapply ptoken_wf; eauto.
  - destruct st; try (inversion H; subst; exact W). eapply ctx_insert_wf; eauto.
Qed.

(* the lexer plays no part: whatever tokens it delivers, [ptoken] keeps the context well formed *)
Theorem parse_with_wf lex o txt rs :
  oname_wf o = true -> parse_with lex o txt = ROk rs -> forallb rr_wf rs = true.
Proof.
  unfold parse_with. intros Wo H. apply bind_ok in H as (c & Hc & H).
  destruct (c_origin c); [|discriminate]. inversion H; subst.
  apply parse_loop_wf in Hc as (_ & W & _); [exact W|].
  repeat split; cbn; auto. destruct o as [on|]; [exact Wo|reflexivity].
Qed.

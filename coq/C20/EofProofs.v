(* C20 — a text that ends inside parentheses is refused (the repaired lexer: finding F2c). *)
From HV Require Import Lib.Base C20.Model C20.LexProofs C20.LineProofs C20.ZoneProofs.
Open Scope N_scope.

(* spec, independent of the state machine: does the text after an opening parenthesis contain
   the closing one?  A parenthesis in a comment does not count; [in_comment]: the text starts
   inside one. *)
Fixpoint closes (in_comment : bool) (txt : str) : bool :=
  match txt with
  | [] => false
  | c :: r => if in_comment then closes (negb (is_nl c)) r
              else if c =? 59 then closes true r
              else if c =? 41 then true
              else closes false r
  end.

Definition in_group (st : lst) : option bool :=
  match st with
  | SList | SCharData true => Some false
  | SComment true => Some true
  | _ => None
  end.

Lemma is_nl_not_sep c : is_nl c = true -> (c =? 59) = false /\ (c =? 41) = false.
Proof.
  unfold is_nl. intros H. apply orb_true_iff in H.
  destruct H as [H|H]; apply N.eqb_eq in H; subst; split; reflexivity.
Qed.

(* [LPanic] counts as refused: the next lemma is for any fuel *)
Definition lex_refused (r : lres) : Prop :=
  match r with LErr _ | LPanic => True | _ => False end.

Lemma lex_loop_unclosed : forall f txt st cd cdv b,
  in_group st = Some b -> closes b txt = false -> lex_refused (lex_loop f txt st cd cdv).
Proof.
  induction f as [|f IH]; intros txt st cd cdv b G H; [exact I|].
  cbn [lex_loop]. destruct st as [ | | | |[|]|[|]| | | | | ]; try discriminate; inversion G; subst b;
    (destruct txt as [|c r]; cbn [step]; [exact I|]); cbn [closes] in H.
  - destruct (c =? 59) eqn:E59; [exact (IH _ (SComment true) _ _ _ eq_refl H)|].
    destruct (c =? 41) eqn:E41; [discriminate|].
    destruct (is_ws c); [exact (IH _ SList _ _ _ eq_refl H)|].
    destruct (is_plain c); [|exact I].
    apply (IH _ (SCharData true) _ _ false eq_refl). cbn [closes]. now rewrite E59, E41.
  - cbn [negb]. rewrite andb_false_r.
    destruct (is_ws c || (c =? 41) || (c =? 59)) eqn:Esep.
    { destruct cdv as [v|]; [|exact I]. destruct cd as [s|]; [|exact I].
      apply (IH _ SList _ _ false eq_refl). exact H. }
    apply orb_false_iff in Esep as [Esep E59]. apply orb_false_iff in Esep as [_ E41].
    rewrite E59, E41 in H.
    destruct (is_plain c); [|exact I]. destruct (push cd c) as [cd'|]; [|exact I].
    exact (IH _ (SCharData true) _ _ _ eq_refl H).
  - destruct (is_nl c) eqn:Enl; cbn [negb] in H.
    + destruct (is_nl_not_sep c Enl) as [E59 E41].
      apply (IH _ SList _ _ false eq_refl). cbn [closes]. now rewrite E59, E41.
    + exact (IH _ (SComment true) _ _ _ eq_refl H).
Qed.

Definition at_open (st : lst) (bl : str) : Prop :=
  (st = SStartLine /\ bl = []) \/ (st = SRestOfLine /\ forallb blank bl = true).

Theorem next_token_unclosed bl r st : at_open st bl -> closes false r = false ->
  exists e, next_token_nocap (bl ++ 40 :: r) st = LErr e.
Proof.
  intros Hst Hr.
  (* the call gets into the group, and there has fuel enough not to stop short *)
  assert (HS : Steps (bl ++ 40 :: r, st, None, None) (r, SList, None, Some [])).
  { destruct Hst as [[-> ->]|[-> Hb]].
    - do 2 (eapply steps_cons; [reflexivity|]). apply steps_refl.
    - eapply steps_trans; [apply steps_blanks; exact Hb|]. apply steps_one. reflexivity. }
  pose proof (lex_loop_unclosed (S (mu r SList)) r SList None (Some []) false eq_refl Hr) as L.
  pose proof (lex_loop_fuel_enough _ r SList None (Some []) (Nat.lt_succ_diag_r _)) as T.
  rewrite (lex_of_steps _ _ HS eq_refl T).
  destruct (lex_loop (S (mu r SList)) r SList None (Some [])); try contradiction; eauto.
Qed.

Theorem parse_unclosed_nocap o pre bl toks r st :
  at_open st bl ->
  Toks next_token_nocap (pre ++ bl ++ 40 :: r) SStartLine toks (bl ++ 40 :: r) st ->
  closes false r = false ->
  forall rs, parse_nocap o (pre ++ bl ++ 40 :: r) <> ROk rs.
Proof.
  intros Hst HT Hr rs H. unfold parse_nocap, parse_with in H.
  destruct (parse_loop_prefix _ next_token_nocap_ok _ _ _ _ (ctx0 o) HT) as (f & E). rewrite E in H.
  apply bind_ok in H as (c & Hc & _). apply bind_ok in Hc as ([c1 p1] & _ & H1).
  cbn [parse_loop] in H1. destruct (next_token_unclosed bl r st Hst Hr) as (e & He). rewrite He in H1. discriminate.
Qed.

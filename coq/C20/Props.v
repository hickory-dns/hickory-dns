(* C20 — property theorems (the longer proofs are in the *Proofs.v files).
   [parse o txt] is the model of Parser::new(txt, None, o).parse(); results: ROk records,
   RErr class, RPanic (the lexer's assert!(i < 4095)), RUnmod (outside the model), RFuel (the
   model's own recursion bound, shown unreachable).  [parse_nocap] is the same loader over the
   lexer without its 4096-iteration cap, [parse_capped c] over the lexer with a cap of c.
   Which of the two [parse] is, is the single definition [lex_cap] in Model.v; this file checks
   unchanged under both settings ([Some cap]: finding F2 open; [None]: lexer repaired). *)
From Coq Require Import String.
From HV Require Import Lib.Base C20.Model C20.LexProofs C20.FieldProofs C20.LineProofs C20.ZoneProofs
  C20.WfProofs C20.ExampleProofs C20.EofProofs.
Open Scope N_scope.

(* The token loop of next_token needs no iteration cap: without the cap, 2*|text|+4 iterations
   always suffice (every iteration consumes a character or lowers a rank bounded by 3). *)
Theorem C20_lexer_terminates : forall txt st, next_token_nocap txt st <> LPanic.
Proof. exact next_token_nocap_total. Qed.
Print Assumptions C20_lexer_terminates.

(* The whole load terminates for every text and origin (the model's recursion bound |text|+1 on
   the number of tokens is never reached: every token consumes at least one character), and
   without the cap it never panics. *)
Theorem C20_parse_total : forall o txt,
  parse o txt <> RFuel /\ parse_nocap o txt <> RFuel /\ parse_nocap o txt <> RPanic.
Proof.
  intros o txt. repeat split.
  - apply parse_with_no_fuel. exact next_token_ok.
  - apply parse_with_no_fuel. exact next_token_nocap_ok.
  - apply parse_with_panic_free. exact next_token_nocap_total.
Qed.
Print Assumptions C20_parse_total.

(* which loader [parse] is *)
Theorem C20_model_variant :
  parse = match lex_cap with Some c => parse_capped c | None => parse_nocap end.
Proof. reflexivity. Qed.
Print Assumptions C20_model_variant.

(* The only effect of the cap is to turn a result into a panic. *)
Theorem C20_cap_only_panics : forall o txt, parse o txt <> RPanic -> parse o txt = parse_nocap o txt.
Proof. exact parse_cap_refines. Qed.
Print Assumptions C20_cap_only_panics.

(* "Text of any kind never panics" is false for the loader with the 4096-iteration assert: a
   first token of 4093 letters trips it (replayed on the real code by the harness family
   long-lexeme and corpus/C20/f2-*.zone: finding F2). *)
Theorem C20_no_panic_refuted : exists o txt, parse_capped cap o txt = RPanic.
Proof.
  exists None, (repeat 97 (N.to_nat 4093)). change (N.to_nat 4093) with (S (N.to_nat 4092)).
  unfold parse_capped, parse_with. cbn [parse_loop].
  rewrite next_token_cap_long_word; [reflexivity|unfold cap; lia].
Qed.
Print Assumptions C20_no_panic_refuted.

(* The loader can panic exactly when it has the cap: with [lex_cap = Some cap] this is the
   refutation above for [parse] itself; with [lex_cap = None] it says that no text panics. *)
Theorem C20_panic_iff_capped : (exists o txt, parse o txt = RPanic) <-> lex_cap <> None.
Proof.
  split.
  - intros (o & txt & H).
    first [ unfold lex_cap; discriminate
          | exfalso; exact (parse_with_panic_free next_token_nocap o txt next_token_nocap_total H) ].
  - intros H.
    first [ exact C20_no_panic_refuted | exfalso; apply H; reflexivity ].
Qed.
Print Assumptions C20_panic_iff_capped.

(* Guarded form: texts of at most 2045 characters never panic, whatever they contain. *)
Theorem C20_no_panic_guarded : forall o txt, (length txt <= 2045)%nat -> parse o txt <> RPanic.
Proof. exact parse_short_no_panic. Qed.
Print Assumptions C20_no_panic_guarded.

(* Whatever the blanks, the comment, the line ending, the quoting of strings and the
   parenthesised groups (with their line breaks and comments) of a line, the lexer delivers
   exactly the tokens of its items, then the end-of-line token, and is back at the start of the
   next line.  ([line_ok]: blanks are spaces/tabs, comments and group separators are well formed,
   a word is followed by a blank when another item follows.) *)
Theorem C20_line_layout : forall l rest, line_ok l = true ->
  Toks next_token_nocap (render_line l ++ rest) SStartLine (line_tokens l) rest SStartLine.
Proof. exact toks_line. Qed.
Print Assumptions C20_line_layout.

(* For every origin [o], every list of lines in any lexical layout ([line_ok]) whose token
   sequences follow the master-file grammar [ZoneToks] for the records [rs] (owner absolute,
   origin-relative, @ or inherited from the previous record; TTL (decimal or with s/m/h/d/w
   units) and class stated in either order or inherited from $TTL / the last stated value; class
   and type mnemonics in any letter case; $ORIGIN (with an absolute name, or a relative one that
   is completed with the origin then in force) and $TTL directives, blank and comment
   lines anywhere; RDATA words plain, quoted or gathered in parentheses), with well-formed,
   pairwise distinct records: the loader without the cap returns exactly [rs], in order. *)
Theorem C20_roundtrip_nocap : forall o lines rs,
  forallb line_ok lines = true ->
  ZoneToks (ps0 o) (map line_tokens lines) rs ->
  forallb srec_ok rs = true ->
  distinct (map denote rs) = true ->
  parse_nocap (Some (abs_name o)) (render_zone lines) = ROk (map denote rs).
Proof. exact zone_roundtrip_nocap. Qed.
Print Assumptions C20_roundtrip_nocap.

(* The same for the real (capped) loader, for zones of any size, guarded by [short_line]: no line
   (with its parenthesised continuation) exceeds 2045 characters, so that no single token can
   need 4096 lexer iterations.  Unguarded it is false by C20_no_panic_refuted: any line can be
   given a 4093-character comment. *)
Theorem C20_roundtrip_guarded : forall o lines rs,
  forallb line_ok lines = true ->
  forallb short_line lines = true ->
  ZoneToks (ps0 o) (map line_tokens lines) rs ->
  forallb srec_ok rs = true ->
  distinct (map denote rs) = true ->
  parse (Some (abs_name o)) (render_zone lines) = ROk (map denote rs).
Proof.
  intros o lines rs Hl Hs. apply (zone_lines next_token good_short toks_line_short next_token_ok o lines rs I).
  rewrite forallb_forall in *. intros l Hin. unfold good_short. now rewrite Hl, Hs.
Qed.
Print Assumptions C20_roundtrip_guarded.

(* A last line without line break is loaded like any other (the flush at the end of the input):
   the zone [lines] followed by the unterminated line [last], whose token list is completed by
   the missing end-of-line token in the grammar. *)
Theorem C20_roundtrip_no_final_newline_guarded : forall o lines last rs,
  forallb good_short lines = true -> line_noeol_ok last = true ->
  (length (render_noeol last) <= 2045)%nat ->
  ZoneToks (ps0 o) (map line_tokens lines ++ [line_tokens_noeol last ++ [TEOL]]) rs ->
  forallb srec_ok rs = true ->
  distinct (map denote rs) = true ->
  parse (Some (abs_name o)) (render_zone lines ++ render_noeol last) = ROk (map denote rs).
Proof. exact zone_roundtrip_last. Qed.
Print Assumptions C20_roundtrip_no_final_newline_guarded.

(* For every text (garbage included): every record returned has labels of 1..63 octets, names of
   at most 255 octets, a known class, a TTL below 2^32, address octets, preferences and SOA
   timers in range.  Out-of-range input is refused, never wrapped. *)
Theorem C20_loaded_records_wellformed : forall o txt rs,
  oname_wf o = true -> parse o txt = ROk rs -> forallb rr_wf rs = true.
Proof. exact (parse_with_wf next_token). Qed.
Print Assumptions C20_loaded_records_wellformed.

Definition ex_o : option name := Some (abs_name [s2l "example"; s2l "com"]).
Definition ex_a : name := abs_name [s2l "a"; s2l "example"; s2l "com"].
Definition nl (s : string) : str := s2l s ++ [10].

(* F2b: a quoted string inside parentheses is split at blanks and keeps its quotes *)
Theorem C20_quotes_in_parens_refuted :
  parse ex_o (nl "a 60 IN TXT ""b c""") = ROk [MkRR ex_a 1 60 (DTXT [s2l "b c"])] /\
  parse ex_o (nl "a 60 IN TXT ( ""b c"" )") = ROk [MkRR ex_a 1 60 (DTXT [s2l """b"; s2l "c"""])].
Proof. split; vm_compute; reflexivity. Qed.
Print Assumptions C20_quotes_in_parens_refuted.

(* F2b: \DDD in a quoted string is (d1<<16)+(d2<<8)+d3, not the decimal octet: \065 is U+0605 *)
Theorem C20_ddd_escape_refuted :
  parse ex_o (nl "a 60 IN TXT ""\065""") = ROk [MkRR ex_a 1 60 (DTXT [[216; 133]])].
Proof. vm_compute. reflexivity. Qed.
Print Assumptions C20_ddd_escape_refuted.

(* F2b: @ for the origin inside RDATA is refused *)
Theorem C20_at_in_rdata_refuted : parse ex_o (nl "a 60 IN NS @") = RErr 2.
Proof. vm_compute. reflexivity. Qed.
Print Assumptions C20_at_in_rdata_refuted.

(* F2e (repaired): a relative name after $ORIGIN is completed with the current origin.  The
   grammar of the round-trip theorems covers it (LineToks.lt_origin: any NameText of the new
   origin); stated on its own: a zone that starts with "$ORIGIN rel" (any layout [l] of that line),
   loaded under the origin [o], is the rest of the zone loaded under rel.o *)
Theorem C20_relative_origin : forall o rel l lines rs,
  rel <> [] -> name_ok (rel ++ o) = true ->
  line_ok l = true -> line_tokens l = [TOrigin; TChar (print_rel rel); TEOL] ->
  forallb line_ok lines = true ->
  ZoneToks (ps0 (rel ++ o)) (map line_tokens lines) rs ->
  forallb srec_ok rs = true ->
  distinct (map denote rs) = true ->
  parse_nocap (Some (abs_name o)) (render_zone (l :: lines)) = ROk (map denote rs).
Proof.
  intros o rel l lines rs Hne Hok Hl Ht Hls HZ Hrs Hd.
  apply zone_roundtrip_nocap; [cbn [forallb]; now rewrite Hl| |exact Hrs|exact Hd].
  cbn [map]. rewrite Ht. eapply zt_skip; [|exact HZ].
  apply (lt_origin (ps0 o) (rel ++ o) (print_rel rel) Hok). now apply nt_rel.
Qed.
Print Assumptions C20_relative_origin.

(* F2c (repaired): a text that ends inside parentheses is never accepted.  Whatever precedes the
   opening parenthesis (any text [pre] after which the lexer is at the start of a line, or in the
   middle of one and then after any blanks [bl]; [toks] are the tokens of [pre]) and whatever
   follows it, if the closing parenthesis is missing ([closes]: no ")" outside a comment up to
   the end of the text) the load is an error (or outside the model: $INCLUDE of an absolute path
   before it; a panic only for the lexer with the cap). *)
Theorem C20_eof_in_parens_is_error : forall o pre bl toks r st,
  at_open st bl ->
  Toks next_token_nocap (pre ++ bl ++ 40 :: r) SStartLine toks (bl ++ 40 :: r) st ->
  closes false r = false ->
  (exists k, parse o (pre ++ bl ++ 40 :: r) = RErr k) \/ parse o (pre ++ bl ++ 40 :: r) = RUnmod \/
  (lex_cap <> None /\ parse o (pre ++ bl ++ 40 :: r) = RPanic).
Proof.
  intros o pre bl toks r st Hst HT Hr. pose proof (parse_unclosed_nocap o pre bl toks r st Hst HT Hr) as Hno.
  destruct (parse o (pre ++ bl ++ 40 :: r)) as [rs|k| | |] eqn:E.
  - (* ROk: then so without the cap *)
    exfalso. apply (Hno rs). rewrite <- E. symmetry. apply parse_cap_refines. rewrite E. discriminate.
  - left. eauto.
  - right. left. reflexivity.
  - (* RPanic; the first branch is for [lex_cap = Some _], the second for [None] *)
    right. right. split; [|reflexivity]. intros Hc.
    first [ discriminate Hc
          | exact (parse_with_panic_free next_token_nocap o _ next_token_nocap_total E) ].
  - exfalso. exact (parse_with_no_fuel _ next_token_ok o _ E).
Qed.
Print Assumptions C20_eof_in_parens_is_error.

(* at the lexer: an opening parenthesis that is never closed yields an error, never a token or
   the end-of-input result *)
Theorem C20_unclosed_list_lexer_error : forall bl r st,
  at_open st bl -> closes false r = false ->
  exists e, next_token_nocap (bl ++ 40 :: r) st = LErr e.
Proof. exact next_token_unclosed. Qed.
Print Assumptions C20_unclosed_list_lexer_error.

(* F2d: RDATA fields after the last expected one are ignored instead of refused *)
Theorem C20_trailing_field_refuted :
  parse ex_o (nl "a 60 IN A 192.0.2.1 192.0.2.2") = ROk [MkRR ex_a 1 60 (DA 192 0 2 1)].
Proof. vm_compute. reflexivity. Qed.
Print Assumptions C20_trailing_field_refuted.

(* a short text that loads, texts that are refused *)
Example C20_short_text_example :
  let txt := nl "www 60 IN A 192.0.2.1" in
  (length txt <= 2045)%nat /\
  parse ex_o txt = ROk [MkRR (abs_name [s2l "www"; s2l "example"; s2l "com"]) 1 60 (DA 192 0 2 1)] /\
  parse ex_o (s2l "www 60 IN A 192.0.2.256") = RErr 2 /\
  parse ex_o (s2l "www 60 IN TXT ""abc") = RErr 1.
Proof. cbv zeta. split; [apply Nat.leb_le; reflexivity|]. vm_compute. auto. Qed.

(* F2e and F2c on concrete texts: the relative $ORIGIN is completed; the three texts that
   end inside parentheses are refused; the hypotheses of C20_eof_in_parens_is_error and of
   C20_relative_origin hold for them *)
Example C20_relative_origin_example :
  parse ex_o (nl "$ORIGIN sub" ++ nl "www 60 IN A 192.0.2.1") =
    ROk [MkRR (abs_name [s2l "www"; s2l "sub"; s2l "example"; s2l "com"]) 1 60 (DA 192 0 2 1)] /\
  let l := MkLine [] [(IDir DOrigin, [32]); (IWord (s2l "sub"), [])] None [10] in
  line_ok l = true /\ line_tokens l = [TOrigin; TChar (print_rel [s2l "sub"]); TEOL] /\
  render_line l = nl "$ORIGIN sub" /\ name_ok ([s2l "sub"] ++ [s2l "example"; s2l "com"]) = true.
Proof. cbv zeta. repeat split; vm_compute; reflexivity. Qed.

Example C20_eof_in_parens_example :
  parse ex_o (s2l "a 60 IN TXT ( b c") = RErr 1 /\
  parse ex_o (s2l "a 60 IN TXT ( b c ;") = RErr 1 /\
  parse ex_o (s2l "a 60 IN TXT ( b c ") = RErr 1 /\
  parse ex_o (nl "a 60 IN TXT ( b c )") = ROk [MkRR ex_a 1 60 (DTXT [s2l "b"; s2l "c"])] /\
  at_open SRestOfLine [32] /\
  Toks next_token_nocap (s2l "a 60 IN TXT" ++ [32] ++ 40 :: s2l " b c ;)") SStartLine
       [TChar (s2l "a"); TChar (s2l "60"); TChar (s2l "IN"); TChar (s2l "TXT")]
       ([32] ++ 40 :: s2l " b c ;)") SRestOfLine /\
  closes false (s2l " b c ;)") = false /\ closes false (s2l " b c )") = true.
Proof.
  split; [vm_compute; reflexivity|]. split; [vm_compute; reflexivity|].
  split; [vm_compute; reflexivity|]. split; [vm_compute; reflexivity|].
  split; [right; split; reflexivity|].
  split; [|split; reflexivity].
  repeat (eapply toks_cons; [vm_compute; reflexivity|]). apply toks_nil.
Qed.

(* the hypotheses of the round-trip theorems hold for a nine-line zone using every layout
   feature of the grammar (ExampleProofs.v); its text, and what it loads to *)
Example C20_roundtrip_example :
  forallb line_ok ex_lines = true /\
  forallb short_line ex_lines = true /\
  ZoneToks (ps0 ex_origin) (map line_tokens ex_lines) ex_recs /\
  forallb srec_ok ex_recs = true /\
  distinct (map denote ex_recs) = true /\
  length ex_recs = 5%nat /\
  parse (Some (abs_name ex_origin)) (render_zone ex_lines) = ROk (map denote ex_recs) /\
  forallb rr_wf (map denote ex_recs) = true.
Proof.
  destruct ex_side as (H1 & H2 & H3 & H4).
  assert (P : parse (Some (abs_name ex_origin)) (render_zone ex_lines) = ROk (map denote ex_recs))
    by (apply C20_roundtrip_guarded; auto; exact ex_zone_toks).
  split; [exact H1|]. split; [exact H4|]. split; [exact ex_zone_toks|]. split; [exact H2|]. split; [exact H3|].
  split; [reflexivity|]. split; [exact P|].
  eapply C20_loaded_records_wellformed; [|exact P]. reflexivity.
Qed.

Example C20_no_final_newline_example :
  forallb good_short ex2_lines = true /\ line_noeol_ok ex2_last = true /\
  ZoneToks (ps0 ex_origin) (map line_tokens ex2_lines ++ [line_tokens_noeol ex2_last ++ [TEOL]]) ex2_recs /\
  parse (Some (abs_name ex_origin)) (s2l "$TTL 1h" ++ [10] ++ s2l "www A 192.0.2.7") = ROk (map denote ex2_recs).
Proof.
  destruct ex2_side as (H1 & H2 & H3 & H4 & H5 & H6).
  split; [exact H1|]. split; [exact H2|]. split; [exact ex2_zone_toks|].
  rewrite <- H6. apply C20_roundtrip_no_final_newline_guarded; auto. exact ex2_zone_toks.
Qed.

Example C20_line_example :
  let l := MkLine [9] [(IWord (s2l "TXT"), [32]); (IQuoted (s2l "a;b"), []);
                       (IGroup [([], s2l "x"); ([LComment (s2l "c") 10], s2l "y")] [LBlank 32], [32])]
                  (Some (s2l " done")) [13; 10] in
  line_ok l = true /\
  render_line l = [9] ++ s2l "TXT ""a;b""(x;c" ++ [10] ++ s2l "y ) ; done" ++ [13; 10] /\
  line_tokens l = [TBlank; TChar (s2l "TXT"); TChar (s2l "a;b"); TList [s2l "x"; s2l "y"]; TEOL].
Proof. cbv zeta. repeat split; vm_compute; reflexivity. Qed.

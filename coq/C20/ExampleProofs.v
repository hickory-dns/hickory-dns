(* C20 — a concrete zone in the grammar of the specification (non-vacuity of the round-trip
   theorem): directives, @, inherited owner, relative and absolute names, an escaped dot, TTL (decimal or with units) and
   class (any letter case) in either order or omitted, parentheses with line breaks and a comment, CRLF, blank and
   comment lines, a quoted string with escaped quotes, an unquoted string. *)
From Coq Require Import String Ascii.
From HV Require Import Lib.Base C20.Model C20.LexProofs C20.FieldProofs C20.LineProofs C20.ZoneProofs.
Open Scope N_scope.

(* forms of the constructors whose indices are equations, for building concrete derivations *)
Lemma zt_rec ps ts r ps' tss rs : LineToks ps ts (Some r) ps' -> ZoneToks ps' tss rs -> ZoneToks ps (ts :: tss) (r :: rs).
Proof. intros H1 H2. exact (zt_cons ps ts (Some r) ps' tss rs H1 H2). Qed.
Lemma zt_skip ps ts ps' tss rs : LineToks ps ts None ps' -> ZoneToks ps' tss rs -> ZoneToks ps (ts :: tss) rs.
Proof. intros H1 H2. exact (zt_cons ps ts None ps' tss rs H1 H2). Qed.
Lemma lt_rec_eq ps r own tc explicit ty rd ws ts :
  OwnerToks ps (s_owner r) own -> TtlClassToks ps (s_ttl r) (s_class r) tc explicit ->
  Mnem (type_text (s_data r)) ty ->
  flat_tokens rd = Some ws -> DataWords (p_origin ps) (s_data r) ws ->
  ts = own ++ tc ++ [TChar ty] ++ rd ++ [TEOL] ->
  LineToks ps ts (Some r)
    (MkPs (p_origin ps) (Some (s_owner r)) (p_dttl ps) (if explicit then Some (s_ttl r) else p_last ps) (s_class r)).
Proof. intros. subst ts. apply (lt_rec ps r own tc explicit ty rd ws); assumption. Qed.
Lemma nt_rel1 o l t : t = print_label l -> NameText o (l :: o) t.
Proof. intros ->. now apply (nt_rel o (l :: o) [l]). Qed.

Definition sp : str := [32].
Definition w (s : string) : item := IWord (s2l s).
Definition ex_origin : list str := [s2l "example"; s2l "com"].
Definition nm (l : list string) : list str := map s2l l.

Definition ex_lines : list line := [
  (* $TTL 1h ; default *)
  MkLine [] [(IDir DTtl, sp); (w "1h", sp)] (Some (s2l " default")) [10];
  (* @ IN SOA ns1 admin\.mail ( 1 ; serial <nl> 2h 15M <nl> 2w 4m60 ) <crlf> *)
  MkLine [] [(IAt, sp); (w "IN", [32; 32]); (w "SOA", [9]); (w "ns1", sp); (w "admin\.mail", sp);
             (IGroup [([LBlank 32], s2l "1");
                      ([LBlank 32; LComment (s2l " serial") 10; LBlank 32], s2l "2h");
                      ([LBlank 32], s2l "15M");
                      ([LBlank 10; LBlank 9], s2l "2w");
                      ([LBlank 32], s2l "4m60")] [LBlank 32], [])] None [13; 10];
  (* <tab> NS ns1 *)
  MkLine [9] [(w "NS", sp); (w "ns1", [])] None [10];
  (* ns1 60 A 192.0.2.1 *)
  MkLine [] [(w "ns1", sp); (w "60", sp); (w "A", sp); (w "192.0.2.1", [])] None [10];
  (* empty line, comment line *)
  MkLine [] [] None [10];
  MkLine [32] [] (Some (s2l " mail (and ""text"")")) [10];
  (* txt.example.com. CH 300 TXT "hello \"world\"" plain *)
  MkLine [] [(w "txt.example.com.", sp); (w "CH", sp); (w "300", sp); (w "TXT", sp);
             (IQuoted (s2l "hello ""world"""), sp); (w "plain", [])] None [10];
  (* $ORIGIN sub   (relative: completed with the current origin example.com.) *)
  MkLine [] [(IDir DOrigin, sp); (w "sub", [])] None [10];
  (* www in Cname ns1.example.com. ;c *)
  MkLine [] [(w "www", sp); (w "in", sp); (w "Cname", sp); (w "ns1.example.com.", sp)] (Some (s2l "c")) [10]
].

Definition ex_recs : list srec := [
  MkSrec ex_origin 1 3600 (SSOA (nm ["ns1"; "example"; "com"]%string) (nm ["admin.mail"; "example"; "com"]%string) 1 7200 900 1209600 300);
  MkSrec ex_origin 1 3600 (SNS (nm ["ns1"; "example"; "com"]%string));
  MkSrec (nm ["ns1"; "example"; "com"]%string) 1 60 (SA 192 0 2 1);
  MkSrec (nm ["txt"; "example"; "com"]%string) 3 300 (STXT [s2l "hello ""world"""; s2l "plain"]);
  MkSrec (nm ["www"; "sub"; "example"; "com"]%string) 1 3600 (SCNAME (nm ["ns1"; "example"; "com"]%string))
].

Ltac norm_state := cbn [p_origin p_prev p_dttl p_last p_class s_owner s_ttl s_class s_data].

Lemma ex_zone_toks : ZoneToks (ps0 ex_origin) (map line_tokens ex_lines) ex_recs.
Proof.
  unfold ex_lines, ex_recs. cbn [map].
  eapply zt_skip.
  { apply (lt_ttl _ 3600 (s2l "1h")); [unfold u32max; lia|].
    apply (tt_units 3600 [(1, 104)]); [discriminate|reflexivity]. }
  norm_state. eapply zt_rec.
  { eapply (lt_rec_eq _ _ [TAt] [TChar (s2l "IN")] false (s2l "SOA")
              [TChar (s2l "ns1"); TChar (s2l "admin\.mail"); TList (map s2l ["1"; "2h"; "15M"; "2w"; "4m60"]%string)]).
    - apply ot_at. reflexivity.
    - apply tc_class; reflexivity.
    - reflexivity.
    - reflexivity.
    - apply dw_soa.
      + apply (nt_rel1 _ (s2l "ns1")); reflexivity.
      + apply (nt_rel1 _ (s2l "admin.mail")); reflexivity.
      + apply (tt_units 7200 [(2, 104)]); [discriminate|reflexivity].
      + apply (tt_units 900 [(15, 77)]); [discriminate|reflexivity].
      + apply (tt_units 1209600 [(2, 119)]); [discriminate|reflexivity].
      + apply (tt_units_secs 300 [(4, 109)] 240 60); [discriminate|reflexivity|reflexivity].
    - reflexivity. }
  norm_state. eapply zt_rec.
  { eapply (lt_rec_eq _ _ [TBlank] [] false (s2l "NS") [TChar (s2l "ns1")]).
    - apply ot_inherit. reflexivity.
    - apply tc_none; reflexivity.
    - reflexivity.
    - reflexivity.
    - apply dw_ns. apply (nt_rel1 _ (s2l "ns1")); reflexivity.
    - reflexivity. }
  norm_state. eapply zt_rec.
  { eapply (lt_rec_eq _ _ [TChar (s2l "ns1")] [TChar (dec 60)] true (s2l "A") [TChar (s2l "192.0.2.1")]).
    - apply ot_text. apply (nt_rel1 _ (s2l "ns1")); reflexivity.
    - apply tc_ttl; [apply tt_dec|reflexivity].
    - reflexivity.
    - reflexivity.
    - apply dw_a.
    - reflexivity. }
  norm_state. eapply zt_skip; [apply lt_blank|].
  eapply zt_skip; [apply lt_blank2|].
  norm_state. eapply zt_rec.
  { eapply (lt_rec_eq _ _ [TChar (s2l "txt.example.com.")] [TChar (s2l "CH"); TChar (dec 300)] true (s2l "TXT")
              [TChar (s2l "hello ""world"""); TChar (s2l "plain")]).
    - apply ot_text. apply nt_abs.
    - apply tc_both2; [apply tt_dec|reflexivity].
    - reflexivity.
    - reflexivity.
    - apply dw_txt.
    - reflexivity. }
  norm_state. eapply zt_skip; [apply (lt_origin _ (nm ["sub"; "example"; "com"]%string) (s2l "sub"));
                     [reflexivity|apply (nt_rel1 _ (s2l "sub")); reflexivity]|].
  norm_state. eapply zt_rec.
  { eapply (lt_rec_eq _ _ [TChar (s2l "www")] [TChar (s2l "in")] false (s2l "Cname") [TChar (s2l "ns1.example.com.")]).
    - apply ot_text. apply (nt_rel1 _ (s2l "www")); reflexivity.
    - apply tc_class; reflexivity.
    - reflexivity.
    - reflexivity.
    - apply dw_cname. apply nt_abs.
    - reflexivity. }
  norm_state. apply zt_nil.
Qed.

Lemma ex_side : forallb line_ok ex_lines = true /\ forallb srec_ok ex_recs = true /\
  distinct (map denote ex_recs) = true /\ forallb short_line ex_lines = true.
Proof. vm_compute. auto. Qed.

(* a zone whose last line has no line break and ends right after a word *)
Definition ex2_lines : list line := [ MkLine [] [(IDir DTtl, sp); (w "1h", [])] None [10] ].
Definition ex2_last : line := MkLine [] [(w "www", sp); (w "A", sp); (w "192.0.2.7", [])] None [].
Definition ex2_recs : list srec := [ MkSrec (nm ["www"; "example"; "com"]%string) 1 3600 (SA 192 0 2 7) ].

Lemma ex2_zone_toks :
  ZoneToks (ps0 ex_origin) (map line_tokens ex2_lines ++ [line_tokens_noeol ex2_last ++ [TEOL]]) ex2_recs.
Proof.
  unfold ex2_lines, ex2_last, ex2_recs. cbn [map app].
  eapply zt_skip.
  { apply (lt_ttl _ 3600 (s2l "1h")); [unfold u32max; lia|].
    apply (tt_units 3600 [(1, 104)]); [discriminate|reflexivity]. }
  norm_state. eapply zt_rec.
  { eapply (lt_rec_eq _ _ [TChar (s2l "www")] [] false (s2l "A") [TChar (s2l "192.0.2.7")]).
    - apply ot_text. apply (nt_rel1 _ (s2l "www")); reflexivity.
    - apply tc_none; reflexivity.
    - reflexivity.
    - reflexivity.
    - apply dw_a.
    - reflexivity. }
  norm_state. apply zt_nil.
Qed.

Lemma ex2_side : forallb good_short ex2_lines = true /\ line_noeol_ok ex2_last = true /\
  (length (render_noeol ex2_last) <= short)%nat /\ forallb srec_ok ex2_recs = true /\
  distinct (map denote ex2_recs) = true /\
  render_zone ex2_lines ++ render_noeol ex2_last = s2l "$TTL 1h" ++ [10] ++ s2l "www A 192.0.2.7".
Proof.
  split; [vm_compute; reflexivity|]. split; [vm_compute; reflexivity|].
  split; [apply Nat.leb_le; reflexivity|]. split; [vm_compute; reflexivity|]. split; vm_compute; reflexivity.
Qed.

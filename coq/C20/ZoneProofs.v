(* C20 — the loader as the line machine over the tokens of the text ([ptokens], [parse_loop_prefix]);
   the token lists of a zone in the grammar through the line machine ([line_tokens_ok],
   [zone_tokens_ok]); the text of a zone through the lexer ([toks_zone]); the round-trip theorems
   ([zone_text] and its instances). *)
From Coq Require Import String Ascii.
From HV Require Import Lib.Base Lib.ListX C20.Model C20.LexProofs C20.FieldProofs C20.LineProofs.
Open Scope N_scope.

(* the parser's line machine over a known token sequence *)
Fixpoint ptokens (c : ctx) (st : pstate) (ts : list token) : R (ctx * pstate) :=
  match ts with
  | [] => ROk (c, st)
  | t :: r => do '(c', st') <- ptoken c st t ;; ptokens c' st' r
  end.

Lemma ptokens_app c st a b :
  ptokens c st (a ++ b) = do '(c1, st1) <- ptokens c st a ;; ptokens c1 st1 b.
Proof.
  revert c st. induction a as [|t a IH]; intros c st; cbn [app ptokens]; [reflexivity|].
  destruct (ptoken c st t) as [[c' st']| | | |]; cbn [bind]; auto.
Qed.

Lemma parse_loop_toks lex txt ls ts txt' ls' : Toks lex txt ls ts txt' ls' ->
  forall c st f, parse_loop lex (length ts + f) txt ls c st =
                 do '(c', st') <- ptokens c st ts ;; parse_loop lex f txt' ls' c' st'.
Proof.
  induction 1 as [|txt st0 t txt1 st1 ts txt2 st2 Hl HT IH]; intros c pst f; [reflexivity|].
  cbn [length plus parse_loop ptokens]. rewrite Hl.
  destruct (ptoken c pst t) as [[c1 s1]| | | |]; cbn [bind]; auto.
Qed.

(* every token takes a character, so a text has no more tokens than characters *)
Lemma toks_count lex (L : lexer_ok lex) txt st ts rem st' : Toks lex txt st ts rem st' -> entry st ->
  (length ts + length rem <= length txt)%nat.
Proof.
  induction 1 as [|txt st t txt1 st1 ts txt2 st2 Hl HT IH]; intros E; [apply le_n|].
  pose proof (lx_consumes _ L _ _ _ _ _ E Hl). specialize (IH (lx_entry _ L _ _ _ _ _ Hl)). cbn [length]. lia.
Qed.

(* The loader on a text whose first tokens are known: the line machine over those tokens, then
   the loop on what remains, with fuel left for one call at least. *)
Lemma parse_loop_prefix lex (L : lexer_ok lex) txt ts rem st c : Toks lex txt SStartLine ts rem st ->
  exists f, parse_loop lex (S (length txt)) txt SStartLine c PStart =
            do '(c', st') <- ptokens c PStart ts ;; parse_loop lex (S f) rem st c' st'.
Proof.
  intros HT. pose proof (toks_count lex L _ _ _ _ _ HT (or_introl eq_refl)).
  exists (length txt - length ts)%nat.
  replace (S (length txt)) with (length ts + S (length txt - length ts))%nat by lia.
  now apply parse_loop_toks.
Qed.

Lemma name_text_parse o n t : NameText o n t -> name_ok n = true ->
  name_parse t (Some (abs_name o)) = ROk (abs_name n).
Proof.
  intros [|rel Hne ->] Hok.
  - now apply name_parse_abs.
  - apply (name_parse_rel rel (abs_name o)); assumption.
Qed.

Definition sty (d : sdata) : rty := rty_of_rdata (denote_data d).

Lemma tok_ttl_text v s : TtlText v s -> v <= u32max -> tok_ttl (Some s) = ROk v.
Proof. intros T H. unfold tok_ttl. now rewrite (parse_ttl_text _ _ T H). Qed.

Lemma tok_i32_text v s : TtlText v s -> v <= i32max -> tok_i32 (Some s) = ROk v.
Proof.
  intros T H. unfold tok_i32. rewrite (tok_ttl_text _ _ T) by (unfold i32max, u32max in *; lia). cbn [bind].
  now rewrite ltb_false.
Qed.

Lemma tok_i32_dec v : v <= i32max -> tok_i32 (Some (dec v)) = ROk v.
Proof. exact (tok_i32_text v (dec v) (tt_dec v)). Qed.

Lemma data_words_parse o d ws : DataWords o d ws -> sdata_ok d = true ->
  rdata_of (sty d) ws (Some (abs_name o)) = ROk (denote_data d).
Proof.
  intros W Hok. unfold sdata_ok in Hok. apply andb_true_iff in Hok as [Hn Hv].
  destruct W as [a b c d|n t NT|n t NT|n t NT|p n t NT|ss|m r tm tr a b c e f tb tc te tf Nm Nr Tb Tc Te Tf];
    cbn [names_of forallb] in Hn; rewrite ?andb_true_r in Hn; rewrite ?andb_true_iff, ?N.leb_le in Hv;
    cbn [sty denote_data rty_of_rdata rdata_of nth_error tok_name].
  - destruct Hv as [[[H1 H2] H3] H4]. now rewrite parse_ipv4_print.
  - now rewrite (name_text_parse _ _ _ NT Hn).
  - now rewrite (name_text_parse _ _ _ NT Hn).
  - now rewrite (name_text_parse _ _ _ NT Hn).
  - rewrite parse_u16_dec by exact Hv. cbn [opt_r bind]. now rewrite (name_text_parse _ _ _ NT Hn).
  - reflexivity.
  - apply andb_true_iff in Hn as [Hm Hr]. destruct Hv as [[[[H1 H2] H3] H4] H5].
    rewrite (name_text_parse _ _ _ Nm Hm), (name_text_parse _ _ _ Nr Hr), (tok_ttl_text _ _ (tt_dec a) H1),
      (tok_i32_text _ _ Tb H2), (tok_i32_text _ _ Tc H3), (tok_i32_text _ _ Te H4), (tok_ttl_text _ _ Tf H5).
    reflexivity.
Qed.

Lemma type_text_facts d s : Mnem (type_text d) s ->
  parse_ttl s = None /\ class_of (upper_str s) = None /\ type_of (upper_str s) = Some (sty d).
Proof.
  intros M. split.
  - destruct d; eapply parse_ttl_mnem; try exact M; reflexivity.
  - unfold Mnem in M. rewrite M. destruct d; split; reflexivity.
Qed.

Lemma class_text_facts k s : class_ok k = true -> Mnem (class_text k) s ->
  parse_ttl s = None /\ class_of (upper_str s) = Some k.
Proof.
  unfold class_ok. rewrite !orb_true_iff, !N.eqb_eq. intros H M.
  split; [|unfold Mnem in M; rewrite M];
    destruct H as [[->| ->]| ->]; try reflexivity; eapply parse_ttl_mnem; try exact M; reflexivity.
Qed.

Lemma store_put_fresh : forall rs r,
  forallb (fun x => negb (same_key x r && rdata_eqb (rdat x) (rdat r))) rs = true ->
  store_put rs r = rs ++ [r].
Proof.
  induction rs as [|x rs IH]; intros r H; cbn [store_put app]; [reflexivity|].
  cbn [forallb] in H. apply andb_true_iff in H as [Hx Hr]. apply negb_true_iff in Hx.
  rewrite Hx. now rewrite IH.
Qed.

Lemma store_insert_fresh rs r : forallb (fun x => negb (collides r x)) rs = true ->
  store_insert rs r = ROk (rs ++ [r]).
Proof.
  intros H. unfold store_insert, collides in *.
  destruct (rty_of_rdata (rdat r)) eqn:E; cbn [single orb] in H;
    try (rewrite store_put_fresh; [reflexivity|exact H]).
  - (* CNAME *)
    rewrite filter_all; [reflexivity|].
    eapply forallb_Forall_impl; [|exact H]. intros x Hx. cbn beta in Hx. now rewrite andb_true_r in Hx.
  - (* SOA *)
    replace (existsb (fun x => same_key x r) rs) with false; [reflexivity|].
    symmetry. apply not_true_iff_false. intros Ex. apply existsb_exists in Ex as (x & Hin & Hk).
    rewrite forallb_forall in H. specialize (H x Hin). cbn beta in H. rewrite Hk in H. discriminate.
Qed.

Lemma ptokens_rdata : forall rd ws c parts, flat_tokens rd = Some ws ->
  ptokens c (PRecord parts) rd = ROk (c, PRecord (parts ++ ws)).
Proof.
  induction rd as [|t rd IH]; intros ws c parts H; cbn [flat_tokens] in H.
  - inversion H; subst. cbn. now rewrite app_nil_r.
  - destruct t; try discriminate; destruct (flat_tokens rd) as [w|] eqn:E; try discriminate;
      cbn [option_map] in H; inversion H; subst; cbn [ptokens ptoken bind];
      rewrite (IH w) by reflexivity; now rewrite <- app_assoc.
Qed.

(* The loader's context between two lines is a function of what the printer remembers and of the
   records loaded so far: no TTL is pending; [c_rtype] is whatever the last line left. *)
Definition ctx_of (ps : pstate_) (rs : list rr) (ty : option rty) : ctx :=
  MkCtx (Some (abs_name (p_origin ps))) rs (p_class ps) (option_map abs_name (p_prev ps)) ty
        (p_dttl ps) (p_last ps) None.

(* inside a record line, the owner read: [k] and [this] come from the class and TTL fields *)
Definition ctx_mid (ps : pstate_) (rs : list rr) (owner : list str) (k : N) (this : option N) (ty : option rty) : ctx :=
  MkCtx (Some (abs_name (p_origin ps))) rs k (Some (abs_name owner)) ty (p_dttl ps) (p_last ps) this.

Lemma ptokens_owner ps owner own rs ty : OwnerToks ps owner own -> name_ok owner = true ->
  forall rest, ptokens (ctx_of ps rs ty) PStart (own ++ rest) =
               ptokens (ctx_mid ps rs owner (p_class ps) None None) PTtlClassType rest.
Proof.
  intros O Hok rest. destruct O as [t NT|E|E]; cbn [app ptokens ptoken bind];
    unfold ctx_mid, ctx_of, set_cur, set_rtype; cbn.
  - rewrite (name_text_parse _ _ _ NT Hok). reflexivity.
  - rewrite E. reflexivity.
  - rewrite E. reflexivity.
Qed.

Lemma ptoken_ttl c t s : TtlText t s -> t <= u32max ->
  ptoken c PTtlClassType (TChar s) = ROk (set_this c (Some t), PTtlClassType).
Proof. intros T H. cbn [ptoken]. now rewrite (parse_ttl_text _ _ T H). Qed.

Lemma ptoken_class c k s : Mnem (class_text k) s -> class_ok k = true ->
  ptoken c PTtlClassType (TChar s) = ROk (set_class c k, PTtlClassType).
Proof. intros M H. destruct (class_text_facts k s H M) as [H1 H2]. cbn [ptoken]. now rewrite H1, H2. Qed.

Lemma ptokens_tc ps rs owner t k tc explicit : TtlClassToks ps t k tc explicit ->
  t <= u32max -> class_ok k = true ->
  forall rest, ptokens (ctx_mid ps rs owner (p_class ps) None None) PTtlClassType (tc ++ rest) =
               ptokens (ctx_mid ps rs owner k (if explicit then Some t else None) None) PTtlClassType rest.
Proof.
  intros T Ht Hk rest.
  destruct T as [tt ct HT HM|tt ct HT HM|tt HT <-|ct HM _| <- _]; cbn [app ptokens].
  - rewrite (ptoken_ttl _ _ _ HT Ht). cbn [ptokens bind]. rewrite (ptoken_class _ _ _ HM Hk). reflexivity.
  - rewrite (ptoken_class _ _ _ HM Hk). cbn [ptokens bind]. rewrite (ptoken_ttl _ _ _ HT Ht). reflexivity.
  - rewrite (ptoken_ttl _ _ _ HT Ht). reflexivity.
  - rewrite (ptoken_class _ _ _ HM Hk). reflexivity.
  - reflexivity.
Qed.

Lemma ptoken_type ps rs owner k this d s : Mnem (type_text d) s ->
  ptoken (ctx_mid ps rs owner k this None) PTtlClassType (TChar s) =
  ROk (ctx_mid ps rs owner k this (Some (sty d)), PRecord []).
Proof. intros M. destruct (type_text_facts d s M) as (T1 & T2 & T3). cbn [ptoken]. now rewrite T1, T2, T3. Qed.

(* the printer's state after the line of [r] (the one in [lt_rec]) *)
Definition ps_after (ps : pstate_) (r : srec) (explicit : bool) : pstate_ :=
  MkPs (p_origin ps) (Some (s_owner r)) (p_dttl ps) (if explicit then Some (s_ttl r) else p_last ps) (s_class r).

Lemma ttl_take_ok ps rs r (explicit : bool) ty : explicit = true \/ ttl_omissible ps (s_ttl r) ->
  ttl_take (ctx_mid ps rs (s_owner r) (s_class r) (if explicit then Some (s_ttl r) else None) ty) =
  Some (s_ttl r, ctx_of (ps_after ps r explicit) rs ty).
Proof.
  intros H. unfold ttl_take. destruct explicit; [reflexivity|]. destruct H as [H|H]; [discriminate|].
  unfold ttl_omissible in H. cbn. destruct (p_dttl ps); [now subst|]. now rewrite H.
Qed.

(* the insert at the end of a record line: the record that [ctx_insert] builds is [denote r] *)
Lemma ctx_insert_ok ps rs r (explicit : bool) ws :
  DataWords (p_origin ps) (s_data r) ws -> sdata_ok (s_data r) = true ->
  explicit = true \/ ttl_omissible ps (s_ttl r) ->
  forallb (fun x => negb (collides (denote r) x)) rs = true ->
  ctx_insert (ctx_mid ps rs (s_owner r) (s_class r) (if explicit then Some (s_ttl r) else None) (Some (sty (s_data r)))) ws =
  ROk (ctx_of (ps_after ps r explicit) (rs ++ [denote r]) (Some (sty (s_data r)))).
Proof.
  intros HD Hdat Hex Hfresh. unfold ctx_insert. rewrite (ttl_take_ok ps rs r explicit _ Hex).
  cbn [ctx_mid c_rtype c_origin c_cur opt_r bind]. rewrite (data_words_parse _ _ _ HD Hdat).
  cbn [bind ctx_of ps_after c_recs c_class labels abs_name p_class].
  change (MkRR (MkName (s_owner r) true) (s_class r) (s_ttl r) (denote_data (s_data r))) with (denote r).
  rewrite (store_insert_fresh _ _ Hfresh). reflexivity.
Qed.

Theorem line_tokens_ok ps ts o ps' rs ty : LineToks ps ts o ps' ->
  match o with
  | Some r => srec_ok r = true /\ forallb (fun x => negb (collides (denote r) x)) rs = true
  | None => True
  end ->
  exists ty', ptokens (ctx_of ps rs ty) PStart ts =
              ROk (ctx_of ps' (match o with Some r => rs ++ [denote r] | None => rs end) ty', PStart).
Proof.
  intros L Hr.
  destruct L as [ps|ps|ps n nt Hn HNT|ps t tt Ht HTT|ps r own tc explicit ty0 rd ws HO HT HM HD HF].
  1-2: (* a blank line *) exists None; reflexivity.
  - (* $ORIGIN *)
    exists None. cbn [ptokens ptoken bind ctx_of set_rtype c_origin]. rewrite (name_text_parse _ _ _ HNT Hn). reflexivity.
  - (* $TTL *)
    exists None. cbn [ptokens ptoken bind]. rewrite (parse_ttl_text _ _ HTT Ht). reflexivity.
  - (* a record *)
    destruct Hr as [Hok Hfresh]. unfold srec_ok in Hok. rewrite !andb_true_iff, N.leb_le in Hok.
    destruct Hok as [[[Hown Hcls] Httl] Hdat]. exists (Some (sty (s_data r))).
    rewrite (ptokens_owner ps _ own rs ty HO Hown), (ptokens_tc ps rs _ _ _ tc explicit HT Httl Hcls).
    cbn [app ptokens]. rewrite (ptoken_type _ _ _ _ _ _ _ HM). cbn [bind].
    rewrite ptokens_app, (ptokens_rdata rd ws _ [] HF). cbn [app ptokens ptoken bind].
    rewrite (ctx_insert_ok ps rs r explicit ws HD Hdat); [reflexivity| |exact Hfresh]. destruct HT; auto.
Qed.

(* a line whose tokens the lexer with the cap delivers as well *)
Definition good_short (l : line) : bool := line_ok l && short_line l.

Lemma toks_line_short l rest : good_short l = true ->
  Toks next_token (render_line l ++ rest) SStartLine (line_tokens l) rest SStartLine.
Proof.
  intros H. apply andb_true_iff in H as [H1 H2]. apply N.leb_le in H2.
  apply toks_cap; [now apply toks_line|]. rewrite app_length. unfold short. lia.
Qed.

Theorem zone_tokens_ok ps tss rs : ZoneToks ps tss rs -> forall acc ty,
  forallb srec_ok rs = true -> distinct_from acc (map denote rs) = true ->
  exists ps' ty', ptokens (ctx_of ps acc ty) PStart (concat tss) = ROk (ctx_of ps' (acc ++ map denote rs) ty', PStart).
Proof.
  induction 1 as [ps|ps ts o ps1 tss rs HL _ IH]; intros acc ty Hok Hd.
  - exists ps, ty. cbn [map]. now rewrite app_nil_r.
  - cbn [concat]. rewrite ptokens_app. destruct o as [r|].
    + cbn [map forallb distinct_from] in Hok, Hd |- *.
      apply andb_true_iff in Hok as [Hr Hok]. apply andb_true_iff in Hd as [Hf Hd].
      destruct (line_tokens_ok ps ts (Some r) ps1 acc ty HL (conj Hr Hf)) as (ty1 & ->).
      cbn [bind]. rewrite (cons_snoc acc (denote r) (map denote rs)). exact (IH _ ty1 Hok Hd).
    + destruct (line_tokens_ok ps ts None ps1 acc ty HL I) as (ty1 & ->). exact (IH acc ty1 Hok Hd).
Qed.

(* the flush at the end of the input does what a missing last end-of-line token would *)
Lemma flush_eol c ts c' :
  ptokens c PStart ts = ROk (c', PStart) \/ ptokens c PStart (ts ++ [TEOL]) = ROk (c', PStart) ->
  exists cf, (do '(c1, st1) <- ptokens c PStart ts ;; flush c1 st1) = ROk cf /\
             c_recs cf = c_recs c' /\ c_origin cf = c_origin c'.
Proof.
  intros [-> |H]; [now exists c'|].
  rewrite ptokens_app in H. apply bind_ok in H as ([c1 st1] & -> & H). cbn [bind].
  destruct st1 as [ | | |parts|p| ]; cbn [ptokens ptoken flush] in *; unfold perr in H; try discriminate.
  - inversion H; subst. now exists c1.
  - inversion H; subst. now exists c'.
  - destruct (ctx_insert c1 parts) as [x| | | |]; cbn [bind] in H; try discriminate.
    inversion H; subst. now exists c'.
  - destruct p as [path|]; [destruct (has_prefix [47] path)|]; discriminate.
Qed.

Lemma distinct_from_app : forall a e b, distinct_from e (a ++ b) = true ->
  distinct_from e a = true /\ distinct_from (e ++ a) b = true.
Proof.
  induction a as [|r a IH]; intros e b H; cbn [app distinct_from] in *.
  - split; [reflexivity|]. now rewrite app_nil_r.
  - apply andb_true_iff in H as [H1 H2]. destruct (IH _ _ H2) as [I1 I2].
    split; [now rewrite H1, I1|]. now rewrite <- app_assoc in I2.
Qed.

(* The three layers meet: a text whose tokens [ts] (whatever lexer delivers them, up to the end of
   the input) are those of a zone in the grammar, the end-of-line token of the last line being
   there or not, loads to the records of the zone. *)
Theorem zone_text lex (L : lexer_ok lex) o txt ts rem st tss rs :
  Toks lex txt SStartLine ts rem st -> is_end (lex rem st) ->
  concat tss = ts \/ concat tss = ts ++ [TEOL] ->
  ZoneToks (ps0 o) tss rs -> forallb srec_ok rs = true -> distinct (map denote rs) = true ->
  parse_with lex (Some (abs_name o)) txt = ROk (map denote rs).
Proof.
  intros HT HE Hts Z Hok Hd.
  destruct (zone_tokens_ok _ _ _ Z [] None Hok Hd) as (ps' & ty' & Hp).
  destruct (flush_eol (ctx_of (ps0 o) [] None) ts (ctx_of ps' (map denote rs) ty')) as (cf & F & Hfr & Hfo);
    [destruct Hts as [<- | <-]; [left|right]; exact Hp|].
  destruct (parse_loop_prefix lex L _ _ _ _ (ctx0 (Some (abs_name o))) HT) as (f & E).
  unfold parse_with. rewrite E. cbn [parse_loop]. destruct (lex rem st); try contradiction.
  unfold flush in F. change (ctx0 (Some (abs_name o))) with (ctx_of (ps0 o) [] None).
  rewrite F. cbn [bind]. now rewrite Hfo, Hfr.
Qed.

(* the lexical level of a zone, for any lexer [lex] that delivers the tokens of the lines it is
   given ([good]): the uncapped lexer on every line, the capped one on short lines *)
Section Zone.
  Variable lex : str -> lst -> lres.
  Variable good : line -> bool.
  Hypothesis good_toks : forall l rest, good l = true ->
    Toks lex (render_line l ++ rest) SStartLine (line_tokens l) rest SStartLine.
  Hypothesis lex_ok : lexer_ok lex.

  Lemma toks_zone : forall lines rest, forallb good lines = true ->
    Toks lex (render_zone lines ++ rest) SStartLine (concat (map line_tokens lines)) rest SStartLine.
  Proof.
    induction lines as [|l lines IH]; intros rest Hg; [constructor|].
    cbn [forallb] in Hg. apply andb_true_iff in Hg as [Hg1 Hg2].
    cbn [render_zone flat_map map concat]. fold (render_zone lines). rewrite <- app_assoc.
    eapply toks_app; [now apply good_toks|now apply IH].
  Qed.

  Lemma zone_lines o lines rs :
    is_end (lex [] SStartLine) ->
    forallb good lines = true ->
    ZoneToks (ps0 o) (map line_tokens lines) rs ->
    forallb srec_ok rs = true ->
    distinct (map denote rs) = true ->
    parse_with lex (Some (abs_name o)) (render_zone lines) = ROk (map denote rs).
  Proof.
    intros HE Hg. pose proof (toks_zone lines [] Hg) as HT. rewrite app_nil_r in HT.
    exact (zone_text lex lex_ok o _ _ _ _ _ rs HT HE (or_introl eq_refl)).
  Qed.

  Lemma zone_last_line o lines last rs rem st :
    forallb good lines = true ->
    Toks lex (render_noeol last) SStartLine (line_tokens_noeol last) rem st ->
    is_end (lex rem st) ->
    ZoneToks (ps0 o) (map line_tokens lines ++ [line_tokens_noeol last ++ [TEOL]]) rs ->
    forallb srec_ok rs = true ->
    distinct (map denote rs) = true ->
    parse_with lex (Some (abs_name o)) (render_zone lines ++ render_noeol last) = ROk (map denote rs).
  Proof.
    intros Hg HT HE. apply (zone_text lex lex_ok o _ _ _ _ _ rs (toks_app _ _ _ _ _ _ _ _ _ (toks_zone lines _ Hg) HT) HE).
    right. rewrite concat_app. cbn [concat]. now rewrite app_nil_r, app_assoc.
  Qed.
End Zone.

Theorem zone_roundtrip_nocap o lines rs :
  forallb line_ok lines = true ->
  ZoneToks (ps0 o) (map line_tokens lines) rs ->
  forallb srec_ok rs = true ->
  distinct (map denote rs) = true ->
  parse_nocap (Some (abs_name o)) (render_zone lines) = ROk (map denote rs).
Proof. exact (zone_lines next_token_nocap line_ok toks_line next_token_nocap_ok o lines rs I). Qed.

Theorem zone_roundtrip o lines rs :
  forallb line_ok lines = true ->
  ZoneToks (ps0 o) (map line_tokens lines) rs ->
  forallb srec_ok rs = true ->
  distinct (map denote rs) = true ->
  (length (render_zone lines) <= 2045)%nat ->
  parse (Some (abs_name o)) (render_zone lines) = ROk (map denote rs).
Proof.
  intros Hl Z Hok Hd Hlen.
  rewrite parse_cap_refines by (now apply parse_short_no_panic).
  now apply zone_roundtrip_nocap.
Qed.

Theorem zone_roundtrip_last_nocap o lines last rs :
  forallb line_ok lines = true -> line_noeol_ok last = true ->
  ZoneToks (ps0 o) (map line_tokens lines ++ [line_tokens_noeol last ++ [TEOL]]) rs ->
  forallb srec_ok rs = true ->
  distinct (map denote rs) = true ->
  parse_nocap (Some (abs_name o)) (render_zone lines ++ render_noeol last) = ROk (map denote rs).
Proof.
  intros Hl Hlast Z Hok Hd. destruct (toks_last_line last Hlast) as (rem & st & HT & HE).
  exact (zone_last_line next_token_nocap line_ok toks_line next_token_nocap_ok o lines last rs rem st Hl HT HE Z Hok Hd).
Qed.

Theorem zone_roundtrip_last o lines last rs :
  forallb good_short lines = true -> line_noeol_ok last = true ->
  (length (render_noeol last) <= short)%nat ->
  ZoneToks (ps0 o) (map line_tokens lines ++ [line_tokens_noeol last ++ [TEOL]]) rs ->
  forallb srec_ok rs = true ->
  distinct (map denote rs) = true ->
  parse (Some (abs_name o)) (render_zone lines ++ render_noeol last) = ROk (map denote rs).
Proof.
  intros Hl Hlast Hlen Z Hok Hd. destruct (toks_last_line last Hlast) as (rem & st & HT & HE).
  pose proof (toks_len _ _ _ _ _ HT) as Hrem.
  assert (HT' : Toks next_token (render_noeol last) SStartLine (line_tokens_noeol last) rem st)
    by (apply toks_cap; [exact HT|lia]).
  assert (HE' : is_end (next_token rem st))
    by (rewrite next_token_refines_nocap; [exact HE|]; apply next_token_short; lia).
  exact (zone_last_line next_token good_short toks_line_short next_token_ok o lines last rs rem st Hl HT' HE' Z Hok Hd).
Qed.

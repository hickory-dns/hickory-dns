(* C20 — lexer: termination measure, cap vs no cap, consumption; the loader never answers RFuel,
   and RPanic only where the lexer does. *)
From HV Require Import Lib.Base C20.Model.
Open Scope N_scope.

Ltac break_in H :=
  repeat match type of H with
  | context [if ?b then _ else _] => destruct b eqn:?
  | context [match ?x with _ => _ end] => destruct x eqn:?
  end.

Ltac break_goal :=
  repeat match goal with
  | |- context [if ?b then _ else _] => destruct b eqn:?
  | |- context [match ?x with _ => _ end] => destruct x eqn:?
  end.

Lemma bind_ok {A B} (r : R A) (f : A -> R B) b : bind r f = ROk b -> exists a, r = ROk a /\ f a = ROk b.
Proof. destruct r; cbn; intros H; try discriminate. eauto. Qed.

Lemma opt_r_ok {A} (o : option A) a : opt_r o = ROk a -> o = Some a.
Proof. destruct o; cbn; intros H; [inversion H; reflexivity|discriminate]. Qed.

Lemma bind_not_fuel {A B} (r : R A) (f : A -> R B) :
  r <> RFuel -> (forall a, r = ROk a -> f a <> RFuel) -> bind r f <> RFuel.
Proof. destruct r; cbn; intros; auto; congruence. Qed.

Lemma bind_not_panic {A B} (r : R A) (f : A -> R B) :
  r <> RPanic -> (forall a, r = ROk a -> f a <> RPanic) -> bind r f <> RPanic.
Proof. destruct r; cbn; intros; auto; congruence. Qed.

(* what ends a word inside parentheses *)
Definition sepch (c : N) : bool := is_ws c || (c =? 41) || (c =? 59).

(* the measure that every continuing iteration lowers: 2*|txt| + rank(state, next char) *)
Definition rank (st : lst) (txt : str) : nat :=
  match st with
  | SStartLine => 3
  | SRestOfLine => 2
  | SComment _ => 1
  | SList => match txt with c :: _ => if sepch c then 0 else 1 | [] => 0 end
  | SCharData _ => match txt with c :: _ => if sepch c then 1 else 0 | [] => 0 end
  | _ => 0
  end%nat.

Definition mu (txt : str) (st : lst) : nat := (2 * length txt + rank st txt)%nat.

Lemma mu_le txt st : (mu txt st <= 2 * length txt + 3)%nat.
Proof.
  assert (rank st txt <= 3)%nat by (destruct st; cbn [rank]; break_goal; apply Nat.leb_le; reflexivity).
  unfold mu. lia.
Qed.

Lemma is_nl_ws c : is_nl c = true -> is_ws c = true.
Proof.
  unfold is_nl, is_ws. intros H. apply orb_true_iff in H.
  destruct H as [H|H]; apply N.eqb_eq in H; subst; reflexivity.
Qed.

Lemma is_nl_sepch c : is_nl c = true -> sepch c = true.
Proof. intros H. unfold sepch. rewrite (is_nl_ws _ H). reflexivity. Qed.

Lemma escape_seq_len txt x r : escape_seq txt = inr (x, r) -> (length r + 2 <= length txt)%nat.
Proof.
  unfold escape_seq. destruct txt as [|b t]; cbn [tl]; [discriminate|].
  intros H. break_in H; try discriminate; injection H as _ <-; cbn [length]; lia.
Qed.

(* the two ways the measure goes down: the text is left alone and the rank falls; a character is
   consumed and the rank rises by one at most *)
Lemma mu_rank txt s st : (S (rank s txt) <= rank st txt)%nat -> (mu txt s < mu txt st)%nat.
Proof. unfold mu. lia. Qed.

Lemma mu_tail a r s st : (rank s r <= S (rank st (a :: r)))%nat -> (mu r s < mu (a :: r) st)%nat.
Proof. unfold mu. cbn [length]. lia. Qed.

Lemma mu_word_start a r : is_ws a = false -> (a =? 41) = false -> (a =? 59) = false ->
  (mu (a :: r) (SCharData true) < mu (a :: r) SList)%nat.
Proof. intros H1 H2 H3. apply mu_rank. cbn [rank]. unfold sepch. rewrite H1, H2, H3. apply le_n. Qed.

Lemma mu_word_end a r l : sepch a = true -> (mu (a :: r) SList < mu (a :: r) (SCharData l))%nat.
Proof. intros H. apply mu_rank. cbn [rank]. rewrite H. apply le_n. Qed.

Lemma mu_comment_end a r : is_nl a = true -> (mu (a :: r) SList < mu (a :: r) (SComment true))%nat.
Proof. intros H. apply mu_rank. cbn [rank]. rewrite (is_nl_sepch a H). apply le_n. Qed.

Lemma mu_escape txt x r : escape_seq txt = inr (x, r) -> (mu r SQuote < mu txt SQuote)%nat.
Proof. intros H. apply escape_seq_len in H. unfold mu. cbn [rank]. lia. Qed.

Lemma step_mu txt st cd cdv res : step txt st cd cdv = res ->
  match res with Cont t s _ _ => (mu t s < mu txt st)%nat | _ => True end.
Proof.
  intros H. destruct st; cbn [step] in H; destruct txt as [|a r]; cbn [tl] in H;
    break_in H; subst res; auto;
    (* four iterations where the character read decides or more than one is consumed; everywhere
       else the ranks tell which of the two ways it is *)
    first [ now apply mu_word_start | now apply mu_word_end | now apply mu_comment_end
          | eapply mu_escape; eassumption
          | apply mu_rank | apply mu_tail ];
    cbn [rank]; break_goal; apply Nat.leb_le; reflexivity.
Qed.

Lemma lex_loop_fuel_enough : forall f txt st cd cdv,
  (mu txt st < f)%nat -> lex_loop f txt st cd cdv <> LPanic.
Proof.
  induction f as [|f IH]; intros txt st cd cdv Hf; [lia|].
  cbn [lex_loop]. destruct (step txt st cd cdv) eqn:E; try discriminate.
  apply IH. apply step_mu in E. lia.
Qed.

Lemma lex_loop_fuel_indep : forall f1 f2 txt st cd cdv,
  lex_loop f1 txt st cd cdv <> LPanic -> lex_loop f2 txt st cd cdv <> LPanic ->
  lex_loop f1 txt st cd cdv = lex_loop f2 txt st cd cdv.
Proof.
  induction f1 as [|f1 IH]; intros f2 txt st cd cdv H1 H2; [cbn in H1; congruence|].
  destruct f2 as [|f2]; [cbn in H2; congruence|].
  cbn [lex_loop] in *. destruct (step txt st cd cdv); try reflexivity. now apply IH.
Qed.

Lemma next_token_nocap_total txt st : next_token_nocap txt st <> LPanic.
Proof.
  unfold next_token_nocap. apply lex_loop_fuel_enough. pose proof (mu_le txt st). lia.
Qed.

Lemma cap_refines c txt st :
  next_token_cap c txt st <> LPanic -> next_token_cap c txt st = next_token_nocap txt st.
Proof.
  intros H. unfold next_token_cap, next_token_nocap in *. apply lex_loop_fuel_indep; [exact H|].
  apply next_token_nocap_total.
Qed.

(* A text is short when no call of the lexer on it can need [cap] iterations: a call takes at
   most 2*|text| + 4 (the measure, plus the returning iteration). *)
Definition short : nat := N.to_nat 2045.

Lemma short_cap : (2 * short + 5 <= cap)%nat.
Proof. unfold short, cap. lia. Qed.

Lemma cap_short txt st : (length txt <= short)%nat -> next_token_cap cap txt st <> LPanic.
Proof.
  intros H. unfold next_token_cap. apply lex_loop_fuel_enough.
  pose proof (mu_le txt st). pose proof short_cap. lia.
Qed.

(* whichever way [lex_cap] is set *)
Lemma next_token_cases : next_token = next_token_nocap \/ next_token = next_token_cap cap.
Proof. unfold next_token, lex_cap. first [left; reflexivity | right; reflexivity]. Qed.

Lemma next_token_refines_nocap txt st :
  next_token txt st <> LPanic -> next_token txt st = next_token_nocap txt st.
Proof. destruct next_token_cases as [-> | ->]; [reflexivity|apply cap_refines]. Qed.

Lemma next_token_short txt st : (length txt <= short)%nat -> next_token txt st <> LPanic.
Proof. destruct next_token_cases as [-> | ->]; [intros _; apply next_token_nocap_total|apply cap_short]. Qed.

Definition entry (st : lst) : Prop := st = SStartLine \/ st = SRestOfLine \/ st = SEOF.

(* configurations from which a token, when one is returned, will have consumed a character: the
   states a call starts in, and those they lead to before anything is consumed *)
Definition fresh (txt : str) (st : lst) : bool :=
  match st with
  | SStartLine | SRestOfLine | SEOL | SEOF | SComment false => true
  | SBlank | SAt => match txt with [] => false | _ => true end
  | SCharData false => match txt with c :: _ => negb (sepch c) | [] => false end
  | _ => false
  end.

Lemma step_len txt st cd cdv res : step txt st cd cdv = res ->
  match res with
  | Cont t s _ _ => (length t <= length txt)%nat /\
                    (fresh txt st = true -> (length t < length txt)%nat \/ fresh t s = true)
  | RetTok _ r s => (length r <= length txt)%nat /\ entry s /\ (fresh txt st = true -> (length r < length txt)%nat)
  | _ => True
  end.
Proof.
  unfold entry. intros H. destruct st as [ | | | |[|]|[|]| | | | | ]; cbn [step] in H;
    destruct txt as [|a q]; cbn [tl fresh] in *; unfold sepch in *;
    break_in H; subst res; cbn [length fresh]; auto; repeat split; auto; try discriminate.
  - (* a word starts: on a character that does not end it *)
    intros _. right. unfold sepch.
    match goal with E1 : is_ws a = false, E2 : (a =? 41) = false, E3 : (a =? 59) = false |- _ => now rewrite E1, E2, E3 end.
  - match goal with E : escape_seq _ = inr _ |- _ => apply escape_seq_len in E; cbn [length] in E end. lia.
Qed.

Lemma lex_loop_tok : forall f txt st cd cdv t r s, lex_loop f txt st cd cdv = LTok t r s ->
  (length r <= length txt)%nat /\ entry s /\ (fresh txt st = true -> (length r < length txt)%nat).
Proof.
  induction f as [|f IH]; intros txt st cd cdv t r s H; [discriminate|].
  cbn [lex_loop] in H. pose proof (step_len txt st cd cdv _ eq_refl) as S.
  destruct (step txt st cd cdv); try discriminate.
  - apply IH in H as (L & E & C). destruct S as [L1 F1]. repeat split; [lia|exact E|].
    intros F. destruct (F1 F) as [?|F']; [|specialize (C F')]; lia.
  - inversion H; subst. exact S.
Qed.

(* what the loader needs of a lexer; [lx_consumes] is why [S (length txt)] is fuel enough for
   [parse_with] *)
Record lexer_ok (lex : str -> lst -> lres) : Prop := {
  lx_consumes : forall txt st t r s, entry st -> lex txt st = LTok t r s -> (length r < length txt)%nat;
  lx_entry : forall txt st t r s, lex txt st = LTok t r s -> entry s
}.

Lemma lex_loop_ok (fuel : str -> nat) : lexer_ok (fun txt st => lex_loop (fuel txt) txt st None None).
Proof.
  split; intros txt st t r s.
  - intros E H. apply lex_loop_tok in H as (_ & _ & C). apply C. destruct E as [->|[->| ->]]; reflexivity.
  - intros H. now apply lex_loop_tok in H.
Qed.

Lemma next_token_nocap_ok : lexer_ok next_token_nocap.
Proof. exact (lex_loop_ok (fun txt => 4 * length txt + 4)%nat). Qed.

Lemma next_token_ok : lexer_ok next_token.
Proof. destruct next_token_cases as [-> | ->]; [apply next_token_nocap_ok|exact (lex_loop_ok (fun _ => cap))]. Qed.

Lemma next_token_len txt st t r s : next_token txt st = LTok t r s -> (length r <= length txt)%nat.
Proof.
  intros H. rewrite next_token_refines_nocap in H by (rewrite H; discriminate). now apply lex_loop_tok in H.
Qed.

Lemma lex_loop_iters : forall f txt st cd cdv t r s,
  lex_loop f txt st cd cdv = LTok t r s ->
  forall f', (mu txt st - 2 * length r + 1 <= f')%nat -> lex_loop f' txt st cd cdv = LTok t r s.
Proof.
  induction f as [|f IH]; intros txt st cd cdv t r s H f' Hf; [discriminate|].
  cbn [lex_loop] in H. destruct f' as [|f']; [lia|]. cbn [lex_loop].
  destruct (step txt st cd cdv) eqn:E; try discriminate.
  - eapply IH; [exact H|]. apply step_mu in E. apply lex_loop_tok in H as (L & _). unfold mu in *. lia.
  - exact H.
Qed.

Lemma cap_of_nocap txt st t r s :
  next_token_nocap txt st = LTok t r s -> (length txt - length r <= short)%nat ->
  next_token_cap cap txt st = LTok t r s.
Proof.
  unfold next_token_nocap, next_token_cap. intros H Hc.
  eapply lex_loop_iters; [exact H|].
  pose proof (mu_le txt st). pose proof short_cap. apply lex_loop_tok in H as (L & _). lia.
Qed.

Lemma next_token_of_nocap txt st t r s :
  next_token_nocap txt st = LTok t r s -> (length txt - length r <= short)%nat ->
  next_token txt st = LTok t r s.
Proof. destruct next_token_cases as [-> | ->]; [intros H _; exact H|apply cap_of_nocap]. Qed.

Definition calm {A} (r : R A) : Prop := r <> RFuel /\ r <> RPanic.

Lemma calm_bind {A B} (r : R A) (f : A -> R B) :
  calm r -> (forall a, calm (f a)) -> calm (bind r f).
Proof. intros [H1 H2] Hf. destruct r; cbn; try (split; congruence). apply Hf. Qed.

Lemma calm_ok {A} (a : A) : calm (ROk a). Proof. split; discriminate. Qed.
Lemma calm_err {A} k : calm (@RErr A k). Proof. split; discriminate. Qed.
Lemma calm_unmod {A} : calm (@RUnmod A). Proof. split; discriminate. Qed.
Lemma calm_opt_r {A} (o : option A) : calm (opt_r o).
Proof. destruct o; [apply calm_ok|apply calm_err]. Qed.
#[global] Hint Resolve calm_ok calm_err calm_unmod calm_opt_r : calm.

(* Each of these functions is made of binds, conditionals and matches over functions already
   known to be calm (the hints), an induction hypothesis, or plain results. *)
Ltac calm_tac :=
  unfold perr;
  repeat first
    [ solve [auto with calm]
    | apply calm_bind; [|intros]
    | match goal with
      | |- calm (if ?b then _ else _) => destruct b
      | |- calm (match ?x with _ => _ end) => destruct x
      end ].

Lemma calm_label_from_ascii s : calm (label_from_ascii s).
Proof. unfold label_from_ascii. calm_tac. Qed.
#[global] Hint Resolve calm_label_from_ascii : calm.

Lemma calm_to_label s : calm (to_label s).
Proof. unfold to_label. calm_tac. Qed.

Lemma calm_extend_name ls l : calm (extend_name ls l).
Proof. unfold extend_name. calm_tac. Qed.
#[global] Hint Resolve calm_to_label calm_extend_name : calm.

Lemma calm_append_label ls l : calm (append_label ls l).
Proof. unfold append_label. calm_tac. Qed.

Lemma calm_append_labels : forall more ls, calm (append_labels ls more).
Proof. induction more as [|l m IH]; intros ls; cbn [append_labels]; calm_tac. Qed.
#[global] Hint Resolve calm_append_label calm_append_labels : calm.

Lemma calm_name_loop : forall s st ls lab, calm (name_loop s st ls lab).
Proof. induction s as [|c r IH]; intros st ls lab; cbn [name_loop]; calm_tac. Qed.
#[global] Hint Resolve calm_name_loop : calm.

Lemma calm_name_parse s o : calm (name_parse s o).
Proof. unfold name_parse. calm_tac. Qed.
#[global] Hint Resolve calm_name_parse : calm.

Lemma calm_rdata_of t toks o : calm (rdata_of t toks o).
Proof. unfold rdata_of, tok_i32, tok_ttl, tok_name. calm_tac. Qed.

Lemma calm_store_insert rs r : calm (store_insert rs r).
Proof. unfold store_insert. calm_tac. Qed.
#[global] Hint Resolve calm_rdata_of calm_store_insert : calm.

Lemma calm_ctx_insert c parts : calm (ctx_insert c parts).
Proof. unfold ctx_insert. calm_tac. Qed.
#[global] Hint Resolve calm_ctx_insert : calm.

Lemma calm_ptoken c st t : calm (ptoken c st t).
Proof. unfold ptoken. calm_tac. Qed.

(* what [parse_loop] does at the end of the input: the [LEnd] branch of its match word for word,
   so that the two convert *)
Definition flush (c : ctx) (st : pstate) : R ctx :=
  match st with PRecord parts => ctx_insert c parts | _ => ROk c end.

Lemma calm_flush c st : calm (flush c st).
Proof. destruct st; try apply calm_ok. apply calm_ctx_insert. Qed.

Lemma parse_loop_no_fuel lex (L : lexer_ok lex) : forall f txt ls c st,
  entry ls -> (length txt < f)%nat -> parse_loop lex f txt ls c st <> RFuel.
Proof.
  induction f as [|f IH]; intros txt ls c st He Hf; [lia|].
  cbn [parse_loop]. destruct (lex txt ls) eqn:E; try discriminate.
  - apply bind_not_fuel; [exact (proj1 (calm_ptoken c st t))|]. intros [c' st'] _. apply IH.
    + eapply lx_entry; eauto.
    + pose proof (lx_consumes _ L _ _ _ _ _ He E). lia.
  - exact (proj1 (calm_flush c st)).
Qed.

Lemma parse_with_no_fuel lex (L : lexer_ok lex) o txt : parse_with lex o txt <> RFuel.
Proof.
  unfold parse_with. apply bind_not_fuel.
  - apply (parse_loop_no_fuel lex L); [left; reflexivity|lia].
  - intros c _. destruct (c_origin c); discriminate.
Qed.

(* RPanic can only come from the lexer.  [P]: a set of texts on which the lexer does not panic,
   closed under taking what remains after a token. *)
Section NoPanic.
  Variables (lex : str -> lst -> lres) (P : str -> Prop).
  Hypothesis lex_calm : forall txt st, P txt -> lex txt st <> LPanic.
  Hypothesis lex_stays : forall txt st t r s, P txt -> lex txt st = LTok t r s -> P r.

  Lemma parse_loop_no_panic : forall f txt ls c st, P txt -> parse_loop lex f txt ls c st <> RPanic.
  Proof.
    induction f as [|f IH]; intros txt ls c st HP; [discriminate|].
    cbn [parse_loop]. pose proof (lex_calm txt ls HP). destruct (lex txt ls) eqn:E; try discriminate; try congruence.
    - apply bind_not_panic; [exact (proj2 (calm_ptoken c st t))|]. intros [c' st'] _. apply IH. eapply lex_stays; eauto.
    - exact (proj2 (calm_flush c st)).
  Qed.

  Lemma parse_with_no_panic o txt : P txt -> parse_with lex o txt <> RPanic.
  Proof.
    intros HP. unfold parse_with. apply bind_not_panic; [now apply parse_loop_no_panic|].
    intros c _. destruct (c_origin c); discriminate.
  Qed.
End NoPanic.

Lemma parse_with_panic_free lex o txt : (forall txt st, lex txt st <> LPanic) -> parse_with lex o txt <> RPanic.
Proof. intros NP. apply (parse_with_no_panic lex (fun _ => True)); auto. Qed.

Lemma parse_short_no_panic o txt : (length txt <= short)%nat -> parse o txt <> RPanic.
Proof.
  apply (parse_with_no_panic next_token (fun t => (length t <= short)%nat)).
  - intros t st. apply next_token_short.
  - intros t st tk r s Ht E. apply next_token_len in E. lia.
Qed.

(* a lexer that differs from another only by panicking gives a loader that differs only so *)
Section Refines.
  Variables lex1 lex2 : str -> lst -> lres.
  Hypothesis A : forall txt st, lex1 txt st <> LPanic -> lex1 txt st = lex2 txt st.

  Lemma parse_loop_refines : forall f txt ls c st, parse_loop lex1 f txt ls c st <> RPanic ->
    parse_loop lex1 f txt ls c st = parse_loop lex2 f txt ls c st.
  Proof.
    induction f as [|f IH]; intros txt ls c st NP; [reflexivity|].
    cbn [parse_loop] in *.
    destruct (lex1 txt ls) eqn:E; [| | |congruence]; rewrite <- A, E by (rewrite E; discriminate); try reflexivity.
    destruct (ptoken c st t) as [[c' st']| | | |]; cbn [bind] in *; try reflexivity. now apply IH.
  Qed.

  Lemma parse_with_refines o txt :
    parse_with lex1 o txt <> RPanic -> parse_with lex1 o txt = parse_with lex2 o txt.
  Proof.
    unfold parse_with. intros NP. rewrite parse_loop_refines; [reflexivity|].
    intros E. rewrite E in NP. cbn in NP. congruence.
  Qed.
End Refines.

Lemma parse_capped_refines c o txt :
  parse_capped c o txt <> RPanic -> parse_capped c o txt = parse_nocap o txt.
Proof. exact (parse_with_refines _ _ (cap_refines c) o txt). Qed.

Lemma parse_cap_refines o txt : parse o txt <> RPanic -> parse o txt = parse_nocap o txt.
Proof. exact (parse_with_refines _ _ next_token_refines_nocap o txt). Qed.

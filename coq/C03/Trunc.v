(* C03 — what emit_iter / emit_message_parts do under a size limit, on top of the frame invariant *)
From HV Require Import Lib.Base Lib.ListX C03.Model C03.Inv.
Open Scope N_scope.

Section IterFacts.
  Context {A : Type} (emit1 : A -> enc -> res enc).
  Hypothesis emit1_inv : forall b x, wfb b -> rinv (fun s => s) b (emit1 x b).

  (* straight-line emission: no rollback, first error wins *)
  Fixpoint emit_all (xs : list A) (st : enc) : res enc :=
    match xs with
    | [] => Ok st
    | x :: xs' => do s1 <- emit1 x st; emit_all xs' s1
    end.

  Inductive section_run (xs : list A) (st : enc) : nat -> bool -> enc -> Prop :=
  | run_all st' :
      emit_all xs st = Ok st' -> section_run xs st (length xs) false st'
  | run_cut k x sm sf :
      (k < length xs)%nat -> nth_error xs k = Some x ->
      emit_all (firstn k xs) st = Ok sm ->
      emit1 x sm = Err EMax sf ->
      (* the dropped record leaves no trace but the compressed-name counter *)
      section_run xs st k true (set_cnt sm (cnt sf)).

  Lemma emit_all_inv b : forall xs st st', inv b st -> emit_all xs st = Ok st' -> inv b st'.
  Proof.
    induction xs as [|x xs IH]; intros st st' I E; cbn [emit_all] in E.
    - inversion E; subst. exact I.
    - apply bind_ok in E as (s1 & E1 & E). apply (IH s1); [|exact E]. apply (inv_trans I).
      exact (rinv_ok_off _ _ _ _ (emit1_inv st x (inv_wfb I)) E1).
  Qed.

  Lemma emit_iter_sound : forall xs c st c' t st',
    wfb st -> emit_iter emit1 xs c st = Ok (c', t, st') ->
    exists k, c' = (c + k)%nat /\ section_run xs st k t st'.
  Proof.
    induction xs as [|x xs IH]; intros c st c' t st' Hw E; cbn [emit_iter] in E.
    - inversion E; subst. exists O. split; [lia|]. apply (run_all [] st' st'). reflexivity.
    - pose proof (emit1_inv st x Hw) as H1.
      destruct (emit1 x st) as [s1|e sf] eqn:E1; cbn [rinv] in H1.
      + destruct (IH (S c) s1 c' t st' (inv_wfb H1) E) as (k & Hc & Hr).
        exists (S k). split; [lia|].
        inversion Hr as [st2 Ea|k2 x2 sm sf2 Hk Hn Ea Ef]; subst.
        * apply (run_all (x :: xs) st st'). cbn [emit_all]. rewrite E1. exact Ea.
        * apply (run_cut (x :: xs) st (S k) x2 sm sf2); [cbn [length]; lia|exact Hn| |exact Ef].
          cbn [firstn emit_all]. rewrite E1. exact Ea.
      + destruct e; try discriminate. inversion E; subst.
        exists O. split; [lia|].
        rewrite (rollback_restores st sf Hw H1).
        apply (run_cut (x :: xs) st O x st sf); [cbn [length]; lia|reflexivity|reflexivity|exact E1].
  Qed.

  Lemma section_run_emit_all {xs st k t st'} : section_run xs st k t st' ->
    exists sm c, emit_all (firstn k xs) st = Ok sm /\ st' = set_cnt sm c.
  Proof.
    intros Hr. inversion Hr as [st2 Ea|k2 x2 sm sf2 _ _ Ea _]; subst; [|eauto].
    exists st', (cnt st'). rewrite firstn_all. split; [exact Ea|]. now destruct st'.
  Qed.

  Lemma section_run_inv {b xs st k t st'} : inv b st -> section_run xs st k t st' -> inv b st'.
  Proof.
    intros I Hr. destruct (section_run_emit_all Hr) as (sm & c & Ea & ->).
    apply set_cnt_inv. eapply emit_all_inv; [exact I|exact Ea].
  Qed.

  Lemma section_run_kept {xs st k t st'} : section_run xs st k t st' ->
    (k <= length xs)%nat /\ (t = false <-> k = length xs).
  Proof.
    intros Hr. inversion Hr as [st2 Ea|k2 x2 sm sf2 Hk _ _ _]; subst.
    - split; [lia|]. now split.
    - split; [lia|]. split; [discriminate|lia].
  Qed.

  Lemma emit_iter_err : forall xs c st e sf,
    emit_iter emit1 xs c st = Err e sf -> e <> EMax.
  Proof.
    induction xs as [|x xs IH]; intros c st e sf E; cbn [emit_iter] in E; [discriminate|].
    destruct (emit1 x st) as [s1|e1 sf1]; [eapply IH; exact E|].
    destruct e1; try discriminate; inversion E; subst; discriminate.
  Qed.
End IterFacts.
Arguments emit_iter_sound {A} emit1 emit1_inv {xs c st c' t st'}.
Arguments section_run_emit_all {A emit1 xs st k t st'}.
Arguments section_run_kept {A emit1 xs st k t st'}.

Lemma count16_ok r c t st : count16 r = Ok (c, t, st) -> r = Ok (c, t, st).
Proof.
  unfold count16. destruct r as [[[c0 t0] s0]|]; cbn [bind]; [|discriminate].
  destruct (65535 <? N.of_nat c0); [discriminate|]. intros E; inversion E; reflexivity.
Qed.

Lemma wfb_new L : wfb (enc_new L).
Proof. unfold wfb, enc_new; cbn. repeat split; [lia|constructor]. Qed.

Lemma rec_section_sound xs st c t st' :
  wfb st -> count16 (emit_iter emit_rec xs 0 st) = Ok (c, t, st') ->
  section_run emit_rec xs st c t st' /\ wfb st'.
Proof.
  intros Hw E. apply count16_ok in E.
  destruct (emit_iter_sound emit_rec emit_rec_inv Hw E) as (k & -> & R).
  split; [exact R|]. exact (inv_wfb (section_run_inv _ emit_rec_inv (inv_refl _ Hw) R)).
Qed.

Definition msg_run (m : msg) (st0 st : enc) : Prop :=
  exists s0 s1 s2 s3 s4 s5 s6 ka t1 kn t2 kr t3 ke t4 ks t5,
    place 12 st0 = Ok (off st0, s0) /\
    section_run emit_query (mqueries m) s0 (length (mqueries m)) false s1 /\
    section_run emit_rec (manswers m) s1 ka t1 s2 /\
    section_run emit_rec (mauth m) s2 kn t2 s3 /\
    section_run emit_rec (madd m) s3 kr t3 s4 /\
    section_run emit_rec (opt_list (medns m)) s4 ke t4 s5 /\
    section_run emit_rec (opt_list (msig m)) s5 ks t5 s6 /\
    replace (off st0)
      (header_bytes m (mtc m || t1 || t2 || t3 || t4 || t5) (length (mqueries m)) ka kn (kr + ke + ks)) s6 = Ok st.

Lemma emit_message_sound m st0 st : wfb st0 -> emit_message m st0 = Ok st -> msg_run m st0 st.
Proof.
  intros Hw E. unfold emit_message in E.
  apply bind_ok in E as ([pl s0] & EP & E).
  pose proof (place_inv st0 st0 12 (inv_refl _ Hw)) as HP. rewrite EP in HP. destruct HP as (HP1 & -> & _).
  apply inv_wfb in HP1.
  apply bind_ok in E as ([[qd qt] s1] & E1 & E).
  destruct qt; [discriminate|]. destruct (65535 <? N.of_nat qd); [discriminate|].
  destruct (emit_iter_sound emit_query emit_query_inv HP1 E1) as (k1 & -> & R1). cbn [plus] in *.
  pose proof (inv_wfb (section_run_inv _ emit_query_inv (inv_refl _ HP1) R1)) as W1.
  destruct (section_run_kept R1) as [_ [Hq _]]. specialize (Hq eq_refl). subst k1.
  apply bind_ok in E as ([[an t1] s2] & E2 & E). apply rec_section_sound in E2 as [R2 W2]; [|exact W1].
  apply bind_ok in E as ([[ns t2] s3] & E3 & E). apply rec_section_sound in E3 as [R3 W3]; [|exact W2].
  apply bind_ok in E as ([[ar t3] s4] & E4 & E). apply rec_section_sound in E4 as [R4 W4]; [|exact W3].
  apply bind_ok in E as ([[ar2 t4] s5] & E5 & E). apply rec_section_sound in E5 as [R5 W5]; [|exact W4].
  apply bind_ok in E as ([[ar3 t5] s6] & E6 & E). apply rec_section_sound in E6 as [R6 _]; [|exact W5].
  exists s0, s1, s2, s3, s4, s5, s6, an, t1, ns, t2, ar, t3, ar2, t4, ar3, t5. auto 10.
Qed.

Lemma msg_run_wfb m st0 st : wfb st0 -> msg_run m st0 st -> wfb st /\ maxsz st = maxsz st0.
Proof.
  intros Hw (s0 & s1 & s2 & s3 & s4 & s5 & s6 & ka & t1 & kn & t2 & kr & t3 & ke & t4 & ks & t5 &
             EP & R1 & R2 & R3 & R4 & R5 & R6 & ER).
  pose proof (place_inv st0 st0 12 (inv_refl _ Hw)) as HP. rewrite EP in HP. destruct HP as (I0 & _ & Eoff).
  (* the frame of [s0] through the six sections *)
  pose proof (section_run_inv _ emit_query_inv (inv_refl _ (inv_wfb I0)) R1) as I1.
  pose proof (section_run_inv _ emit_rec_inv I1 R2) as I2.
  pose proof (section_run_inv _ emit_rec_inv I2 R3) as I3.
  pose proof (section_run_inv _ emit_rec_inv I3 R4) as I4.
  pose proof (section_run_inv _ emit_rec_inv I4 R5) as I5.
  pose proof (section_run_inv _ emit_rec_inv I5 R6) as I6.
  pose proof (inv_off_le I6) as Hoff. rewrite Eoff in Hoff.
  (* the bytes written are left open; [ER] below fixes them *)
  epose proof (replace_inv st0 s6 (off st0) _ (inv_trans I0 I6) (Nat.le_refl _)) as HR.
  rewrite ER in HR. specialize (HR Hoff). split; [eapply inv_wfb; exact HR|]. destruct HR as (_ & _ & Hmx & _). exact Hmx.
Qed.

Lemma emit_message_wfb m st0 st : wfb st0 -> emit_message m st0 = Ok st -> wfb st /\ maxsz st = maxsz st0.
Proof. intros Hw E. apply (msg_run_wfb m); [exact Hw|apply emit_message_sound; assumption]. Qed.

Lemma encode_ok L m b : encode L m = OBytes b -> exists st, emit_message m (enc_new L) = Ok st /\ buf st = b.
Proof. unfold encode. destruct (emit_message m (enc_new L)) as [st|]; [|discriminate]. intros [= <-]. eauto. Qed.

(* C03 — the frame invariant of the encoder: everything a record emission does happens at or
   above the offset it started from, inside the size limit, with the physical buffer ending at the
   logical offset.  Consequences: rollback restores the pre-record state exactly (up to the
   compressed-name counter), outputs never exceed the limit, nothing trails the message. *)
From HV Require Import Lib.Base Lib.ListX C03.Model.
Open Scope N_scope.

Lemma bind_ok {A B} (r : res A) (f : A -> res B) b :
  bind r f = Ok b -> exists a, r = Ok a /\ f a = Ok b.
Proof. destruct r as [a|]; [exists a; auto|discriminate]. Qed.

Lemma buf_write_end (bf : list byte) data :
  buf_write bf (length bf) data = bf ++ data.
Proof.
  unfold buf_write. rewrite firstn_all. rewrite skipn_all2 by lia. now rewrite app_nil_r.
Qed.

Lemma buf_write_length (bf : list byte) start data :
  (start + length data <= length bf)%nat -> length (buf_write bf start data) = length bf.
Proof. intros H. unfold buf_write. rewrite !app_length, firstn_length, skipn_length. lia. Qed.

Lemma firstn_filter_pass {A} (f : A -> bool) (l : list A) n :
  Forall (fun x => f x = true) (firstn n l) -> firstn n (filter f l) = firstn n l.
Proof.
  revert n; induction l as [|x l IH]; intros [|n] H; cbn [firstn filter] in *; try reflexivity.
  inversion H as [|? ? Hx H']; subst. rewrite Hx. cbn [firstn]. f_equal. apply IH. exact H'.
Qed.

Notation idp := (fun s : enc => s) (only parsing).

(* a base state [b]: the encoder at a record boundary *)
Definition wfb (b : enc) : Prop :=
  off b = length (buf b) /\ (off b <= maxsz b)%nat /\
  Forall (fun p => (fst p < off b)%nat) (ptrs b).

Definition inv (b s : enc) : Prop :=
  off s = length (buf s) /\ (off s <= maxsz s)%nat /\ maxsz s = maxsz b /\
  (off b <= off s)%nat /\
  firstn (off b) (buf s) = buf b /\
  firstn (length (ptrs b)) (ptrs s) = ptrs b /\
  Forall (fun p => (fst p < off s)%nat) (ptrs s).

Lemma inv_refl b : wfb b -> inv b b.
Proof.
  intros (Hend & Hfit & Hlt). unfold inv. repeat split; auto.
  - rewrite Hend. apply firstn_all.
  - apply firstn_all.
Qed.

Lemma inv_wfb {b s} : inv b s -> wfb s.
Proof. intros (Hend & Hfit & _ & _ & _ & _ & Hlt). repeat split; auto. Qed.

Lemma inv_trans {a b s} : inv a b -> inv b s -> inv a s.
Proof.
  intros (_ & _ & Amx & Age & Abuf & Aptrs & _) (Bend & Bfit & Bmx & Bge & Bbuf & Bptrs & Blt).
  unfold inv. repeat split; auto; try lia; try congruence.
  - rewrite <- Abuf, <- Bbuf. rewrite firstn_firstn. f_equal. lia.
  - rewrite <- Aptrs at 2. rewrite <- Bptrs. rewrite firstn_firstn. f_equal.
    assert (length (ptrs a) <= length (ptrs b))%nat; [|lia].
    rewrite <- Aptrs. rewrite firstn_length. lia.
Qed.

Lemma inv_off_le {b s} : inv b s -> (off b <= off s)%nat.
Proof. intros (_ & _ & _ & H & _). exact H. Qed.

Definition rinv {A} (proj : A -> enc) (b : enc) (r : res A) : Prop :=
  match r with Ok a => inv b (proj a) | Err _ s => inv b s end.

Lemma rinv_bind {A B} (pa : A -> enc) (pb : B -> enc) b (r : res A) (f : A -> res B) :
  rinv pa b r -> (forall a, inv b (pa a) -> rinv pb b (f a)) -> rinv pb b (bind r f).
Proof. destruct r as [a|e s]; cbn; auto. Qed.

Definition appended (s : enc) (d : list byte) : enc :=
  mkEnc (buf s ++ d) (off s + length d) (maxsz s) (ptrs s) (cnt s).

Lemma appended_app s a b : appended (appended s a) b = appended s (a ++ b).
Proof.
  unfold appended; cbn [buf off maxsz ptrs cnt]. now rewrite app_length, <- app_assoc, Nat.add_assoc.
Qed.

Lemma appended_ends s d : off s = length (buf s) -> off (appended s d) = length (buf (appended s d)).
Proof. intros Ho. cbn [appended buf off]. now rewrite app_length, Ho. Qed.

Lemma emit_slice_eq d s : off s = length (buf s) ->
  emit_slice d s = if (maxsz s <? off s + length d)%nat then Err EMax s else Ok (appended s d).
Proof.
  intros Ho. unfold emit_slice, appended, set_off, set_buf; cbn [buf off maxsz ptrs cnt].
  rewrite Ho at 2. rewrite buf_write_end. reflexivity.
Qed.

Lemma place_eq n s : off s = length (buf s) ->
  place n s = if (maxsz s <? off s + n)%nat then Err EMax s else Ok (off s, appended s (repeat 0 n)).
Proof.
  intros Ho. unfold place, appended, set_off, set_buf; cbn [buf off maxsz ptrs cnt].
  rewrite repeat_length, firstn_all2 by lia. replace (off s + n - length (buf s))%nat with n by lia. reflexivity.
Qed.

Lemma emit_slice_appends d s s' : emit_slice d s = Ok s' -> off s = length (buf s) ->
  s' = appended s d /\ (off s + length d <= maxsz s)%nat.
Proof.
  intros E Ho. rewrite emit_slice_eq in E by exact Ho.
  destruct (Nat.ltb_spec (maxsz s) (off s + length d)); [discriminate|]. injection E as <-. auto.
Qed.

Lemma inv_append b s d : inv b s -> (off s + length d <= maxsz s)%nat -> inv b (appended s d).
Proof.
  intros (Hend & _ & Hmx & Hge & Hbuf & Hptrs & Hlt) Hfit. unfold inv, appended; cbn [buf off maxsz ptrs].
  rewrite app_length. repeat split; auto; try lia.
  - rewrite firstn_app_le by lia. exact Hbuf.
  - eapply Forall_impl; [|exact Hlt]. cbn. intros; lia.
Qed.

Lemma emit_slice_inv b s data : inv b s -> rinv idp b (emit_slice data s).
Proof.
  intros Hi. rewrite emit_slice_eq by apply Hi.
  destruct (Nat.ltb_spec (maxsz s) (off s + length data)); [exact Hi|]. apply inv_append; assumption.
Qed.

Lemma place_inv b s n : inv b s ->
  match place n s with
  | Ok (pl, s') => inv b s' /\ pl = off s /\ off s' = (off s + n)%nat
  | Err _ sf => inv b sf
  end.
Proof.
  intros Hi. rewrite place_eq by apply Hi. destruct (Nat.ltb_spec (maxsz s) (off s + n)); [exact Hi|].
  split; [apply inv_append; [exact Hi|now rewrite repeat_length]|].
  cbn [appended off]. now rewrite repeat_length.
Qed.

Lemma replace_inv b s start data :
  inv b s -> (off b <= start)%nat -> (start + length data <= off s)%nat ->
  rinv idp b (replace start data s).
Proof.
  intros Hi Hs He. pose proof Hi as (Hend & Hfit & Hmx & Hge & Hbuf & Hptrs & Hlt). unfold replace.
  destruct (Nat.ltb_spec (maxsz s) (start + length data)) as [|Hroom]; cbn [rinv]; [exact Hi|].
  unfold inv; cbn [set_off set_buf buf off maxsz ptrs].
  rewrite buf_write_length by lia. repeat split; auto.
  unfold buf_write. rewrite firstn_app_le by (rewrite firstn_length; lia).
  rewrite firstn_firstn. replace (Nat.min (off b) start) with (off b) by lia. exact Hbuf.
Qed.

Lemma rewind_inv b s i : inv b s -> wfb b -> (off b <= i <= off s)%nat -> inv b (trim (set_off s i)).
Proof.
  intros (Hend & Hfit & Hmx & Hge & Hbuf & Hptrs & Hlt) (_ & _ & Wlt) Hi.
  unfold inv, trim; cbn [set_off set_buf set_ptrs buf off maxsz ptrs].
  rewrite firstn_length. repeat split; auto; try lia.
  - rewrite firstn_firstn. replace (Nat.min (off b) i) with (off b) by lia. exact Hbuf.
  - rewrite firstn_filter_pass; [exact Hptrs|]. rewrite Hptrs.
    eapply Forall_impl; [|exact Wlt]. cbn. intros p Hp. apply Nat.ltb_lt. lia.
  - apply Forall_forall. intros p Hp. apply filter_In in Hp. destruct Hp as [_ Hp].
    apply Nat.ltb_lt in Hp. exact Hp.
Qed.

Lemma store_ptr_inv {b s i} last : inv b s -> (i < off s)%nat -> inv b (store_ptr i last s).
Proof.
  intros Hi Hi_lt. pose proof Hi as (Hend & Hfit & Hmx & Hge & Hbuf & Hptrs & Hlt). unfold store_ptr.
  destruct ((N.of_nat (off s) <? 16383) && (length (ptrs s) <? 64)%nat)%bool; [|exact Hi].
  unfold inv; cbn [set_ptrs buf off maxsz ptrs]. repeat split; auto.
  - rewrite firstn_app_le; [exact Hptrs|]. rewrite <- Hptrs. rewrite firstn_length. lia.
  - apply Forall_app. split; [exact Hlt|]. constructor; [exact Hi_lt|constructor].
Qed.

Lemma store_ptr_off s i last : off (store_ptr i last s) = off s.
Proof. unfold store_ptr. destruct (_ && _)%bool; reflexivity. Qed.

Lemma store_all_inv b idxs last s :
  inv b s -> Forall (fun i => (i < off s)%nat) idxs -> inv b (store_all idxs last s).
Proof.
  unfold store_all. revert s; induction idxs as [|i idxs IH]; intros s Hi Hf; cbn [fold_left]; [exact Hi|].
  inversion Hf; subst. apply IH; [apply store_ptr_inv; assumption|].
  rewrite store_ptr_off. assumption.
Qed.
Lemma store_all_off idxs last s : off (store_all idxs last s) = off s.
Proof.
  unfold store_all. revert s; induction idxs as [|i idxs IH]; intros s; cbn [fold_left]; [reflexivity|].
  rewrite IH. apply store_ptr_off.
Qed.

Lemma emit_chardata_inv b s d : inv b s -> rinv idp b (emit_chardata d s).
Proof.
  intros Hi. unfold emit_chardata. destruct (255 <? length d)%nat; [exact Hi|].
  eapply rinv_bind; [apply emit_slice_inv; exact Hi|]. intros a Ha. apply emit_slice_inv. exact Ha.
Qed.

Lemma emit_slice_off s s' data : emit_slice data s = Ok s' -> off s' = (off s + length data)%nat.
Proof. unfold emit_slice. destruct (_ <? _)%nat; [discriminate|]. intros E; inversion E; reflexivity. Qed.

Lemma emit_chardata_off s s' d : emit_chardata d s = Ok s' -> (off s < off s')%nat.
Proof.
  unfold emit_chardata, emit_u8. destruct (255 <? length d)%nat; [discriminate|]. intros E.
  apply bind_ok in E as (s1 & E1 & E2). apply emit_slice_off in E1, E2. cbn [length] in E1. lia.
Qed.

Lemma emit_labels_inv b ls : forall s starts,
  inv b s -> Forall (fun i => (off b <= i < off s)%nat) starts ->
  match emit_labels ls s starts with
  | Ok (starts', s') => inv b s' /\ Forall (fun i => (off b <= i < off s')%nat) starts'
  | Err _ sf => inv b sf
  end.
Proof.
  induction ls as [|l ls IH]; intros s starts Hi Hs; cbn [emit_labels]; [auto|].
  destruct (63 <? length l)%nat; [exact Hi|].
  pose proof (emit_chardata_inv b s l Hi) as Hc.
  destruct (emit_chardata l s) as [s1|e sf] eqn:E1; cbn [bind rinv] in *; [|exact Hc].
  apply emit_chardata_off in E1. apply IH; [exact Hc|]. apply Forall_app. split.
  - eapply Forall_impl; [|exact Hs]. cbn. intros; lia.
  - constructor; [|constructor]. apply inv_off_le in Hi. lia.
Qed.

Lemma compress_loop_inv b : forall idxs s,
  inv b s -> wfb b -> Forall (fun i => (off b <= i < off s)%nat) idxs ->
  rinv snd b (compress_loop idxs (off s) s).
Proof.
  induction idxs as [|i idxs IH]; intros s Hi Hw Hf; cbn [compress_loop]; [exact Hi|].
  inversion Hf as [|? ? Hi1 Hf']; subst.
  (* store_ptr keeps the offset *)
  pose proof (IH (store_ptr i (off s) s)) as Hstore. rewrite store_ptr_off in Hstore.
  specialize (Hstore (store_ptr_inv _ Hi (proj2 Hi1)) Hw Hf').
  destruct (get_ptr i (off s) s) as [loc|]; [|exact Hstore].
  destruct (N.land (N.of_nat loc) 49152 =? 0); [|exact Hstore].
  eapply rinv_bind; [apply emit_slice_inv, rewind_inv; [exact Hi|exact Hw|lia]|]. intros s1 H1. exact H1.
Qed.

Lemma set_cnt_inv b s c : inv b s -> inv b (set_cnt s c).
Proof. intros H; exact H. Qed.

Lemma emit_name_inv b s mode name : inv b s -> wfb b -> rinv idp b (emit_name mode name s).
Proof.
  intros Hi Hw. unfold emit_name.
  set (nm := match mode with Lowercase => map (map lower) name | _ => name end).
  pose proof (emit_labels_inv b nm s [] Hi (Forall_nil _)) as HL.
  destruct (emit_labels nm s []) as [[starts s1]|e sf]; cbn [bind]; [|exact HL].
  destruct HL as [HL1 Hst].
  assert (Hfin : forall s2, inv b s2 ->
     rinv idp b (do st3 <- emit_u8 0 s2;
                 if (255 <? length (buf st3) - length (buf s))%nat then Err ENameTooLong st3 else Ok st3)).
  { intros s2 H2. eapply rinv_bind; [apply emit_slice_inv; exact H2|]. intros s3 H3.
    destruct (255 <? _)%nat; exact H3. }
  destruct (match mode with Compressed => (cnt s <? 120)%nat | _ => false end).
  - eapply rinv_bind.
    { exact (compress_loop_inv b starts _ (set_cnt_inv _ _ (S (cnt s1)) HL1) Hw Hst). }
    intros [done s2] Hc. destruct done; [exact Hc|apply Hfin; exact Hc].
  - apply Hfin. apply store_all_inv; [exact HL1|].
    eapply Forall_impl; [|exact Hst]. cbn. intros; lia.
Qed.

Lemma emit_parts_inv b ps : forall s, inv b s -> wfb b -> rinv idp b (emit_parts ps s).
Proof.
  induction ps as [|p ps IH]; intros s Hi Hw; cbn [emit_parts]; [exact Hi|].
  destruct p as [d|m n].
  - eapply rinv_bind; [apply emit_slice_inv; exact Hi|]. intros a Ha. apply IH; assumption.
  - eapply rinv_bind; [apply emit_name_inv; assumption|]. intros a Ha. apply IH; assumption.
Qed.

Lemma rinv_ok_off {A} (pa : A -> enc) b r a : rinv pa b r -> r = Ok a -> inv b (pa a).
Proof. intros H ->. exact H. Qed.

(* RDLENGTH reserved, the RDATA parts written, RDLENGTH patched in *)
Definition emit_rdata (ps : list part) (st : enc) : res enc :=
  do '(pl, s1) <- place 2 st; do s2 <- emit_parts ps s1; replace pl (be16 (N.of_nat (off s2 - pl - 2))) s2.

Lemma emit_rec_parts r st :
  emit_rec r st =
  do s <- emit_parts [PName Compressed (rname r); PBytes (be16 (rtype r)); PBytes (be16 (rclass r));
                      PBytes (be32 (rttl r))] st;
  emit_rdata (rparts r) s.
Proof.
  unfold emit_rec, emit_u16, emit_u32. cbn [emit_parts].
  destruct (emit_name _ _ st) as [s1|]; cbn [bind]; [|reflexivity].
  destruct (emit_slice _ s1) as [s2|]; cbn [bind]; [|reflexivity].
  destruct (emit_slice _ s2) as [s3|]; cbn [bind]; [|reflexivity].
  now destruct (emit_slice _ s3).
Qed.

Lemma emit_query_parts q st :
  emit_query q st = emit_parts [PName Compressed (qname q); PBytes (be16 (qtype q)); PBytes (be16 (qclass q))] st.
Proof.
  unfold emit_query, emit_u16. cbn [emit_parts].
  destruct (emit_name _ _ st) as [s1|]; cbn [bind]; [|reflexivity].
  destruct (emit_slice _ s1) as [s2|]; cbn [bind]; [|reflexivity].
  now destruct (emit_slice _ s2).
Qed.

Lemma emit_rdata_inv b ps s : inv b s -> wfb b -> rinv idp b (emit_rdata ps s).
Proof.
  intros Hi Hw. unfold emit_rdata. pose proof (place_inv b s 2 Hi) as HP.
  destruct (place 2 s) as [[pl s1]|e sf]; cbn [bind]; [|exact HP]. destruct HP as (HP1 & -> & Eoff).
  pose proof (emit_parts_inv b ps s1 HP1 Hw) as H2.
  destruct (emit_parts ps s1) as [s2|e sf] eqn:E2; cbn [bind rinv] in *; [|exact H2].
  apply replace_inv; [exact H2|exact (inv_off_le Hi)|].
  (* the parts only move the offset up: their frame relative to [s1] *)
  pose proof (inv_wfb HP1) as W1.
  pose proof (rinv_ok_off _ _ _ _ (emit_parts_inv s1 ps s1 (inv_refl _ W1) W1) E2) as H12.
  apply inv_off_le in H12. cbn [be16 length]. lia.
Qed.

Lemma emit_rec_inv b r : wfb b -> rinv idp b (emit_rec r b).
Proof.
  intros Hw. rewrite emit_rec_parts.
  eapply rinv_bind; [apply emit_parts_inv; [apply inv_refl|]; exact Hw|]. intros s Hs. apply emit_rdata_inv; assumption.
Qed.

Lemma emit_query_inv b q : wfb b -> rinv idp b (emit_query q b).
Proof. intros Hw. rewrite emit_query_parts. apply emit_parts_inv; [apply inv_refl|]; exact Hw. Qed.

Lemma rollback_restores b sf : wfb b -> inv b sf ->
  rollback (off b) (length (ptrs b)) sf = set_cnt b (cnt sf).
Proof.
  intros _ (_ & _ & Hmx & _ & Hbuf & Hptrs & _).
  unfold rollback, set_cnt, set_ptrs, set_off, set_buf; cbn [buf off maxsz ptrs cnt].
  rewrite Hbuf, Hptrs, Hmx. reflexivity.
Qed.

(* C03 — property theorems about the size-limited encoder model (Model.v).
   The proofs apply lemmas of Inv.v / Trunc.v; the read-back theorem rests on C02/MsgRt.v. *)
From HV Require Import Lib.Base C03.Model C03.Inv C03.Trunc C02.RecRt C02.MsgRt.
Open Scope N_scope.

(* Whatever the message and the limit, a successful encoding is never longer than the limit. *)
Theorem C03_len_le_limit : forall m L b, encode L m = OBytes b -> (length b <= L)%nat.
Proof.
  intros m L b E. apply encode_ok in E as (st & Em & <-).
  destruct (emit_message_wfb m _ _ (wfb_new L) Em) as [(W1 & W2 & _) Hm]. cbn in Hm. lia.
Qed.
Print Assumptions C03_len_le_limit.

(* Nothing trails the message: the byte string handed back ends exactly at the encoder's logical
   end of message (this is what failed before the rollback fix: stale bytes of a dropped record). *)
Theorem C03_no_trailing_bytes : forall m L st,
  emit_message m (enc_new L) = Ok st -> length (buf st) = off st.
Proof. intros m L st E. destruct (emit_message_wfb m _ _ (wfb_new L) E) as [(W1 & _) _]. now symmetry. Qed.
Print Assumptions C03_no_trailing_bytes.

(* A record that does not fit leaves no trace: the rollback gives back the state before it,
   except for the compressed-name counter (which can only switch compression off later). *)
Theorem C03_rollback_restores : forall b r sf,
  wfb b -> emit_rec r b = Err EMax sf ->
  rollback (off b) (length (ptrs b)) sf = set_cnt b (cnt sf).
Proof.
  intros b r sf Hw E. apply rollback_restores; [exact Hw|].
  pose proof (emit_rec_inv b r Hw) as H. rewrite E in H. exact H.
Qed.
Print Assumptions C03_rollback_restores.

(* One section under a limit: the kept records are a prefix, encoded exactly as a straight-line
   (limit-free logic) encoding of that prefix from the same state; the count returned is their
   number; truncated = "a record was dropped". *)
Theorem C03_section_keeps_prefix : forall recs st c c' t st',
  wfb st -> emit_iter emit_rec recs c st = Ok (c', t, st') ->
  exists k, c' = (c + k)%nat /\ (k <= length recs)%nat /\ (t = false <-> k = length recs) /\
            section_run emit_rec recs st k t st'.
Proof.
  intros recs st c c' t st' Hw E.
  destruct (emit_iter_sound emit_rec emit_rec_inv Hw E) as (k & Hc & R).
  destruct (section_run_kept R) as [Hk Ht]. exists k. auto.
Qed.
Print Assumptions C03_section_keeps_prefix.

(* The whole message: header counts = kept records, each section a prefix, TC = original TC or
   "something dropped", question section never truncated (else the encoding fails). *)
Theorem C03_message_truncation : forall m L st,
  emit_message m (enc_new L) = Ok st -> msg_run m (enc_new L) st.
Proof. intros m L st E. apply emit_message_sound; [apply wfb_new|exact E]. Qed.
Print Assumptions C03_message_truncation.

(* The property's central clause, on the model: for every message and every limit, a successful
   encoding reads back — header counts = records present, every question, a PREFIX of every section
   (each record field by field, names through the compression pointers), TC = original TC or
   "something was dropped", last record ending exactly at the end of the output.
   (Proved in C02/MsgRt.v on top of this directory's frame invariant and section_run.) *)
Theorem C03_truncated_output_reads_back : forall m L b,
  msg_wf m -> encode L m = OBytes b -> msg_readable b m /\ (length b <= L)%nat.
Proof.
  intros m L b Hw E. split; [|eapply C03_len_le_limit; exact E].
  apply encode_ok in E as (st & Em & <-). apply (msg_run_rt m L st Hw), C03_message_truncation, Em.
Qed.
Print Assumptions C03_truncated_output_reads_back.

(* Errors other than "does not fit" are reported, never turned into a truncation. *)
Theorem C03_other_errors_propagate : forall recs c st e sf,
  emit_iter emit_rec recs c st = Err e sf -> e <> EMax.
Proof. intros. eapply emit_iter_err; eassumption. Qed.
Print Assumptions C03_other_errors_propagate.

(* Server clause: MessageResponse::encode encodes under server_limit (or falls back to a bare
   12-byte SERVFAIL header), so a UDP reply never exceeds max(512, advertised payload) and any
   reply never exceeds 65535. *)
Theorem C03_server_reply_bounded : forall tcp adv m b,
  match adv with Some p => p < 65536 | None => True end -> (* the OPT class field is a u16 *)
  encode (N.to_nat (server_limit tcp adv)) m = OBytes b ->
  N.of_nat (length b) <= 65535 /\
  (tcp = false -> N.of_nat (length b) <= N.max 512 (match adv with Some p => p | None => 0 end)).
Proof.
  intros tcp adv m b Hadv E. apply C03_len_le_limit in E.
  unfold server_limit in E. destruct tcp; [split; [lia|discriminate]|].
  destruct adv as [p|]; (split; [lia|intros _; lia]).
Qed.
Print Assumptions C03_server_reply_bounded.

(* Non-vacuity: a message whose second answer does not fit under limit 40.  Byte 2 = flags 128
   or TC 2; byte 7 = ANCOUNT: one of two answers kept. *)
Definition ex_name : list (list byte) := [[119; 119; 119]; [101; 120]].
Definition ex_msg : msg :=
  mkMsg 7 128 false 0 [mkQ ex_name 1 1]
        [mkRec ex_name 1 1 300 [PBytes [1; 2; 3; 4]]; mkRec ex_name 16 1 300 [PBytes [5; 104; 101; 108; 108; 111]]]
        [] [] None None.
Example C03_example_truncates :
  exists b, encode 40 ex_msg = OBytes b /\ length b = 40%nat /\ nth 2 b 0 = 130 /\ nth 7 b 0 = 1.
Proof. eexists. split; [vm_compute; reflexivity|]. repeat split. Qed.

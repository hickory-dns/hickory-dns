(* C02 — every reachable encoder state: any sequence of names (in any encoding mode) and raw
   byte runs emitted from a fresh encoder can be read back from the final buffer, each item at
   the offset where it was written. *)
From HV Require Import Lib.Base Lib.ListX C03.Model C03.Inv C02.Spec C02.Model C02.NameRt C02.EmitName C02.RecRt.
Open Scope N_scope.

Inductive item := IName (m : nmode) (n : name) | IBytes (b : list byte).

Definition emit_item (it : item) (st : enc) : res enc :=
  match it with IName m n => emit_name m n st | IBytes b => emit_slice b st end.

Fixpoint emit_items (its : list item) (st : enc) (acc : list nat) : res (list nat * enc) :=
  match its with
  | [] => Ok (acc, st)
  | it :: its' => do st1 <- emit_item it st; emit_items its' st1 (acc ++ [off st])
  end.

Definition item_wf (it : item) : Prop :=
  match it with IName m n => wf_name (cased m n) | IBytes _ => True end.

Definition readable (buf : list byte) (it : item) (s : nat) : Prop :=
  match it with
  | IName m n => exists e sup, Dec buf s s (cased m n) e sup
  | IBytes b => slice buf s (s + length b) = b
  end.

Lemma readable_prefix B0 buf' it s :
  readable B0 it s -> firstn (length B0) buf' = B0 -> readable buf' it s.
Proof.
  destruct it as [m n|b]; cbn [readable].
  - intros (e & sup & HD) Hp. exists e, sup. eapply Dec_prefix; eassumption.
  - intros Hs Hp. eapply (slice_stable _ _ []); [exact Hs|lia|intros i []|apply agree_of_prefix; exact Hp].
Qed.

(* the states of the record level with no back-patch pending: RecRt.G st [] *)
Lemma emit_item_step it st st' :
  G st [] -> item_wf it -> emit_item it st = Ok st' ->
  readable (buf st') it (off st) /\ G st' [] /\ firstn (length (buf st)) (buf st') = buf st.
Proof.
  intros HG Hwf E. destruct it as [m n|b]; cbn [emit_item item_wf readable] in *.
  - apply (G_emit_name _ []) in E as (HG' & Hp & sup & HD & _); [|exact HG|exact Hwf]. eauto.
  - apply (G_emit_slice _ []) in E as (HG' & Hb); [|exact HG]. destruct HG as (-> & _).
    rewrite Hb. split; [|split; [exact HG'|apply firstn_app_length]].
    apply slice_of_prefix, firstn_all.
Qed.

Lemma emit_items_rt : forall its st acc starts st',
  G st [] -> Forall item_wf its -> emit_items its st acc = Ok (starts, st') ->
  exists new, starts = acc ++ new /\ Forall2 (readable (buf st')) its new /\
              G st' [] /\ firstn (length (buf st)) (buf st') = buf st.
Proof.
  induction its as [|it its IH]; intros st acc starts st' Hg Hwf E; cbn [emit_items] in E.
  - inversion E; subst. exists []. rewrite app_nil_r. split; [reflexivity|]. split; [constructor|]. split; [exact Hg|apply firstn_all].
  - inversion Hwf as [|? ? Hw1 Hw2]; subst. apply bind_ok in E as (st1 & E1 & E).
    destruct (emit_item_step it st st1 Hg Hw1 E1) as (Hr & Hg1 & Hp1).
    destruct (IH st1 _ _ _ Hg1 Hw2 E) as (new & Hs & HF & Hg' & Hp').
    exists (off st :: new). rewrite Hs, <- app_assoc. split; [reflexivity|].
    split; [|split; [exact Hg'|eapply prefix_trans; eassumption]].
    constructor; [|exact HF]. eapply readable_prefix; [exact Hr|exact Hp'].
Qed.

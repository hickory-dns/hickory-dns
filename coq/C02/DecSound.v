(* C02 — the executable reference decoder only ever returns what the relational spec allows;
   Dec is a function of the bytes *)
From HV Require Import Lib.Base Lib.ListX C02.Spec C02.Model C02.NameRt.
Open Scope N_scope.

Lemma dec_fuel_sound : forall fuel buf pos bound ls e,
  dec_fuel fuel buf pos bound = Some (ls, e) -> exists sup, Dec buf pos bound ls e sup.
Proof.
  induction fuel as [|f IH]; intros buf pos bound ls e H; cbn [dec_fuel] in H; [discriminate|].
  destruct (nth_error buf pos) as [b|] eqn:Eb; [|discriminate].
  destruct (N.eqb_spec b 0) as [->|Hb0].
  - inversion H; subst. eexists. constructor. exact Eb.
  - destruct (N.ltb_spec b 64) as [Hb64|Hb64].
    + set (len := N.to_nat b) in *.
      destruct (Nat.eqb_spec (length (slice buf (S pos) (S pos + len))) len) as [Hl|]; [|discriminate].
      destruct (dec_fuel f buf (S pos + len) bound) as [[ls' e']|] eqn:Er; [|discriminate].
      inversion H; subst. destruct (IH _ _ _ _ _ Er) as (sup & HD).
      eexists. rewrite <- Hl in HD at 1.
      apply (DLabel buf pos bound (slice buf (S pos) (S pos + len)) ls' e sup).
      * unfold wf_label. rewrite Hl. unfold len. lia.
      * rewrite Hl. unfold len. rewrite N2Nat.id. exact Eb.
      * rewrite Hl. reflexivity.
      * exact HD.
    + destruct (N.leb_spec 192 b) as [H192|]; cbn [andb] in H; [|discriminate].
      destruct (N.ltb_spec b 256) as [H256|]; [|discriminate].
      destruct (nth_error buf (S pos)) as [b2|] eqn:Eb2; [|discriminate].
      destruct (N.ltb_spec b2 256) as [Hb2|]; [|discriminate].
      destruct (Nat.ltb_spec (N.to_nat ((b - 192) * 256 + b2)) bound) as [Ht|]; [|discriminate].
      destruct (dec_fuel f buf _ _) as [[ls' e']|] eqn:Er; [|discriminate].
      inversion H; subst. destruct (IH _ _ _ _ _ Er) as (sup & HD).
      eexists. eapply DPtr; try eassumption; try reflexivity. lia.
Qed.

Lemma Dec_fun buf pos bound ls e sup : Dec buf pos bound ls e sup ->
  forall ls' e' sup', Dec buf pos bound ls' e' sup' -> ls' = ls /\ e' = e.
Proof.
  induction 1 as [pos bound H|pos bound l ls e sup Hw Hn Hs HD IH|pos bound b1 b2 tgt ls e' sup H1 Hb1 H2 Hb2 Ht Hlt HD IH];
    intros ls' e2 sup' H';
    inversion H' as [? ? K|? ? l2 ls2 ? ? Kw Kn Ks KD|? ? c1 c2 ? ? ? ? K1 Kb1 K2 Kb2 Kt Klt KD]; subst;
    unfold wf_label in *.
  (* the byte at [pos] tells the three rules apart *)
  - split; reflexivity.
  - rewrite H in Kn. injection Kn as Kn. lia.
  - rewrite H in K1. injection K1 as <-. lia.
  - rewrite Hn in K. injection K as K. lia.
  - rewrite Hn in Kn. injection Kn as Kn. apply Nat2N.inj in Kn.
    assert (l2 = l) by (rewrite <- Hs, <- Ks, Kn; reflexivity). subst l2.
    destruct (IH _ _ _ KD) as [-> ->]. split; reflexivity.
  - rewrite Hn in K1. injection K1 as <-. lia.
  - rewrite H1 in K. injection K as ->. lia.
  - rewrite H1 in Kn. injection Kn as ->. lia.
  - rewrite H1 in K1. rewrite H2 in K2. injection K1 as <-. injection K2 as <-.
    destruct (IH _ _ _ KD) as [-> _]. split; reflexivity.
Qed.

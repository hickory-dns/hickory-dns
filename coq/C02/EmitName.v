(* C02 — Name::emit (C03.Model.emit_name) against Spec.Dec: the name written decodes to exactly its
   labels and every compression candidate stays decodable (PtrInv). *)
From HV Require Import Lib.Base Lib.ListX C03.Model C03.Inv C02.Spec C02.Model C02.NameRt.
Open Scope N_scope.

(* [F]: positions that later Place::replace calls may overwrite (RDLENGTH, header) *)
Definition cand_ok (B : list byte) (F : list nat) (c : nat * list byte) : Prop :=
  N.of_nat (fst c) < 16383 /\
  exists ls e sup, wf_name ls /\ snd c = flat ls /\ Dec B (fst c) (fst c) ls e sup /\
                   (forall i, In i sup -> ~ In i F).

Definition PtrInv (st : enc) (F : list nat) : Prop := Forall (cand_ok (buf st) F) (ptrs st).

Lemma PtrInv_lt st F : PtrInv st F -> off st = length (buf st) -> Forall (fun c => (fst c < off st)%nat) (ptrs st).
Proof.
  intros H ->. eapply Forall_impl; [|exact H]. intros c (_ & ls & e & sup & _ & _ & HD & _). exact (Dec_pos_in HD).
Qed.

Lemma cand_ok_transfer {B B' F F' c} :
  cand_ok B F c ->
  (forall ls e sup, Dec B (fst c) (fst c) ls e sup -> (forall i, In i sup -> ~ In i F) ->
                    Dec B' (fst c) (fst c) ls e sup /\ (forall i, In i sup -> ~ In i F')) ->
  cand_ok B' F' c.
Proof.
  intros (Hlim & ls & e & sup & Hw & Hs & HD & Hav) Htr. split; [exact Hlim|].
  destruct (Htr ls e sup HD Hav) as [HD' Hav']. exists ls, e, sup. auto.
Qed.

Lemma cand_ok_prefix B0 B' F c :
  cand_ok B0 F c -> firstn (length B0) B' = B0 -> cand_ok B' F c.
Proof.
  intros Hc Hp. apply (cand_ok_transfer Hc). intros ls e sup HD Hav.
  split; [eapply Dec_prefix; eassumption|exact Hav].
Qed.

Lemma emit_chardata_appends d s s' :
  emit_chardata d s = Ok s' -> off s = length (buf s) ->
  s' = appended s (N.of_nat (length d) :: d).
Proof.
  unfold emit_chardata, emit_u8. intros E Ho. destruct (Nat.ltb_spec 255 (length d)); [discriminate|].
  apply bind_ok in E as (s1 & E1 & E2).
  apply emit_slice_appends in E1 as [-> _]; [|exact Ho].
  apply emit_slice_appends in E2 as [-> _]; [|apply appended_ends; exact Ho].
  rewrite appended_app, N.mod_small by lia. reflexivity.
Qed.

Lemma emit_labels_appends ls : forall s starts starts' s',
  emit_labels ls s starts = Ok (starts', s') -> off s = length (buf s) ->
  s' = appended s (flat ls) /\ starts' = starts ++ label_starts (off s) ls.
Proof.
  induction ls as [|l ls IH]; intros s starts starts' s' E Ho; cbn [emit_labels] in E.
  - inversion E; subst. unfold appended. cbn [flat map concat label_starts length].
    rewrite !app_nil_r, Nat.add_0_r. now destruct s'.
  - destruct (63 <? length l)%nat; [discriminate|].
    apply bind_ok in E as (s1 & E1 & E).
    apply emit_chardata_appends in E1; [|exact Ho]. subst s1.
    apply IH in E; [|apply appended_ends; exact Ho]. destruct E as [-> ->].
    rewrite appended_app, flat_cons, <- app_assoc. cbn [appended off label_starts length].
    split; reflexivity.
Qed.

Lemma store_ptr_cases i last s :
  store_ptr i last s = s \/
  (store_ptr i last s = set_ptrs s (ptrs s ++ [(i, slice_of s i last)]) /\ N.of_nat (off s) < 16383).
Proof.
  unfold store_ptr. destruct (N.ltb_spec (N.of_nat (off s)) 16383); [|now left].
  destruct (length (ptrs s) <? 64)%nat; [right|left]; auto.
Qed.

Lemma store_all_cons i idxs last s :
  store_all (i :: idxs) last s = store_all idxs last (store_ptr i last s).
Proof. reflexivity. Qed.

Lemma find_ptr_some m ps loc :
  find_ptr m ps = Some loc -> In (loc, m) ps.
Proof.
  induction ps as [|[s0 m0] ps IH]; cbn [find_ptr]; [discriminate|].
  destruct (bytes_eqb m0 m) eqn:E.
  - intros H; inversion H; subst. apply bytes_eqb_eq in E. subst. left; reflexivity.
  - intros H. right. apply IH. exact H.
Qed.

Lemma land_below_shiftl a b n : a < 2 ^ n -> N.land a (N.shiftl b n) = 0.
Proof.
  intros H. apply N.bits_inj_0. intros m. rewrite N.land_spec.
  destruct (N.lt_ge_cases m n) as [Hm|Hm].
  - rewrite N.shiftl_spec_low by exact Hm. apply andb_false_r.
  - rewrite <- (N.mod_small a (2 ^ n)) by exact H. rewrite N.mod_pow2_bits_high by exact Hm. reflexivity.
Qed.

Lemma lor_disjoint a b : N.land a b = 0 -> N.lor a b = a + b.
Proof. intros H. rewrite <- N.lxor_lor, <- N.add_nocarry_lxor by exact H. reflexivity. Qed.

(* 49152 = 3 * 2^14 shares no bit with a pointer target below 2^14, so or-ing it in (Rust:
   0xC000 | loc) is adding it *)
Lemma ptr_bits loc : loc < 16384 -> N.land loc 49152 = 0 /\ N.lor 49152 loc = 49152 + loc.
Proof.
  intros H. assert (E : N.land loc 49152 = 0) by exact (land_below_shiftl loc 3 14 H).
  split; [exact E|]. apply lor_disjoint. rewrite N.land_comm. exact E.
Qed.

Fixpoint upto (k : nat) : list N := match k with O => [] | S k' => N.of_nat k' :: upto k' end.
Lemma upto_in k x : In x (upto k) <-> x < N.of_nat k.
Proof. induction k as [|k IH]; cbn [upto In]; [lia|]. rewrite IH. lia. Qed.

Lemma ptr_bits_sweep :
  forallb (fun loc => (N.land loc 49152 =? 0) && (N.lor 49152 loc =? 49152 + loc)) (upto (N.to_nat 16384)) = true.
Proof.
  apply forallb_forall. intros loc Hin. apply upto_in in Hin. rewrite N2Nat.id in Hin.
  rewrite andb_true_iff, !N.eqb_eq. exact (ptr_bits loc Hin).
Qed.

Lemma be16_ptr loc : loc < 16384 ->
  exists b1 b2, be16 (49152 + loc) = [b1; b2] /\ 192 <= b1 < 256 /\ b2 < 256 /\
                N.to_nat ((b1 - 192) * 256 + b2) = N.to_nat loc.
Proof.
  intros H. unfold be16. eexists _, _. split; [reflexivity|].
  pose proof (N.div_mod (49152 + loc) 256 ltac:(discriminate)) as Hdm.
  pose proof (N.mod_lt (49152 + loc) 256 ltac:(discriminate)) as Hm.
  set (q := (49152 + loc) / 256) in *. set (r := (49152 + loc) mod 256) in *.
  rewrite (N.mod_small q) by lia. repeat split; try f_equal; lia.
Qed.

Lemma firstn_succ_nth {A} (l : list A) j x :
  nth_error l j = Some x -> firstn (S j) l = firstn j l ++ [x].
Proof.
  revert j; induction l as [|y l IH]; intros [|j] H; cbn [nth_error] in H; try discriminate.
  - inversion H; reflexivity.
  - cbn [firstn app]. f_equal. apply IH. exact H.
Qed.

Lemma flat_split a ls : flat ls = flat (firstn a ls) ++ flat (skipn a ls).
Proof. rewrite <- flat_app, firstn_skipn. reflexivity. Qed.

Section Loop.
  Variables (B0 : list byte) (ls : name) (P : list (nat * list byte)) (mx c0 : nat).
  Let last := (length B0 + length (flat ls))%nat.
  Let o (a : nat) := (length B0 + length (flat (firstn a ls)))%nat.

  Definition is_own (j : nat) (c : nat * list byte) : Prop :=
    N.of_nat (fst c) < 16383 /\ exists a, (a < j)%nat /\ (a < length ls)%nat /\ c = (o a, flat (skipn a ls)).

  Lemma is_own_mono j k c : (j <= k)%nat -> is_own j c -> is_own k c.
  Proof. intros Hjk (H1 & a & Ha & H2). split; [exact H1|]. exists a. split; [lia|exact H2]. Qed.

  Lemma o_0 : o 0 = length B0.
  Proof. apply Nat.add_0_r. Qed.

  Lemma o_mono a b : (a < b <= length ls)%nat -> (o a < o b)%nat.
  Proof.
    intros H. unfold o. rewrite (firstn_split ls a b), flat_app, app_length by lia.
    (* the labels from [a] up to [b] occupy at least one byte *)
    assert (0 < length (flat (firstn (b - a) (skipn a ls))))%nat; [|lia].
    apply flat_length_pos. intros E. apply (f_equal (@length _)) in E.
    rewrite firstn_length, skipn_length in E. cbn in E. lia.
  Qed.

  Lemma o_app pre l rest : ls = pre ++ l :: rest -> o (length (pre ++ [l])) = (o (length pre) + S (length l))%nat.
  Proof.
    intros E. rewrite app_length, Nat.add_1_r. unfold o.
    rewrite (firstn_succ_nth ls (length pre) l) by (rewrite E; apply nth_error_app_mid).
    rewrite flat_app, app_length. cbn [flat map concat]. rewrite app_nil_r. cbn [length]. lia.
  Qed.

  Lemma o_suffix a : (o a + length (flat (skipn a ls)) = last)%nat.
  Proof. unfold o, last. rewrite (flat_split a ls), app_length. lia. Qed.

  Lemma own_slice k s : buf s = B0 ++ flat ls -> slice_of s (o k) last = flat (skipn k ls).
  Proof.
    intros Hb. rewrite <- (o_suffix k). unfold slice_of, o. rewrite <- app_length.
    (* [slice_of s] is textually Spec.slice on [buf s] *)
    apply (slice_of_prefix (B0 ++ flat (firstn k ls)) (flat (skipn k ls))).
    rewrite <- app_assoc, <- flat_split, <- Hb. apply firstn_all.
  Qed.

  Definition loop_inv (j : nat) (s : enc) : Prop :=
    buf s = B0 ++ flat ls /\ off s = last /\ maxsz s = mx /\ cnt s = c0 /\
    exists own, ptrs s = P ++ own /\ Forall (is_own j) own.

  Definition loop_result (j : nat) (done : bool) (s' : enc) : Prop :=
    (done = false /\ loop_inv (length ls) s') \/
    (done = true /\ exists k loc own,
        (j <= k < length ls)%nat /\ In (loc, flat (skipn k ls)) P /\ N.of_nat loc < 16384 /\
        buf s' = B0 ++ flat (firstn k ls) ++ be16 (49152 + N.of_nat loc) /\
        off s' = length (buf s') /\ maxsz s' = mx /\ cnt s' = c0 /\
        ptrs s' = P ++ own /\ Forall (is_own k) own).

  Lemma loop_result_mono j j' done s' : (j <= j')%nat -> loop_result j' done s' -> loop_result j done s'.
  Proof.
    intros Hj [R|(Hd & k & loc & own & Hk & R)]; [left; exact R|].
    right. split; [exact Hd|]. exists k, loc, own. split; [lia|exact R].
  Qed.

  Lemma loop_inv_start : loop_inv 0 (mkEnc (B0 ++ flat ls) last mx P c0).
  Proof. unfold loop_inv; cbn [buf off maxsz ptrs cnt]. repeat split. exists []. now rewrite app_nil_r. Qed.

  Lemma loop_inv_store j s : (j < length ls)%nat -> loop_inv j s -> loop_inv (S j) (store_ptr (o j) last s).
  Proof.
    intros Hj (Hb & Ho & Hm & Hc & own & Hp & Hown).
    assert (Hown' : Forall (is_own (S j)) own).
    { eapply Forall_impl; [|exact Hown]. intros c. apply is_own_mono. lia. }
    destruct (store_ptr_cases (o j) last s) as [->|[-> Hlim]]; unfold loop_inv; cbn [set_ptrs buf off maxsz cnt ptrs];
      repeat split; auto; [exists own; auto|].
    exists (own ++ [(o j, flat (skipn j ls))]). rewrite Hp, <- app_assoc, (own_slice j s Hb).
    split; [reflexivity|]. apply Forall_app. split; [exact Hown'|]. constructor; [|constructor]. split.
    - (* store_ptr tests the current offset [last] against 0x3FFF; label [j] starts below it *)
      cbn [fst]. pose proof (o_suffix j). lia.
    - exists j. auto.
  Qed.

  Lemma store_all_spec : forall rest pre_ls s,
    ls = pre_ls ++ rest -> loop_inv (length pre_ls) s ->
    loop_inv (length ls) (store_all (label_starts (o (length pre_ls)) rest) last s).
  Proof.
    induction rest as [|l rest IH]; intros pre_ls s Els Hinv; cbn [label_starts].
    - rewrite app_nil_r in Els. subst. exact Hinv.
    - rewrite store_all_cons, <- (o_app _ _ _ Els). apply IH; [rewrite <- app_assoc; exact Els|].
      rewrite app_length, Nat.add_1_r. apply loop_inv_store; [|exact Hinv].
      rewrite Els, app_length. cbn [length]. lia.
  Qed.

  Lemma match_is_old j s loc :
    (j < length ls)%nat -> loop_inv j s -> get_ptr (o j) last s = Some loc -> In (loc, flat (skipn j ls)) P.
  Proof.
    intros Hj (Hb & _ & _ & _ & own & Hp & Hown) EG.
    unfold get_ptr in EG. rewrite (own_slice j s Hb), Hp in EG.
    apply find_ptr_some, in_app_or in EG. destruct EG as [EG|EG]; [exact EG|exfalso].
    (* the own candidates start earlier in this name, so they are strictly longer *)
    rewrite Forall_forall in Hown. destruct (Hown _ EG) as (_ & a & Ha & _ & [= _ E2]).
    pose proof (o_mono a j ltac:(lia)). pose proof (o_suffix a) as La. pose proof (o_suffix j).
    rewrite <- E2 in La. lia.
  Qed.

  Hypothesis HP_lt : Forall (fun c => (fst c < length B0)%nat /\ N.of_nat (fst c) < 16383) P.

  Lemma rewind_state j s : (j < length ls)%nat -> loop_inv j s ->
    exists own, trim (set_off s (o j)) = mkEnc (B0 ++ flat (firstn j ls)) (o j) mx (P ++ own) c0 /\
                Forall (is_own j) own.
  Proof.
    intros Hj (Hb & _ & Hm & Hc & own & Hp & Hown). exists own. split; [|exact Hown].
    unfold trim, set_off, set_buf, set_ptrs; cbn [buf off maxsz ptrs cnt]. rewrite Hb, Hm, Hc, Hp. f_equal.
    - rewrite (flat_split j ls), app_assoc. unfold o. rewrite <- app_length. apply firstn_app_length.
    - apply filter_all, Forall_app. split.
      + eapply Forall_impl; [|exact HP_lt]. intros c [Hc1 _]. apply Nat.ltb_lt. unfold o. lia.
      + eapply Forall_impl; [|exact Hown]. intros c (_ & a & Ha & _ & ->). apply Nat.ltb_lt, o_mono. lia.
  Qed.

  Lemma loop_spec : forall rest pre_ls s done s',
    ls = pre_ls ++ rest ->
    loop_inv (length pre_ls) s ->
    compress_loop (label_starts (o (length pre_ls)) rest) last s = Ok (done, s') ->
    loop_result (length pre_ls) done s'.
  Proof.
    induction rest as [|l rest IH]; intros pre_ls s done s' Els Hinv E; cbn [label_starts compress_loop] in E.
    - inversion E; subst. left. split; [reflexivity|].
      rewrite app_nil_r in *. subst. exact Hinv.
    - set (j := length pre_ls) in *.
      assert (Hj : (j < length ls)%nat) by (rewrite Els, app_length; cbn [length]; unfold j; lia).
      (* nothing usable matched: the candidate is stored (or not) and the loop moves on *)
      assert (Hrec : compress_loop (label_starts (o j + S (length l)) rest) last (store_ptr (o j) last s)
                       = Ok (done, s') -> loop_result j done s').
      { unfold j. rewrite <- (o_app _ _ _ Els). intros E2.
        apply IH in E2; [|rewrite <- app_assoc; exact Els|].
        - eapply loop_result_mono; [|exact E2]. rewrite app_length. lia.
        - rewrite app_length, Nat.add_1_r. apply loop_inv_store; assumption. }
      destruct (get_ptr (o j) last s) as [loc|] eqn:EG; [|exact (Hrec E)].
      destruct (N.land (N.of_nat loc) 49152 =? 0) eqn:EL; [|exact (Hrec E)].
      apply (match_is_old j s loc Hj Hinv) in EG.
      destruct (proj1 (Forall_forall _ _) HP_lt _ EG) as [_ Hloc]. cbn [fst] in Hloc.
      destruct (ptr_bits (N.of_nat loc) ltac:(lia)) as [_ Hlor]. rewrite Hlor in E.
      destruct (rewind_state j s Hj Hinv) as (own & E1 & Hown). rewrite E1 in E.
      apply bind_ok in E as (s2 & E2 & [= <- <-]).
      apply emit_slice_appends in E2 as [-> _]; [|cbn [buf off]; unfold o; now rewrite app_length].
      right. split; [reflexivity|]. exists j, loc, own. cbn [appended buf off maxsz ptrs cnt].
      rewrite <- app_assoc. repeat split; auto; try lia.
      unfold o. rewrite !app_length. lia.
  Qed.
End Loop.

Lemma wf_name_split a ls : wf_name ls -> wf_name (firstn a ls) /\ wf_name (skipn a ls).
Proof. intros H. apply Forall_app. rewrite firstn_skipn. exact H. Qed.

(* The name just written and the candidates stored for it are the same kind of thing: the suffix
   from label [a] read at the start of label [a]; the name is the case a = 0.  Both endings (root
   byte, pointer) are therefore described by one statement over all [a]. *)
Section Final.
  Variables (B0 : list byte) (ls : name) (P : list (nat * list byte)) (F : list nat).
  Hypothesis Hwf : wf_name ls.
  Hypothesis HF : forall i, In i F -> (i < length B0)%nat.
  Hypothesis HP : Forall (cand_ok B0 F) P.
  Hypothesis HP_in_B0 : Forall (fun c => (fst c < length B0)%nat) P.
  Let o (a : nat) := (length B0 + length (flat (firstn a ls)))%nat.

  Definition suffixes_decode (Bf : list byte) (k : nat) : Prop :=
    forall a, (a <= k)%nat ->
    exists sup, Dec Bf (o a) (o a) (skipn a ls) (length Bf) sup /\ (forall i, In i sup -> ~ In i F).

  (* suffix [a] is read with bound [o a], so what follows label [k] has to decode under every
     bound from [length B0] up *)
  Lemma suffixes_before_tail k tail sup2 :
    let Bf := B0 ++ flat (firstn k ls) ++ tail in
    (forall bound, (length B0 <= bound)%nat -> Dec Bf (o k) bound (skipn k ls) (length Bf) sup2) ->
    (forall i, In i sup2 -> ~ In i F) ->
    suffixes_decode Bf k.
  Proof.
    intros Bf HD2 Hav2 a Ha. specialize (HD2 (o a) ltac:(unfold o; lia)). unfold Bf, o in *.
    destruct (wf_name_split a ls Hwf) as [_ Hwm]. apply (wf_name_split (k - a)) in Hwm as [Hwm _].
    rewrite (firstn_split ls a k), flat_app, <- app_assoc, app_assoc in HD2 |- * by exact Ha.
    rewrite app_length, Nat.add_assoc, <- app_length in HD2.
    apply Dec_flat_then in HD2 as (sup & HD & Hs); [|exact Hwm].
    rewrite <- (skipn_split ls a k) in HD by exact Ha. rewrite app_length in HD, Hs.
    exists sup. split; [exact HD|].
    intros i Hi HiF. destruct (Hs i Hi) as [H|H]; [specialize (HF i HiF); lia|exact (Hav2 i H HiF)].
  Qed.

  Lemma suffixes_root : suffixes_decode (B0 ++ flat ls ++ [0]) (length ls).
  Proof.
    pose proof (suffixes_before_tail (length ls) [0] [o (length ls)]) as H.
    unfold o in H. cbv zeta in H. rewrite firstn_all, skipn_all in H. apply H.
    - intros bound _. rewrite app_assoc, app_length, <- app_length, Nat.add_1_r.
      constructor. rewrite <- app_assoc. rewrite app_assoc. apply nth_error_app_mid.
    - intros i [<-|[]] Hin. apply HF in Hin. lia.
  Qed.

  Lemma suffixes_ptr k loc :
    In (loc, flat (skipn k ls)) P -> N.of_nat loc < 16384 ->
    suffixes_decode (B0 ++ flat (firstn k ls) ++ be16 (49152 + N.of_nat loc)) k.
  Proof.
    intros Hin Hloc.
    destruct (be16_ptr (N.of_nat loc) Hloc) as (b1 & b2 & -> & Hb1 & Hb2 & Htgt).
    rewrite Nat2N.id in Htgt.
    (* the matched candidate decodes to the suffix from [k], and still does in the longer buffer *)
    rewrite Forall_forall in HP, HP_in_B0.
    destruct (HP _ Hin) as (_ & ls2 & e2 & sup2 & _ & Hs2 & HD2 & Hav2). cbn [fst snd] in *.
    assert (ls2 = skipn k ls) as -> by (apply flat_inj; now symmetry).
    pose proof (HP_in_B0 _ Hin) as Hlt. cbn [fst] in Hlt.
    apply Dec_prefix with (buf' := B0 ++ flat (firstn k ls) ++ [b1; b2]) in HD2; [|apply firstn_app_length].
    apply (suffixes_before_tail k [b1; b2] (o k :: S (o k) :: sup2)).
    - intros bound Hb. unfold o. rewrite app_assoc in HD2 |- *. rewrite app_length, <- app_length.
      cbn [length]. rewrite Nat.add_comm.
      apply (DPtr _ _ _ b1 b2 loc _ e2); auto; try lia.
      + apply nth_error_app_mid.
      + rewrite nth_error_app2, Nat.sub_succ_l, Nat.sub_diag by lia. reflexivity.
    - intros i [<-|[<-|Hi]] HiF; [apply HF in HiF; unfold o in HiF; lia ..|exact (Hav2 i Hi HiF)].
  Qed.

  Definition name_done (st' : enc) : Prop :=
    (exists sup, Dec (buf st') (length B0) (length B0) ls (off st') sup /\ (forall i, In i sup -> ~ In i F)) /\
    PtrInv st' F /\ off st' = length (buf st') /\ Forall (fun c => (fst c < off st')%nat) (ptrs st').

  Lemma name_finished st' k tail own :
    buf st' = B0 ++ flat (firstn k ls) ++ tail -> suffixes_decode (buf st') k ->
    off st' = length (buf st') -> ptrs st' = P ++ own -> Forall (is_own B0 ls k) own ->
    name_done st'.
  Proof.
    intros Hb Hsuf Ho Hp Hown.
    assert (Hpre : firstn (length B0) (buf st') = B0) by (rewrite Hb; apply firstn_app_length).
    assert (HPI : PtrInv st' F).
    { unfold PtrInv. rewrite Hp. apply Forall_app. split.
      - eapply Forall_impl; [|exact HP]. intros c Hc. eapply cand_ok_prefix; eassumption.
      - eapply Forall_impl; [|exact Hown]. intros c (H1 & a & Ha & Hal & ->). split; [exact H1|].
        destruct (Hsuf a ltac:(lia)) as (sup & HD & Hav).
        exists (skipn a ls), (length (buf st')), sup. split; [apply wf_name_split; exact Hwf|auto]. }
    split; [|split; [exact HPI|split; [exact Ho|exact (PtrInv_lt _ F HPI Ho)]]].
    destruct (Hsuf O (Nat.le_0_l _)) as (sup & HD & Hav). exists sup. split; [|exact Hav].
    unfold o in HD. cbn [firstn skipn flat map concat length] in HD. now rewrite Nat.add_0_r, <- Ho in HD.
  Qed.

  Lemma loop_finished {mx c j done s2 st'} :
    loop_result B0 ls P mx c j done s2 ->
    (if done then Ok s2
     else do st3 <- emit_u8 0 s2;
          if (255 <? length (buf st3) - length B0)%nat then Err ENameTooLong st3 else Ok st3) = Ok st' ->
    name_done st'.
  Proof.
    intros [[-> (Hb & Ho2 & _ & _ & own & Hp & Hown)]
           |(-> & k & loc & own & Hk & Hin & Hloc & Hb & Ho2 & _ & _ & Hp & Hown)] E.
    - apply bind_ok in E as (s3 & E3 & E). destruct (255 <? _)%nat; [discriminate|]. injection E as <-.
      apply emit_slice_appends in E3 as [-> _]; [|rewrite Ho2, Hb, app_length; reflexivity].
      change (0 mod 256) with 0.
      apply (name_finished _ (length ls) [0] own); cbn [appended buf off ptrs]; rewrite ?Hb; auto.
      + now rewrite firstn_all, <- app_assoc.
      + rewrite <- app_assoc. apply suffixes_root.
      + rewrite Ho2, !app_length. reflexivity.
    - injection E as <-. apply (name_finished _ k (be16 (49152 + N.of_nat loc)) own); auto.
      rewrite Hb. apply suffixes_ptr; auto.
  Qed.
End Final.

Theorem emit_name_rt st F mode n st' :
  off st = length (buf st) ->
  Forall (fun c => (fst c < off st)%nat) (ptrs st) ->
  PtrInv st F ->
  (forall i, In i F -> (i < off st)%nat) ->
  wf_name (cased mode n) ->
  emit_name mode n st = Ok st' ->
  (exists sup, Dec (buf st') (off st) (off st) (cased mode n) (off st') sup /\
               (forall i, In i sup -> ~ In i F)) /\
  PtrInv st' F /\ off st' = length (buf st') /\
  Forall (fun c => (fst c < off st')%nat) (ptrs st').
Proof.
  destruct st as [B0 o0 mx P c0]; cbn [buf off ptrs]. intros -> HP_in_B0 HPI HF Hwf E.
  assert (HP16 : Forall (fun c => (fst c < length B0)%nat /\ N.of_nat (fst c) < 16383) P).
  { unfold PtrInv in HPI. rewrite Forall_forall in *. intros c Hc. split; [exact (HP_in_B0 c Hc)|exact (proj1 (HPI c Hc))]. }
  unfold emit_name in E. fold (cased mode n) in E. set (ls := cased mode n) in *.
  apply bind_ok in E as ([starts s1] & EL & E).
  apply emit_labels_appends in EL as [-> ->]; [|reflexivity].
  cbn [appended app off cnt set_cnt buf maxsz ptrs] in E.
  destruct (match mode with Compressed => (c0 <? 120)%nat | _ => false end).
  - apply bind_ok in E as ([done s2] & EC & E).
    pose proof (loop_spec B0 ls P mx (S c0) HP16 ls [] _ done s2 eq_refl (loop_inv_start B0 ls P mx (S c0))) as R.
    cbn [length] in R. rewrite o_0 in R.
    exact (loop_finished B0 ls P F Hwf HF HPI HP_in_B0 (R EC) E).
  - pose proof (store_all_spec B0 ls P mx c0 ls [] _ eq_refl (loop_inv_start B0 ls P mx c0)) as R.
    cbn [length] in R. rewrite o_0 in R.
    exact (loop_finished B0 ls P F Hwf HF HPI HP_in_B0 (j := O) (or_introl (conj eq_refl R)) E).
Qed.

(* C02 — property theorems (statements + short proofs from the other files of this directory).
   The encoder model is C03.Model (tied byte for byte to Message::emit by the C03 and C02
   correspondence runs); Spec.Dec is the independent reading of RFC 1035 §4.1.4 with the
   implementation's strict backward-pointer rule. *)
From HV Require Import Lib.Base C03.Model C03.Inv C02.Spec C02.Model C02.NameRt C02.EmitName
     C02.ItemsRt C02.DecSound C02.RecRt C02.MsgRt.
Open Scope N_scope.

(* The byte image of a label sequence determines the sequence: byte-equality of compression
   candidates is equality of name suffixes (no false pointer). *)
Theorem C02_label_seq_injective : forall a b, wf_name a -> wf_name b -> flat a = flat b -> a = b.
Proof. intros a b _ _. apply flat_inj. Qed.
Print Assumptions C02_label_seq_injective.

(* Name::emit, any encoding mode, any state of the compression table satisfying the table
   invariant: the bytes written decode — through whatever pointer was chosen — to exactly the
   labels given (lower-cased in the lowercase mode), case preserved, ending where the encoder's
   offset ends; pointers only ever target positions before the name. *)
Theorem C02_name_roundtrip : forall st F mode n st',
  off st = length (buf st) ->
  Forall (fun c => (fst c < off st)%nat) (ptrs st) ->
  PtrInv st F -> (forall i, In i F -> (i < off st)%nat) ->
  wf_name (cased mode n) ->
  emit_name mode n st = Ok st' ->
  exists sup, Dec (buf st') (off st) (off st) (cased mode n) (off st') sup /\
              (forall i, In i sup -> ~ In i F).
Proof. intros. eapply emit_name_rt; eassumption. Qed.
Print Assumptions C02_name_roundtrip.

(* ... and the table invariant is re-established: every candidate (old or new, also after a
   rewind + trim) still decodes to the suffix whose bytes it stores, so the next name can rely on it. *)
Theorem C02_ptr_table_inv : forall st F mode n st',
  off st = length (buf st) ->
  Forall (fun c => (fst c < off st)%nat) (ptrs st) ->
  PtrInv st F -> (forall i, In i F -> (i < off st)%nat) ->
  wf_name (cased mode n) ->
  emit_name mode n st = Ok st' ->
  PtrInv st' F /\ off st' = length (buf st') /\ Forall (fun c => (fst c < off st')%nat) (ptrs st').
Proof. intros. eapply emit_name_rt; eassumption. Qed.
Print Assumptions C02_ptr_table_inv.

(* Every reachable state: ANY sequence of names (any modes, shared suffixes, mixed case, more than
   120 names, more than 64 candidates, offsets beyond 0x3FFF) and raw byte runs emitted from a fresh
   encoder is readable from the final buffer, each item at the offset where it was written. *)
Theorem C02_all_names_roundtrip : forall L its starts st,
  Forall item_wf its ->
  emit_items its (enc_new L) [] = Ok (starts, st) ->
  Forall2 (readable (buf st)) its starts.
Proof.
  intros L its starts st Hwf E.
  destruct (emit_items_rt its (enc_new L) [] starts st (G_new L) Hwf E) as (new & Hs & HF & _).
  cbn [app] in Hs. subst. exact HF.
Qed.
Print Assumptions C02_all_names_roundtrip.

(* A decoded name is not disturbed by anything written later outside the positions it was read
   from (appends, RDLENGTH / header back-patches, truncation above it). *)
Theorem C02_decoding_stable : forall buf buf' pos bound ls e sup,
  Dec buf pos bound ls e sup ->
  (forall i, In i sup -> nth_error buf' i = nth_error buf i) ->
  Dec buf' pos bound ls e sup.
Proof. exact Dec_agree. Qed.
Print Assumptions C02_decoding_stable.

(* Decoding is a function of the bytes. *)
Theorem C02_decoding_is_a_function : forall buf pos bound ls e sup ls' e' sup',
  Dec buf pos bound ls e sup -> Dec buf pos bound ls' e' sup' -> ls' = ls /\ e' = e.
Proof. intros. eapply Dec_fun; eassumption. Qed.
Print Assumptions C02_decoding_is_a_function.

(* The executable reference decoder used by the correspondence check only returns what the
   specification allows. *)
Theorem C02_reference_decoder_sound : forall buf pos ls e,
  dec_name buf pos = Some (ls, e) -> exists sup, Dec buf pos pos ls e sup.
Proof. intros buf pos ls e. apply dec_fuel_sound. Qed.
Print Assumptions C02_reference_decoder_sound.

(* Record level: whatever Record::emit writes — from any reachable encoder state [G st F] — reads
   back: owner name through the compression table, TYPE/CLASS/TTL, RDLENGTH equal to the actual
   RDATA length, every RDATA part (raw runs byte for byte, embedded names in their encoding mode). *)
Theorem C02_record_roundtrip : forall F r st st',
  G st F -> rec_wf r -> emit_rec r st = Ok st' ->
  rec_at (buf st') (off st) r (off st') F /\ G st' F.
Proof. intros F r st st' HG Hw E. destruct (emit_rec_rt F r st st' HG Hw E) as (A & _ & B). auto. Qed.
Print Assumptions C02_record_roundtrip.

(* Message level, any size limit: if the encoder succeeds, a reader finds in the output: a header
   whose counts are the numbers of records actually present and whose TC flag is the original one
   or-ed with "something was dropped"; every question; exactly a prefix of every section (and OPT /
   TSIG if kept), each record readable field by field; and the last record ends exactly at the end
   of the output (no bytes left over).  With a limit that drops nothing this is
   decode (encode m) = m for the modelled message structure. *)
Theorem C02_message_roundtrip : forall m L b,
  msg_wf m -> encode L m = OBytes b -> msg_readable b m.
Proof.
  intros m L b Hw E. apply Trunc.encode_ok in E as (st & Em & <-).
  apply (msg_run_rt m L st Hw), Trunc.emit_message_sound; [apply Trunc.wfb_new|exact Em].
Qed.
Print Assumptions C02_message_roundtrip.

(* Scope of the message-level theorem: RDATA is the part sequence every RData::emit reduces to;
   the per-type RDATA codecs, OPT<->Edns / TSIG placement and the extended-rcode split are outside
   the model and are judged on the implementation by the harness's deep-comparison oracle. *)

(* Non-vacuity: three names sharing a suffix, mixed case, one uncompressed in between. *)
Example C02_example :
  let n1 := [[119; 119; 119]; [101; 120]; [99; 111; 109]] in      (* www.ex.com *)
  let n2 := [[109]; [69; 88]; [99; 111; 109]] in                   (* m.EX.com  *)
  let n3 := [[101; 120]; [99; 111; 109]] in                        (* ex.com    *)
  let its := [IBytes [0;0;0;0;0;0;0;0;0;0;0;0]; IName Compressed n1; IName Uncompressed n2;
              IName Compressed n3; IName Compressed n1] in
  Forall item_wf its /\
  exists starts st, emit_items its (enc_new 512) [] = Ok (starts, st) /\
                    starts = [0; 12; 24; 34; 36]%nat /\ length (buf st) = 38%nat.
Proof.
  cbv zeta. split.
  - repeat constructor; cbn; lia.
  - eexists _, _. split; [vm_compute; reflexivity|]. split; reflexivity.
Qed.

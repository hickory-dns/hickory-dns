(* C02/C03 — message level: whatever emit_message_parts produces under a size limit can be read
   back completely: the 12 header bytes carry the counts of the records actually present and the
   TC flag, then every question, then exactly the kept prefix of every section (and OPT / TSIG if
   kept), each record readable field by field with its names resolved through the compression
   pointers, ending exactly at the end of the buffer. *)
From HV Require Import Lib.Base Lib.ListX C03.Model C03.Inv C03.Trunc C02.Spec C02.Model C02.NameRt
     C02.EmitName C02.RecRt.
Open Scope N_scope.

Definition query_at (buf : list byte) (pos : nat) (q : query) (e : nat) (F : list nat) : Prop :=
  exists e1 sup, Dec buf pos pos (qname q) e1 sup /\ (forall i, In i sup -> ~ In i F) /\
                 slice buf e1 (e1 + 4) = be16 (qtype q) ++ be16 (qclass q) /\ e = (e1 + 4)%nat.

Definition query_wf (q : query) : Prop := wf_name (qname q).

Lemma query_at_agree F buf buf' pos q e :
  query_at buf pos q e F -> (forall i, In i F -> (i < pos)%nat) ->
  agree (length buf) F buf buf' -> query_at buf' pos q e F.
Proof.
  intros (e1 & sup & HD & Hav & Hs & He) HF Hag.
  pose proof (Dec_pos_lt HD) as Hlt.
  exists e1, sup. split; [eapply Dec_agree_below; eassumption|]. split; [exact Hav|]. split; [|exact He].
  eapply slice_stable; [exact Hs|cbn; lia|intros i Hi; specialize (HF i Hi); lia|exact Hag].
Qed.

Lemma query_at_grows F buf pos q e : query_at buf pos q e F -> (pos < e)%nat.
Proof. intros (e1 & sup & HD & _ & _ & ->). pose proof (Dec_pos_lt HD). lia. Qed.

Theorem emit_query_rt F q st st' :
  G st F -> query_wf q -> emit_query q st = Ok st' ->
  G st' F /\ firstn (length (buf st)) (buf st') = buf st /\
  query_at (buf st') (off st) q (off st') F.
Proof.
  intros HG Hw E. rewrite emit_query_parts in E.
  apply (emit_parts_rt F) in E as (G' & P' & e1 & sup & HD & Hav & S1 & S2 & He); [|exact HG|repeat constructor; exact Hw].
  cbn [parts_at be16 length] in S1, S2, He.
  split; [exact G'|]. split; [exact P'|]. exists e1, sup. repeat split; auto; [|lia].
  rewrite <- S1, <- S2, <- slice_app by lia. f_equal. lia.
Qed.

Section Runs.
  Context {A : Type} (emit1 : A -> enc -> res enc) (at1 : list byte -> nat -> A -> nat -> list nat -> Prop)
          (wf1 : A -> Prop).
  Variable F : list nat.
  Hypothesis step : forall x st st', G st F -> wf1 x -> emit1 x st = Ok st' ->
    G st' F /\ firstn (length (buf st)) (buf st') = buf st /\ at1 (buf st') (off st) x (off st') F.
  Hypothesis at1_agree : forall buf buf' pos x e,
    at1 buf pos x e F -> (forall i, In i F -> (i < pos)%nat) -> agree (length buf) F buf buf' ->
    at1 buf' pos x e F.
  Hypothesis at1_grows : forall buf pos x e, at1 buf pos x e F -> (pos < e)%nat.

  Fixpoint all_at (buf : list byte) (pos : nat) (xs : list A) (e : nat) : Prop :=
    match xs with
    | [] => e = pos
    | x :: xs' => exists e1, at1 buf pos x e1 F /\ all_at buf e1 xs' e
    end.

  Lemma all_at_agree buf buf' : forall xs pos e,
    all_at buf pos xs e -> (forall i, In i F -> (i < pos)%nat) -> agree (length buf) F buf buf' ->
    all_at buf' pos xs e.
  Proof.
    induction xs as [|x xs IH]; intros pos e H HF Hag; cbn [all_at] in *; [exact H|].
    destruct H as (e1 & H1 & H2). exists e1. split; [eapply at1_agree; eassumption|].
    apply IH; [exact H2| |exact Hag]. intros i Hi. specialize (HF i Hi). pose proof (at1_grows _ _ _ _ H1). lia.
  Qed.

  Lemma all_at_app buf : forall xs ys pos e1 e,
    all_at buf pos xs e1 -> all_at buf e1 ys e -> all_at buf pos (xs ++ ys) e.
  Proof.
    induction xs as [|x xs IH]; intros ys pos e1 e H1 H2; cbn [all_at app] in *.
    - subst. exact H2.
    - destruct H1 as (e0 & Ha & Hr). exists e0. split; [exact Ha|]. eapply IH; eassumption.
  Qed.

  Lemma all_at_le buf : forall xs pos e, all_at buf pos xs e -> (pos <= e)%nat.
  Proof.
    induction xs as [|x xs IH]; intros pos e H; cbn [all_at] in H; [lia|].
    destruct H as (e1 & H1 & H2). pose proof (at1_grows _ _ _ _ H1). specialize (IH _ _ H2). lia.
  Qed.

  Lemma emit_all_rt : forall xs st st',
    G st F -> Forall wf1 xs -> emit_all emit1 xs st = Ok st' ->
    G st' F /\ firstn (length (buf st)) (buf st') = buf st /\
    all_at (buf st') (off st) xs (off st').
  Proof.
    induction xs as [|x xs IH]; intros st st' HG Hwf E; cbn [emit_all] in E.
    - inversion E; subst. split; [exact HG|]. split; [apply firstn_all|reflexivity].
    - inversion Hwf as [|? ? Hw1 Hw2]; subst. apply bind_ok in E as (s1 & E1 & E).
      destruct (step x st s1 HG Hw1 E1) as (HG1 & Hp1 & Ha1).
      destruct (IH s1 st' HG1 Hw2 E) as (HG' & Hp' & Hall).
      split; [exact HG'|]. split; [eapply prefix_trans; eassumption|].
      exists (off s1). split; [|exact Hall].
      eapply at1_agree; [exact Ha1|apply HG|]. apply agree_of_prefix. exact Hp'.
  Qed.

  (* [t] comes out in the form in which msg_readable spells "dropped" *)
  Lemma section_run_rt pre p0 {xs st k t st'} :
    G st F -> Forall wf1 xs -> section_run emit1 xs st k t st' ->
    all_at (buf st) p0 pre (off st) -> (forall i, In i F -> (i < p0)%nat) ->
    G st' F /\ firstn (length (buf st)) (buf st') = buf st /\
    all_at (buf st') p0 (pre ++ firstn k xs) (off st') /\
    (k <= length xs)%nat /\ t = negb (k =? length xs)%nat.
  Proof.
    intros HG Hwf R Hpre HF.
    destruct (section_run_emit_all R) as (sm & c & Ea & ->).
    (* G does not look at the compressed-name counter *)
    change (G (set_cnt sm c) F) with (G sm F). cbn [set_cnt buf off].
    apply emit_all_rt in Ea as (HG' & Hp & Hall); [|exact HG|].
    2:{ rewrite <- (firstn_skipn k xs) in Hwf. apply Forall_app in Hwf. apply Hwf. }
    split; [exact HG'|]. split; [exact Hp|]. split.
    - eapply all_at_app; [|exact Hall]. eapply all_at_agree; [exact Hpre|exact HF|].
      apply agree_of_prefix. exact Hp.
    - destruct (section_run_kept R) as [Hk [Ht1 Ht2]]. split; [exact Hk|].
      destruct (Nat.eqb_spec k (length xs)) as [e|ne]; cbn [negb]; [exact (Ht2 e)|].
      destruct t; [reflexivity|]. exfalso. exact (ne (Ht1 eq_refl)).
  Qed.
End Runs.
Arguments all_at_le {A} at1 F at1_grows {buf xs pos e}.

Definition recs_at F := all_at (fun buf pos r e F => rec_at buf pos r e F) F.
Definition queries_at F := all_at (fun buf pos q e F => query_at buf pos q e F) F.

Definition msg_wf (m : msg) : Prop :=
  Forall query_wf (mqueries m) /\ Forall rec_wf (manswers m) /\ Forall rec_wf (mauth m) /\
  Forall rec_wf (madd m) /\ Forall rec_wf (opt_list (medns m)) /\ Forall rec_wf (opt_list (msig m)).

Definition HDR : list nat := seq 0 12.

Definition msg_readable (buf : list byte) (m : msg) : Prop :=
  exists ka kn kr ke ks eq_,
    (ka <= length (manswers m))%nat /\ (kn <= length (mauth m))%nat /\ (kr <= length (madd m))%nat /\
    (ke <= length (opt_list (medns m)))%nat /\ (ks <= length (opt_list (msig m)))%nat /\
    let dropped := negb ((ka =? length (manswers m)) && (kn =? length (mauth m)) && (kr =? length (madd m)) &&
                         (ke =? length (opt_list (medns m))) && (ks =? length (opt_list (msig m))))%nat in
    firstn 12 buf = header_bytes m (mtc m || dropped) (length (mqueries m)) ka kn (kr + ke + ks) /\
    queries_at HDR buf 12 (mqueries m) eq_ /\
    recs_at HDR buf eq_
      (firstn ka (manswers m) ++ firstn kn (mauth m) ++ firstn kr (madd m) ++
       firstn ke (opt_list (medns m)) ++ firstn ks (opt_list (msig m)))
      (length buf).

Definition rec_section_rt :=
  section_run_rt emit_rec rec_at rec_wf HDR
    (emit_rec_rt HDR) (rec_at_agree HDR) (rec_at_grows HDR).
Arguments rec_section_rt pre p0 {xs st k t st'}.

Theorem msg_run_rt m L st :
  msg_wf m -> msg_run m (enc_new L) st -> msg_readable (buf st) m.
Proof.
  intros (Wq & Wa & Wn & Wr & We & Ws)
    (s0 & s1 & s2 & s3 & s4 & s5 & s6 & ka & t1 & kn & t2 & kr & t3 & ke & t4 & ks & t5 &
     EP & R1 & R2 & R3 & R4 & R5 & R6 & ER).
  cbn [enc_new off] in EP, ER.
  apply (G_place _ []) in EP as (_ & G0 & B0); [|apply G_new]. change ([] ++ seq 0 12) with HDR in G0.
  pose proof G0 as (Ho0 & _ & _ & F0 & _). rewrite B0 in Ho0. cbn in Ho0.
  destruct (section_run_rt emit_query query_at query_wf HDR
              (emit_query_rt HDR) (query_at_agree HDR) (query_at_grows HDR)
              [] 12%nat G0 Wq R1 Ho0 ltac:(now rewrite <- Ho0))
    as (G1 & P1 & A1 & _ & _).
  cbn [app] in A1. rewrite firstn_all in A1.
  assert (F1 : forall i, In i HDR -> (i < off s1)%nat).
  { intros i Hi. apply in_seq in Hi. pose proof (all_at_le query_at HDR (query_at_grows HDR) A1). lia. }
  destruct (rec_section_rt [] (off s1) G1 Wa R2 eq_refl F1) as (G2 & P2 & A2 & K2 & ->).
  destruct (rec_section_rt _ (off s1) G2 Wn R3 A2 F1) as (G3 & P3 & A3 & K3 & ->).
  destruct (rec_section_rt _ (off s1) G3 Wr R4 A3 F1) as (G4 & P4 & A4 & K4 & ->).
  destruct (rec_section_rt _ (off s1) G4 We R5 A4 F1) as (G5 & P5 & A5 & K5 & ->).
  destruct (rec_section_rt _ (off s1) G5 Ws R6 A5 F1) as (G6 & P6 & A6 & K6 & ->).
  cbn [app] in A6. rewrite <- !app_assoc in A6.
  pose proof (prefix_trans P2 (prefix_trans P3 (prefix_trans P4 (prefix_trans P5 P6)))) as P16.
  pose proof G6 as (Ho6 & _).
  apply (G_replace _ []) in ER as (_ & L' & Hag & Hsl); [|exact G6|].
  2:{ (* 11 is the last header position *)
      pose proof (G_off_le G1 G6 P16). specialize (F1 11%nat ltac:(apply in_seq; lia)). cbn. lia. }
  change (length (header_bytes _ _ _ _ _ _)) with 12%nat in Hag, Hsl. fold HDR in Hag.
  exists ka, kn, kr, ke, ks, (off s1). repeat split; auto.
  - cbv zeta. rewrite !negb_andb, !orb_assoc.
    unfold slice in Hsl. cbn [skipn] in Hsl. rewrite Nat.sub_0_r in Hsl. exact Hsl.
  - eapply all_at_agree; [exact (query_at_agree HDR)|exact (query_at_grows HDR)|exact A1| |].
    + intros i Hi. apply in_seq in Hi. lia.
    + eapply agree_trans; [exact (prefix_le P16)|apply agree_of_prefix; exact P16|exact Hag].
  - rewrite L', <- Ho6.
    eapply all_at_agree; [exact (rec_at_agree HDR)|exact (rec_at_grows HDR)|exact A6|exact F1|exact Hag].
Qed.

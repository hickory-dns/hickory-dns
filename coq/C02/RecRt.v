(* C02 — record level: what Record::emit (C03.Model.emit_rec) writes can be read back — owner name
   (through the compression table), TYPE/CLASS/TTL, RDLENGTH = actual length, every RDATA part
   (raw runs byte for byte, embedded names through Spec.Dec) — and stays readable under everything
   the encoder does later (appends, rollbacks above it, RDLENGTH / header back-patches). *)
From HV Require Import Lib.Base Lib.ListX C03.Model C03.Inv C02.Spec C02.Model C02.NameRt C02.EmitName.
Open Scope N_scope.

Fixpoint parts_at (buf : list byte) (pos : nat) (ps : list part) (e : nat) (F : list nat) : Prop :=
  match ps with
  | [] => e = pos
  | PBytes b :: ps' =>
      slice buf pos (pos + length b) = b /\
      parts_at buf (pos + length b) ps' e F
  | PName m n :: ps' =>
      exists e1 sup, Dec buf pos pos (cased m n) e1 sup /\ (forall i, In i sup -> ~ In i F) /\
                     parts_at buf e1 ps' e F
  end.

Definition fixed_fields (r : rec) : list byte := be16 (rtype r) ++ be16 (rclass r) ++ be32 (rttl r).

Definition rec_at (buf : list byte) (pos : nat) (r : rec) (e : nat) (F : list nat) : Prop :=
  exists e1 sup1,
    Dec buf pos pos (rname r) e1 sup1 /\ (forall i, In i sup1 -> ~ In i F) /\
    slice buf e1 (e1 + 8) = fixed_fields r /\
    slice buf (e1 + 8) (e1 + 10) = be16 (N.of_nat (e - (e1 + 10))) /\
    parts_at buf (e1 + 10) (rparts r) e F.

Definition part_wf (p : part) : Prop :=
  match p with PName m n => wf_name (cased m n) | PBytes _ => True end.
Definition rec_wf (r : rec) : Prop := wf_name (rname r) /\ Forall part_wf (rparts r).

Definition agree (n : nat) (F : list nat) (buf buf' : list byte) : Prop :=
  forall i, (i < n)%nat -> ~ In i F -> nth_error buf' i = nth_error buf i.

Lemma agree_refl n F buf : agree n F buf buf.
Proof. intros i _ _. reflexivity. Qed.

Lemma agree_trans n n' F b1 b2 b3 : (n <= n')%nat ->
  agree n F b1 b2 -> agree n' F b2 b3 -> agree n F b1 b3.
Proof. intros Hn H1 H2 i Hi HF. rewrite H2 by (try lia; exact HF). apply H1; assumption. Qed.

Lemma agree_weaken n F F' b b' : (forall i, In i F -> In i F') -> agree n F b b' -> agree n F' b b'.
Proof. intros H Hag i Hi Hn. apply Hag; [exact Hi|]. intros Hin. apply Hn, H, Hin. Qed.

Lemma agree_of_prefix B0 buf' F : firstn (length B0) buf' = B0 -> agree (length B0) F B0 buf'.
Proof. intros Hp i Hi _. apply prefix_nth; assumption. Qed.

Lemma agree_firstn {n F b b'} :
  agree (length b) F b b' -> (n <= length b)%nat -> (forall i, In i F -> (n <= i)%nat) ->
  firstn n b' = firstn n b.
Proof.
  intros Hag Hn HF. apply list_eq_nth_error. intros i. rewrite !nth_error_firstn.
  destruct (Nat.ltb_spec i n) as [Hi|]; [|reflexivity].
  apply Hag; [lia|]. intros Hin. apply HF in Hin. lia.
Qed.

Lemma Dec_agree_below buf buf' F pos bound ls e sup :
  Dec buf pos bound ls e sup -> (forall i, In i sup -> ~ In i F) ->
  agree (length buf) F buf buf' -> Dec buf' pos bound ls e sup.
Proof.
  intros HD Hav Hag. eapply Dec_agree; [exact HD|]. intros i Hi.
  apply Hag; [eapply Dec_sup_lt; eassumption|apply Hav; exact Hi].
Qed.

Lemma slice_stable buf buf' F s e x :
  slice buf s e = x -> length x = (e - s)%nat -> (forall i, In i F -> (i < s)%nat) ->
  agree (length buf) F buf buf' -> slice buf' s e = x.
Proof.
  intros Hs Hl HF Hag. rewrite <- Hs. apply slice_agree. intros i Hi. apply Hag.
  - (* that the run has the full length e - s is what places it inside [buf] *)
    rewrite <- Hs in Hl. unfold slice in Hl. rewrite firstn_length, skipn_length in Hl. lia.
  - intros Hin. apply HF in Hin. lia.
Qed.

Lemma parts_at_agree buf buf' F : forall ps pos e,
  parts_at buf pos ps e F -> (forall i, In i F -> (i < pos)%nat) ->
  agree (length buf) F buf buf' -> parts_at buf' pos ps e F.
Proof.
  induction ps as [|p ps IH]; intros pos e H HF Hag; cbn [parts_at] in *; [exact H|].
  destruct p as [b|m n].
  - destruct H as (Hs & Hr). split; [eapply slice_stable; [exact Hs|lia|exact HF|exact Hag]|].
    apply IH; [exact Hr| |exact Hag]. intros i Hi. specialize (HF i Hi). lia.
  - destruct H as (e1 & sup & HD & Hav & Hr). exists e1, sup. split; [|split; [exact Hav|]].
    + eapply Dec_agree_below; eassumption.
    + apply IH; [exact Hr| |exact Hag]. intros i Hi. specialize (HF i Hi).
      pose proof (Dec_pos_lt HD). lia.
Qed.

Lemma rec_at_agree F buf buf' pos r e :
  rec_at buf pos r e F -> (forall i, In i F -> (i < pos)%nat) ->
  agree (length buf) F buf buf' -> rec_at buf' pos r e F.
Proof.
  intros (e1 & sup1 & HD & Hav & Hf & Hl & Hp) HF Hag.
  pose proof (Dec_pos_lt HD) as Hlt.
  assert (HF1 : forall p, (e1 <= p)%nat -> forall i, In i F -> (i < p)%nat).
  { intros p Hp1 i Hi. specialize (HF i Hi). lia. }
  exists e1, sup1. split; [eapply Dec_agree_below; eassumption|]. split; [exact Hav|].
  split; [eapply slice_stable; [exact Hf|cbn; lia|apply HF1; lia|exact Hag]|].
  split; [eapply slice_stable; [exact Hl|cbn; lia|apply HF1; lia|exact Hag]|].
  eapply parts_at_agree; [exact Hp|apply HF1; lia|exact Hag].
Qed.

Lemma parts_at_le F buf : forall ps pos e, parts_at buf pos ps e F -> (pos <= e)%nat.
Proof.
  induction ps as [|[b|m n] ps IH]; intros pos e H; cbn [parts_at] in H; [lia| |].
  - destruct H as (_ & H). apply IH in H. lia.
  - destruct H as (e2 & sup & HD & _ & H). apply Dec_pos_lt in HD. apply IH in H. lia.
Qed.

Lemma rec_at_grows F buf pos r e : rec_at buf pos r e F -> (pos < e)%nat.
Proof.
  intros (e1 & sup1 & HD & _ & _ & _ & Hp). apply Dec_pos_lt in HD. apply parts_at_le in Hp. lia.
Qed.

Lemma parts_at_weaken buf F extra : forall ps pos e,
  parts_at buf pos ps e (F ++ extra) -> parts_at buf pos ps e F.
Proof.
  induction ps as [|p ps IH]; intros pos e H; cbn [parts_at] in *; [exact H|].
  destruct p as [b|m n].
  - destruct H as (A & C). split; auto.
  - destruct H as (e1 & sup & HD & Hav & Hr). exists e1, sup. repeat split; auto.
    intros i Hi Hin. apply (Hav i Hi). apply in_or_app. left; exact Hin.
Qed.

(* a state between two writes; [F]: the positions still waiting for their back-patch *)
Definition G (st : enc) (F : list nat) : Prop :=
  off st = length (buf st) /\ Forall (fun c => (fst c < off st)%nat) (ptrs st) /\ PtrInv st F /\
  (forall i, In i F -> (i < off st)%nat) /\ (off st <= maxsz st)%nat.

Lemma G_wfb {st F} : G st F -> wfb st.
Proof. intros (Hend & Hlt & _ & _ & Hfit). unfold wfb. auto. Qed.

Lemma G_new L : G (enc_new L) [].
Proof. unfold G, enc_new, PtrInv; cbn. repeat split; try constructor; lia. Qed.

Lemma G_off_le {st F st' F'} :
  G st F -> G st' F' -> firstn (length (buf st)) (buf st') = buf st -> (off st <= off st')%nat.
Proof. intros (-> & _) (-> & _). apply prefix_le. Qed.

Lemma cand_ok_agree B B' F c : cand_ok B F c -> agree (length B) F B B' -> cand_ok B' F c.
Proof.
  intros Hc Hag. apply (cand_ok_transfer Hc). intros ls e sup HD Hav.
  split; [eapply Dec_agree_below; eassumption|exact Hav].
Qed.

Lemma PtrInv_extend st F extra :
  PtrInv st F -> (forall i, In i extra -> (length (buf st) <= i)%nat) -> PtrInv st (F ++ extra).
Proof.
  unfold PtrInv. intros H He. eapply Forall_impl; [|exact H].
  intros c Hc. apply (cand_ok_transfer Hc). intros ls e sup HD Hav.
  split; [exact HD|]. intros i Hi Hin. apply in_app_or in Hin.
  destruct Hin as [Hin|Hin]; [exact (Hav i Hi Hin)|].
  pose proof (Dec_sup_lt HD i Hi). specialize (He i Hin). lia.
Qed.

Lemma PtrInv_weaken st F extra : PtrInv st (F ++ extra) -> PtrInv st F.
Proof.
  unfold PtrInv. intros H. eapply Forall_impl; [|exact H].
  intros c Hc. apply (cand_ok_transfer Hc). intros ls e sup HD Hav.
  split; [exact HD|]. intros i Hi Hin. apply (Hav i Hi). apply in_or_app. left; exact Hin.
Qed.

Lemma G_append st F d extra :
  G st F -> (off st + length d <= maxsz st)%nat ->
  (forall i, In i extra -> (off st <= i < off st + length d)%nat) ->
  G (appended st d) (F ++ extra).
Proof.
  intros (Ho & Hlt & HPI & HF & Hmx) Hd He. unfold G, PtrInv, appended; cbn [buf off ptrs maxsz]. repeat split.
  - rewrite Ho, app_length. reflexivity.
  - eapply Forall_impl; [|exact Hlt]. cbn. intros; lia.
  - apply (PtrInv_extend st F extra) in HPI; [|intros i Hi; apply He in Hi; lia].
    eapply Forall_impl; [|exact HPI]. intros c Hc. eapply cand_ok_prefix; [exact Hc|apply firstn_app_length].
  - intros i Hi. apply in_app_or in Hi as [Hi|Hi]; [apply HF in Hi|apply He in Hi]; lia.
  - exact Hd.
Qed.

Lemma G_emit_slice st F d st' :
  G st F -> emit_slice d st = Ok st' -> G st' F /\ buf st' = buf st ++ d.
Proof.
  intros HG E. apply emit_slice_appends in E as [-> Hfit]; [|apply HG].
  split; [|reflexivity]. rewrite <- (app_nil_r F). apply G_append; [exact HG|exact Hfit|intros i []].
Qed.

Lemma G_place st F n pl st' :
  G st F -> place n st = Ok (pl, st') ->
  pl = off st /\ G st' (F ++ seq pl n) /\ buf st' = buf st ++ repeat 0 n.
Proof.
  intros HG E. rewrite place_eq in E by apply HG.
  destruct (Nat.ltb_spec (maxsz st) (off st + n)); [discriminate|]. injection E as <- <-.
  split; [reflexivity|]. split; [|reflexivity].
  apply G_append; [exact HG|now rewrite repeat_length|].
  intros i Hi. apply in_seq in Hi. now rewrite repeat_length.
Qed.

Lemma G_emit_name st F m n st' :
  G st F -> wf_name (cased m n) -> emit_name m n st = Ok st' ->
  G st' F /\ firstn (length (buf st)) (buf st') = buf st /\
  exists sup, Dec (buf st') (off st) (off st) (cased m n) (off st') sup /\ (forall i, In i sup -> ~ In i F).
Proof.
  intros HG Hwf E. pose proof HG as (Ho & Hlt & HPI & HF & Hmx).
  destruct (emit_name_rt st F m n st' Ho Hlt HPI HF Hwf E) as ((sup & HD & Hav) & HPI' & Ho' & Hlt').
  pose proof (G_wfb HG) as Hw.
  pose proof (rinv_ok_off _ _ _ _ (emit_name_inv st st m n (inv_refl _ Hw) Hw) E) as Hi.
  destruct Hi as (_ & Hfit' & _ & Hge & Hbuf & _).
  split; [|split; [rewrite <- Ho; exact Hbuf|exists sup; split; assumption]].
  unfold G. repeat split; auto. intros i Hi. specialize (HF i Hi). lia.
Qed.

Lemma emit_parts_rt F : forall ps st st',
  G st F -> Forall part_wf ps -> emit_parts ps st = Ok st' ->
  G st' F /\ firstn (length (buf st)) (buf st') = buf st /\
  parts_at (buf st') (off st) ps (off st') F.
Proof.
  induction ps as [|p ps IH]; intros st st' HG Hwf E; cbn [emit_parts] in E.
  - inversion E; subst. split; [exact HG|]. split; [apply firstn_all|reflexivity].
  - inversion Hwf as [|? ? Hw1 Hw2]; subst. pose proof HG as (Ho & _).
    destruct p as [b|m n]; apply bind_ok in E as (s1 & E1 & E).
    + apply (G_emit_slice _ F) in E1 as (HG1 & Hb1); [|exact HG].
      destruct (IH s1 st' HG1 Hw2 E) as (HG' & Hp' & Hpa). pose proof HG1 as (Ho1 & _).
      split; [exact HG'|]. split; [eapply prefix_trans; [|exact Hp']; rewrite Hb1; apply firstn_app_length|].
      cbn [parts_at]. rewrite Ho1, Hb1, app_length, <- Ho in Hpa. split; [|exact Hpa].
      rewrite Ho. apply slice_of_prefix. now rewrite <- Hb1.
    + apply (G_emit_name _ F) in E1 as (HG1 & Hp1 & sup & HD & Hav); [|exact HG|exact Hw1].
      destruct (IH s1 st' HG1 Hw2 E) as (HG' & Hp' & Hpa).
      split; [exact HG'|]. split; [eapply prefix_trans; eassumption|].
      cbn [parts_at]. exists (off s1), sup. split; [|split; [exact Hav|exact Hpa]].
      eapply Dec_prefix; eassumption.
Qed.

Lemma replace_agree st pl d st' :
  replace pl d st = Ok st' -> (pl + length d <= length (buf st))%nat ->
  length (buf st') = length (buf st) /\ off st' = off st /\ ptrs st' = ptrs st /\ maxsz st' = maxsz st /\
  agree (length (buf st)) (seq pl (length d)) (buf st) (buf st') /\
  slice (buf st') pl (pl + length d) = d.
Proof.
  unfold replace. destruct (_ <? _)%nat; [discriminate|]. intros E Hl. inversion E; subst.
  cbn [set_buf buf off ptrs maxsz]. split; [apply buf_write_length; exact Hl|]. unfold buf_write.
  assert (Hpl : length (firstn pl (buf st)) = pl) by (rewrite firstn_length; lia).
  repeat split; auto.
  - intros i Hi Hni. rewrite in_seq in Hni.
    destruct (Nat.lt_ge_cases i pl) as [Hc|Hc].
    + rewrite nth_error_app1, nth_error_firstn by lia. destruct (Nat.ltb_spec i pl); [reflexivity|lia].
    + rewrite !nth_error_app2, nth_error_skipn by lia. f_equal. lia.
  - pose proof (slice_app_mid (firstn pl (buf st)) d (skipn (pl + length d) (buf st))) as H.
    rewrite Hpl in H. exact H.
Qed.

Lemma G_replace st F pl d st' :
  G st (F ++ seq pl (length d)) -> replace pl d st = Ok st' -> (pl + length d <= off st)%nat ->
  G st' F /\ length (buf st') = length (buf st) /\
  agree (length (buf st)) (seq pl (length d)) (buf st) (buf st') /\
  slice (buf st') pl (pl + length d) = d.
Proof.
  intros (Ho & Hlt & HPI & HF & Hmx) E Hl. rewrite Ho in Hl.
  destruct (replace_agree st pl d st' E Hl) as (HL' & Ho' & Hp' & Hm' & Hag & Hsl).
  split; [|auto]. unfold G. rewrite Ho', Hp', Hm', HL'. repeat split; auto.
  - apply PtrInv_weaken with (extra := seq pl (length d)). unfold PtrInv. rewrite Hp'.
    eapply Forall_impl; [|exact HPI]. intros c Hc. eapply cand_ok_agree; [exact Hc|].
    eapply agree_weaken; [|exact Hag]. intros; now apply in_or_app; right.
  - intros i Hi. apply HF, in_or_app. left; exact Hi.
Qed.

Lemma emit_rdata_rt F ps st st' :
  G st F -> Forall part_wf ps -> emit_rdata ps st = Ok st' ->
  G st' F /\ firstn (length (buf st)) (buf st') = buf st /\
  slice (buf st') (off st) (off st + 2) = be16 (N.of_nat (off st' - (off st + 2))) /\
  parts_at (buf st') (off st + 2) ps (off st') F.
Proof.
  intros HG Hwp E. pose proof HG as (Ho & _). unfold emit_rdata in E.
  apply bind_ok in E as ([pl s1] & E1 & E). apply (G_place _ F) in E1 as (-> & G1 & B1); [|exact HG].
  (* the two reserved positions are exempt from here to the patch only *)
  apply bind_ok in E as (s2 & E2 & E). apply (emit_parts_rt _ _ _ _ G1 Hwp) in E2 as (G2 & P2 & A2).
  pose proof (G_off_le G1 G2 P2) as L12.
  pose proof G1 as (Ho1 & _ & _ & F1 & _). pose proof G2 as (Ho2 & _).
  assert (Ho10 : off s1 = (off st + 2)%nat) by (rewrite Ho1, B1, app_length, <- Ho; reflexivity).
  apply (G_replace _ F) in E as (G' & L' & Hag & Hsl); [|exact G2|cbn [be16 length]; lia].
  cbn [be16 length] in Hag, Hsl.
  assert (Ho' : off st' = off s2) by (destruct G' as (-> & _); congruence).
  rewrite Ho', <- Ho10. split; [exact G'|]. split; [|split].
  - (* the patch lies above what was there before *)
    rewrite <- Ho, (agree_firstn Hag), Ho; [|lia|intros i Hi; apply in_seq in Hi; lia].
    eapply prefix_trans; [|exact P2]. rewrite B1. apply firstn_app_length.
  - rewrite Ho10, Hsl. do 2 f_equal. lia.
  - apply parts_at_weaken with (extra := seq (off st) 2).
    eapply parts_at_agree; [exact A2|exact F1|]. eapply agree_weaken; [|exact Hag].
    intros; now apply in_or_app; right.
Qed.

Theorem emit_rec_rt F r st st' :
  G st F -> rec_wf r -> emit_rec r st = Ok st' ->
  G st' F /\ firstn (length (buf st)) (buf st') = buf st /\
  rec_at (buf st') (off st) r (off st') F.
Proof.
  intros HG (Hwn & Hwp) E. rewrite emit_rec_parts in E. apply bind_ok in E as (s4 & E' & E).
  apply (emit_parts_rt F) in E' as (G4 & P4 & A4); [|exact HG|repeat constructor; exact Hwn].
  apply (emit_rdata_rt F _ _ _ G4 Hwp) in E as (G' & P' & Hl & Hp).
  (* the front was read in [buf s4]; the RDATA block only appends to that *)
  eapply parts_at_agree in A4; [|apply HG|apply agree_of_prefix; exact P'].
  destruct A4 as (e1 & sup1 & D1 & A1 & S1 & S2 & S3 & He). cbn [parts_at be16 be32 length] in S1, S2, S3, He.
  replace (off s4) with (e1 + 8)%nat in * by lia. rewrite <- Nat.add_assoc in Hl, Hp. cbn [plus] in Hl, Hp.
  split; [exact G'|]. split; [eapply prefix_trans; eassumption|].
  exists e1, sup1. repeat split; auto.
  unfold fixed_fields. rewrite <- S1, <- S2, <- S3, <- !slice_app by lia. f_equal. lia.
Qed.

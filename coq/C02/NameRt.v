(* C02 — list facts about nth_error, prefixes and slices, then what the encoder proofs need of
   Spec.Dec and flat: a decoding depends only on the positions in its support, so it survives
   writes elsewhere and any extension of the buffer; flat is injective; a run of labels decodes in
   front of whatever decodes behind it (root byte, pointer). *)
From HV Require Import Lib.Base Lib.ListX C03.Model C03.Inv C02.Spec.
Open Scope N_scope.

Lemma list_eq_nth_error {A} (l l' : list A) :
  (forall i, nth_error l i = nth_error l' i) -> l = l'.
Proof.
  revert l'; induction l as [|x l IH]; intros [|y l'] H.
  - reflexivity.
  - specialize (H O); discriminate.
  - specialize (H O); discriminate.
  - pose proof (H O) as H0; cbn in H0. inversion H0; subst. f_equal.
    apply IH. intros i. exact (H (S i)).
Qed.

Lemma nth_error_skipn {A} (l : list A) n i : nth_error (skipn n l) i = nth_error l (n + i).
Proof.
  revert l; induction n as [|n IH]; intros l; cbn [skipn plus]; [reflexivity|].
  destruct l as [|x l]; [now destruct i|]. cbn [nth_error]. apply IH.
Qed.

Lemma nth_error_firstn {A} (l : list A) n i :
  nth_error (firstn n l) i = if (i <? n)%nat then nth_error l i else None.
Proof.
  revert l i; induction n as [|n IH]; intros l i; cbn [firstn].
  - now destruct i.
  - destruct l as [|x l]; [destruct i; cbn [nth_error]; now destruct (Nat.ltb _ _)|].
    destruct i as [|i]; cbn [nth_error]; [reflexivity|]. rewrite IH.
    change (S i <? S n)%nat with (i <? n)%nat. reflexivity.
Qed.

Lemma nth_error_slice buf s e i :
  nth_error (slice buf s e) i = if (i <? e - s)%nat then nth_error buf (s + i) else None.
Proof. unfold slice. rewrite nth_error_firstn, nth_error_skipn. reflexivity. Qed.

Lemma slice_agree buf buf' s e :
  (forall i, (s <= i < e)%nat -> nth_error buf' i = nth_error buf i) ->
  slice buf' s e = slice buf s e.
Proof. intros H. apply firstn_skipn_ext. intros i Hi. apply H. lia. Qed.

(* [firstn (length a) b = a] is the form in which "what was written so far is not touched again"
   is carried from one encoder step to the next. *)
Lemma prefix_le {A} {a b : list A} : firstn (length a) b = a -> (length a <= length b)%nat.
Proof. intros H. apply (f_equal (@length _)) in H. rewrite firstn_length in H. lia. Qed.

Lemma prefix_trans {A} {a b c : list A} :
  firstn (length a) b = a -> firstn (length b) c = b -> firstn (length a) c = a.
Proof.
  intros H1 H2. pose proof (prefix_le H1). rewrite <- H2 in H1. rewrite firstn_firstn in H1.
  now rewrite Nat.min_l in H1 by assumption.
Qed.

Lemma prefix_nth {A} (a b : list A) i :
  firstn (length a) b = a -> (i < length a)%nat -> nth_error b i = nth_error a i.
Proof.
  intros H Hi. rewrite <- H at 1. rewrite nth_error_firstn.
  now destruct (Nat.ltb_spec i (length a)); [|lia].
Qed.

Lemma slice_app_mid (pre x post : list byte) :
  slice (pre ++ x ++ post) (length pre) (length pre + length x) = x.
Proof.
  unfold slice. rewrite skipn_app, skipn_all, Nat.sub_diag. cbn [skipn app].
  replace (length pre + length x - length pre)%nat with (length x) by lia. apply firstn_app_length.
Qed.

Lemma slice_of_prefix (b x b' : list byte) :
  firstn (length (b ++ x)) b' = b ++ x -> slice b' (length b) (length b + length x) = x.
Proof. intros H. rewrite <- (firstn_skipn (length (b ++ x)) b'), H, <- app_assoc. apply slice_app_mid. Qed.

Lemma firstn_split {A} (l : list A) a b :
  (a <= b)%nat -> firstn b l = firstn a l ++ firstn (b - a) (skipn a l).
Proof. intros H. rewrite firstn_firstn_skipn. f_equal. lia. Qed.

Lemma skipn_split {A} (l : list A) a b :
  (a <= b)%nat -> skipn a l = firstn (b - a) (skipn a l) ++ skipn b l.
Proof.
  intros H. rewrite <- (firstn_skipn (b - a) (skipn a l)) at 1. f_equal.
  rewrite skipn_skipn_add. f_equal. lia.
Qed.

Lemma slice_app buf a b c : (a <= b <= c)%nat -> slice buf a c = slice buf a b ++ slice buf b c.
Proof.
  intros H. unfold slice. rewrite (firstn_split _ (b - a) (c - a)) by lia. rewrite skipn_skipn_add.
  f_equal. f_equal; [lia|]. f_equal. lia.
Qed.

Lemma Dec_sup_lt {buf pos bound ls e sup} :
  Dec buf pos bound ls e sup -> forall i, In i sup -> (i < length buf)%nat.
Proof.
  induction 1 as [pos bound H|pos bound l ls e sup Hw Hn Hs HD IH|pos bound b1 b2 tgt ls e' sup H1 Hb1 H2 Hb2 Ht Hlt HD IH];
    intros i Hi.
  - destruct Hi as [<-|[]]. apply nth_error_Some. congruence.
  - apply in_app_or in Hi. destruct Hi as [Hi|Hi]; [|now apply IH].
    apply in_seq in Hi.
    assert (Hlen : length (slice buf (S pos) (S pos + length l)) = length l) by now rewrite Hs.
    unfold slice in Hlen. rewrite firstn_length, skipn_length in Hlen. unfold wf_label in Hw. lia.
  - destruct Hi as [<-|[<-|Hi]]; [apply nth_error_Some; congruence|apply nth_error_Some; congruence|now apply IH].
Qed.

Lemma Dec_pos_in {buf pos bound ls e sup} : Dec buf pos bound ls e sup -> (pos < length buf)%nat.
Proof. destruct 1; apply nth_error_Some; congruence. Qed.

Lemma Dec_pos_lt {buf pos bound ls e sup} : Dec buf pos bound ls e sup -> (pos < e)%nat.
Proof. induction 1; lia. Qed.

Lemma Dec_agree buf buf' pos bound ls e sup :
  Dec buf pos bound ls e sup ->
  (forall i, In i sup -> nth_error buf' i = nth_error buf i) ->
  Dec buf' pos bound ls e sup.
Proof.
  induction 1 as [pos bound H|pos bound l ls e sup Hw Hn Hs HD IH|pos bound b1 b2 tgt ls e' sup H1 Hb1 H2 Hb2 Ht Hlt HD IH];
    intros Hag.
  - constructor. rewrite Hag by (left; reflexivity). exact H.
  - constructor; [exact Hw| | |].
    + rewrite Hag; [exact Hn|]. apply in_or_app; left. apply in_seq. lia.
    + rewrite <- Hs at 2. apply slice_agree. intros i Hi. apply Hag.
      apply in_or_app; left. apply in_seq. lia.
    + apply IH. intros i Hi. apply Hag. apply in_or_app; right; exact Hi.
  - econstructor; try eassumption.
    + rewrite Hag by (left; reflexivity). exact H1.
    + rewrite Hag by (right; left; reflexivity). exact H2.
    + apply IH. intros i Hi. apply Hag. right; right; exact Hi.
Qed.

Lemma Dec_prefix B0 buf' pos bound ls e sup :
  Dec B0 pos bound ls e sup -> firstn (length B0) buf' = B0 -> Dec buf' pos bound ls e sup.
Proof.
  intros HD Hp. eapply Dec_agree; [exact HD|]. intros i Hi.
  apply prefix_nth; [exact Hp|]. eapply Dec_sup_lt; eassumption.
Qed.

Lemma flat_cons l ls : flat (l :: ls) = (N.of_nat (length l) :: l) ++ flat ls.
Proof. reflexivity. Qed.

Lemma flat_app a b : flat (a ++ b) = flat a ++ flat b.
Proof. unfold flat. now rewrite map_app, concat_app. Qed.

Lemma flat_length_pos ls : ls <> [] -> (0 < length (flat ls))%nat.
Proof. destruct ls; [congruence|]. intros _. rewrite flat_cons. cbn [app length]. lia. Qed.

Lemma flat_inj a b : flat a = flat b -> a = b.
Proof.
  revert b; induction a as [|x a IH]; intros [|y b] E.
  - reflexivity.
  - rewrite flat_cons in E. discriminate.
  - rewrite flat_cons in E. discriminate.
  - rewrite !flat_cons in E. inversion E as [[E1 E2]]. apply Nat2N.inj in E1.
    (* equal length bytes first, so the labels are the same initial segment of the same list *)
    assert (x = y) as ->.
    { pose proof (f_equal (firstn (length x)) E2) as Ex. now rewrite firstn_app_length, E1, firstn_app_length in Ex. }
    apply app_inv_head in E2. f_equal. apply IH. exact E2.
Qed.

Fixpoint label_starts (o : nat) (ls : name) : list nat :=
  match ls with
  | [] => []
  | l :: ls' => o :: label_starts (o + S (length l)) ls'
  end.

Lemma label_starts_nth o ls j :
  (j < length ls)%nat -> nth_error (label_starts o ls) j = Some (o + length (flat (firstn j ls)))%nat.
Proof.
  revert o j; induction ls as [|l ls IH]; intros o j Hj; cbn [length] in Hj; [lia|].
  destruct j as [|j]; cbn [label_starts nth_error firstn].
  - cbn. f_equal. lia.
  - rewrite IH by lia. rewrite flat_cons, !app_length. cbn [length]. now rewrite Nat.add_assoc.
Qed.

Lemma Dec_label_step pre l rest bound ls e sup :
  wf_label l ->
  Dec (pre ++ (N.of_nat (length l) :: l) ++ rest) (length pre + S (length l)) bound ls e sup ->
  Dec (pre ++ (N.of_nat (length l) :: l) ++ rest) (length pre) bound (l :: ls) e
      (seq (length pre) (S (length l)) ++ sup).
Proof.
  intros Hl HD. constructor; [exact Hl| | |].
  - cbn [app]. apply nth_error_app_mid.
  - cbn [app]. change (pre ++ N.of_nat (length l) :: l ++ rest)
      with (pre ++ [N.of_nat (length l)] ++ l ++ rest).
    rewrite app_assoc.
    replace (S (length pre)) with (length (pre ++ [N.of_nat (length l)])) by (rewrite app_length; cbn; lia).
    apply slice_app_mid.
  - replace (S (length pre) + length l)%nat with (length pre + S (length l))%nat by lia. exact HD.
Qed.

Lemma Dec_flat_then ls : forall pre rest bound ls2 e sup2,
  wf_name ls ->
  Dec (pre ++ flat ls ++ rest) (length pre + length (flat ls)) bound ls2 e sup2 ->
  exists sup, Dec (pre ++ flat ls ++ rest) (length pre) bound (ls ++ ls2) e sup /\
              forall i, In i sup -> (length pre <= i)%nat \/ In i sup2.
Proof.
  induction ls as [|l ls IH]; intros pre rest bound ls2 e sup2 Hw HD.
  - cbn [flat map concat app length] in *. rewrite Nat.add_0_r in HD. exists sup2. auto.
  - apply Forall_cons_iff in Hw as [Hl Hls]. rewrite flat_cons, <- app_assoc in *.
    destruct (IH (pre ++ N.of_nat (length l) :: l) rest bound ls2 e sup2 Hls) as (sup & HD' & Hsup).
    { rewrite <- app_assoc, !app_length in *. now rewrite Nat.add_assoc in HD. }
    rewrite <- app_assoc in HD'. rewrite app_length in HD', Hsup. cbn [length] in HD', Hsup.
    exists (seq (length pre) (S (length l)) ++ sup). split; [apply Dec_label_step; assumption|].
    intros i Hi. apply in_app_or in Hi as [Hi|Hi]; [apply in_seq in Hi; left; lia|].
    destruct (Hsup i Hi); [left; lia|right; assumption].
Qed.

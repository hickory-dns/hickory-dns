(* C04 — wire form of a single name: uncompressed emit, then read at any offset of any
   surrounding buffer, returns the same labels (octets and case untouched). *)
From HV Require Import Lib.Base Lib.ListX C04.Model C04.LimitProofs.
Open Scope N_scope.

Fixpoint enc_labels (ls : list label) : list N :=
  match ls with
  | [] => []
  | l :: t => N.of_nat (length l) :: l ++ enc_labels t
  end.

Lemma emit_labels_ok ls : Forall label_ok ls -> emit_labels ls = Ok (enc_labels ls).
Proof.
  induction 1 as [|l ls Hl _ IH]; cbn [emit_labels enc_labels]; [reflexivity|].
  unfold label_ok in Hl. destruct (Nat.ltb_spec 63 (length l)); [lia|]. now rewrite IH.
Qed.

Lemma enc_labels_length ls : length (enc_labels ls) = wl ls.
Proof.
  induction ls as [|l ls IH]; cbn [enc_labels length]; [reflexivity|].
  rewrite wl_cons, app_length, IH. lia.
Qed.

Lemma emit_name_ok n : wf n -> emit_name false n = Ok (enc_labels (labels n) ++ [0]).
Proof.
  intros [H1 H2]. unfold emit_name. rewrite (emit_labels_ok _ H1).
  rewrite app_length, enc_labels_length. cbn [length]. rewrite wire_len_wl in H2.
  destruct (Nat.ltb_spec 255 (wl (labels n) + 1)); [lia|reflexivity].
Qed.

(* two turns of the decoder loop, no pointer seen so far: a length octet and its label,
   or the root octet *)
Lemma read_label_noptr f buf idx ns nm b :
  nth_error buf idx = Some b -> b <> 0 ->
  (N.to_nat b <= 63)%nat -> (N.to_nat b <= length buf - (idx + 1))%nat ->
  read_loop (S (S f)) buf RLen idx ns None None nm =
  match extend_name nm (firstn (N.to_nat b) (skipn (idx + 1) buf)) with
  | Ok nm' => read_loop f buf RLen (idx + 1 + N.to_nat b) ns None None nm'
  | _ => Err
  end.
Proof.
  intros Hnth Hb0 H63 Hlen. cbn [read_loop]. rewrite Hnth.
  apply N.eqb_neq in Hb0. rewrite Hb0, (N.div_small b 64) by lia.
  apply Nat.ltb_ge in H63, Hlen. rewrite H63, Hlen. reflexivity.
Qed.

Lemma read_root_noptr f buf idx ns nm :
  nth_error buf idx = Some 0 -> (name_len nm < 255)%nat ->
  read_loop (S (S f)) buf RLen idx ns None None nm = Ok (set_fqdn nm true, (idx + 1)%nat).
Proof.
  intros Hnth Hl. cbn [read_loop]. rewrite Hnth, N.eqb_refl.
  change (name_len (set_fqdn nm true)) with (name_len nm). apply Nat.leb_gt in Hl. now rewrite Hl.
Qed.

(* Name::len counts a length octet per label, and the root octet only for the empty name *)
Lemma name_len_wl n : name_len n = Nat.max 1 (wl (labels n)).
Proof. unfold name_len. rewrite wl_concat. destruct (labels n); cbn [length concat]; lia. Qed.

Lemma name_len_le fq ls : (name_len (mkName fq ls) <= wl ls + 1)%nat.
Proof. rewrite name_len_wl. cbn [labels]. lia. Qed.

Lemma skipn_cons_inv {A} i (l : list A) x t :
  skipn i l = x :: t -> nth_error l i = Some x /\ skipn (i + 1) l = t.
Proof.
  rewrite Nat.add_1_r. revert l; induction i as [|i IH]; intros [|a l] H; try discriminate.
  - now inversion H.
  - now apply IH.
Qed.

Lemma skipn_app_inv {A} (a t l : list A) : forall i, skipn i l = a ++ t -> skipn (i + length a) l = t.
Proof.
  induction a as [|x a IH]; intros i H; cbn [length].
  - now rewrite Nat.add_0_r.
  - apply skipn_cons_inv in H as [_ H]. rewrite <- Nat.add_succ_comm, <- Nat.add_1_r. now apply IH.
Qed.

Lemma read_labels_loop rest : forall done buf idx suf fq fuel ns,
  skipn idx buf = enc_labels rest ++ 0 :: suf ->
  Forall label_ok rest ->
  (wl done + wl rest + 1 <= 255)%nat ->
  (2 * length rest + 2 <= fuel)%nat ->
  read_loop fuel buf RLen idx ns None None (mkName fq done)
  = Ok (mkName true (done ++ rest), (idx + wl rest + 1)%nat).
Proof.
  (* fuel: two turns per label (RLen, RLabel), two for the root (RLen, RRoot);
     in both cases the octet at idx is known *)
  induction rest as [|l rest IH]; intros done buf idx suf fq fuel ns Hbuf Hok Hlen Hfuel.
  all: cbn [enc_labels app] in Hbuf; apply skipn_cons_inv in Hbuf as [Hnth Hbuf].
  all: cbn [length] in Hfuel; destruct fuel as [|[|f]]; [lia..|].
  - change (wl []) with O in *.
    rewrite (read_root_noptr _ _ _ _ _ Hnth) by (rewrite name_len_wl; cbn [labels]; lia).
    cbn [set_fqdn labels]. rewrite app_nil_r. do 2 f_equal. lia.
  - apply Forall_cons_iff in Hok as [Hl Hrest]. unfold label_ok in Hl.
    rewrite wl_cons in Hlen. rewrite <- app_assoc in Hbuf.
    rewrite (read_label_noptr _ _ _ _ _ _ Hnth), Nat2N.id; [|lia|lia|].
    + rewrite Hbuf, firstn_app_length, extend_name_spec, wire_len_wl. cbn [labels fqdn].
      destruct (Nat.leb_spec (wl done + 1 + length l + 1) 255); [|lia].
      rewrite (IH _ _ _ suf); [|now apply skipn_app_inv|exact Hrest|rewrite wl_app; cbn; lia|lia].
      rewrite <- app_assoc, wl_cons. do 2 f_equal. lia.
    + rewrite Nat2N.id, <- skipn_length, Hbuf, app_length. lia.
Qed.

Lemma emit_name_lowercase n : emit_name true n = emit_name false (to_lowercase n).
Proof. reflexivity. Qed.

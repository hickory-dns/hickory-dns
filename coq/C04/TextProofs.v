(* C04 — to_ascii followed by from_ascii: exact outcome for every name within limits. *)
From HV Require Import Lib.Base Lib.ListX C04.Model C04.LimitProofs.
From Coq Require Import ZifyBool.
Open Scope N_scope.

(* effect of a string that neither ends a label nor fails: pushed characters, final state *)
Fixpoint run_chars (s : list N) (st : pstate) : option (list N * pstate) :=
  match s with
  | [] => Some ([], st)
  | ch :: s' =>
      match char_step st ch with
      | APush c st' => match run_chars s' st' with
                       | Some (p, st'') => Some (c :: p, st'')
                       | None => None
                       end
      | AGo st' => run_chars s' st'
      | _ => None
      end
  end.

Lemma run_chars_parse s : forall st p st' rest nm lrev,
  run_chars s st = Some (p, st') ->
  parse_loop (s ++ rest) st nm lrev = parse_loop rest st' nm (rev p ++ lrev).
Proof.
  induction s as [|ch s IH]; intros st p st' rest nm lrev H; cbn [run_chars] in H; cbn [app parse_loop].
  - inversion H; subst. reflexivity.
  - destruct (char_step st ch) as [c st1|st1| |]; try discriminate.
    + destruct (run_chars s st1) as [[p1 st2]|] eqn:E; [|discriminate]. inversion H; subst.
      rewrite (IH _ _ _ rest nm (c :: lrev) E). cbn [rev]. now rewrite <- app_assoc.
    + now apply IH.
Qed.

Definition esc_ok (first : bool) (b : N) : bool :=
  match run_chars (escape_byte b first) PLabel with
  | Some ([c], PLabel) => c =? b
  | _ => false
  end.

Lemma esc_sweep first b : b < 256 -> esc_ok first b = true.
Proof.
  intros Hb.
  (* the position matters for '*' and '-' only: the other octets are swept once *)
  destruct (N.eqb_spec b 42) as [->|H42]; [now destruct first|].
  destruct (N.eqb_spec b 45) as [->|H45]; [now destruct first|].
  replace (esc_ok first b) with (esc_ok true b).
  - apply (sweep_spec _ 256 0); [now vm_compute|lia].
  - unfold esc_ok, escape_byte, is_safe_ascii. apply N.eqb_neq in H42, H45. now rewrite H42, H45.
Qed.

Lemma escape_byte_run b first : b < 256 ->
  run_chars (escape_byte b first) PLabel = Some ([b], PLabel).
Proof.
  intros E. apply (esc_sweep first) in E. unfold esc_ok in E.
  destruct (run_chars _ _) as [[[|c [|? ?]] []]|]; try discriminate.
  apply N.eqb_eq in E. now subst.
Qed.

Lemma escape_byte_parse b first rest nm lrev : b < 256 ->
  parse_loop (escape_byte b first ++ rest) PLabel nm lrev = parse_loop rest PLabel nm (b :: lrev).
Proof. intros H. now rewrite (run_chars_parse _ _ _ _ rest nm lrev (escape_byte_run b first H)). Qed.

Lemma escape_tail_parse t : forall rest nm lrev, Forall (fun b => b < 256) t ->
  parse_loop (flat_map (fun c => escape_byte c false) t ++ rest) PLabel nm lrev
  = parse_loop rest PLabel nm (rev t ++ lrev).
Proof.
  induction t as [|b t IH]; intros rest nm lrev H; cbn [flat_map rev app]; [reflexivity|].
  inversion H; subst. rewrite <- !app_assoc, escape_byte_parse, IH by assumption. reflexivity.
Qed.

Lemma write_ascii_parse l rest nm : Forall (fun b => b < 256) l ->
  parse_loop (write_ascii l ++ rest) PLabel nm [] = parse_loop rest PLabel nm (rev l).
Proof.
  destruct l as [|b t]; [reflexivity|]. intros H. inversion H; subst. cbn [write_ascii rev].
  now rewrite <- app_assoc, escape_byte_parse, escape_tail_parse by assumption.
Qed.

(* [hd 46 s <> 46]: s is neither empty nor begins with a dot, so from_ascii takes neither of its
   two shortcuts (the root ".", the empty string) *)
Lemma escape_byte_hd b f rest : hd 46 (escape_byte b f ++ rest) <> 46.
Proof.
  unfold escape_byte. destruct (is_safe_ascii b f true) eqn:E; [|destruct (_ && _); discriminate].
  cbn [app hd]. intros ->. destruct f; vm_compute in E; discriminate.
Qed.

Lemma to_ascii_hd fq l t : label_ok l -> hd 46 (to_ascii (mkName fq (l :: t))) <> 46.
Proof.
  destruct l as [|b l]; [unfold label_ok; cbn; lia|]. intros _. unfold to_ascii. cbn [labels write_ascii].
  rewrite <- !app_assoc. apply escape_byte_hd.
Qed.

(* what from_ascii does with the parser's final state *)
Definition finish (r : res (name * list N)) : res name :=
  match r with
  | Ok (nm, lrev) => match lrev with [] => Ok (set_fqdn nm true) | _ => push_text_label nm (rev lrev) end
  | Err => Err
  | Panic => Panic
  end.

Lemma from_ascii_finish s : hd 46 s <> 46 -> from_ascii s = finish (parse_loop s PLabel name_new []).
Proof.
  destruct s as [|c r]; cbn [hd]; [congruence|]. intros H. unfold from_ascii. cbn [list_eqb].
  apply N.eqb_neq in H. now rewrite H.
Qed.

Lemma parse_dot rest nm lrev :
  parse_loop (46 :: rest) PLabel nm lrev =
  match push_text_label nm (rev lrev) with
  | Ok nm' => parse_loop rest PLabel nm' []
  | Err => Err
  | Panic => Panic
  end.
Proof. reflexivity. Qed.

Fixpoint push_all (nm : name) (ls : list label) : res name :=
  match ls with
  | [] => Ok nm
  | l :: t => match push_text_label nm l with
              | Ok nm' => push_all nm' t
              | e => e
              end
  end.

(* the parser between two labels of a written name: l is complete in the buffer; its closing
   dot or the end of the text comes next, and either way l is pushed *)
Lemma parse_rest (fq : bool) t : forall l nm,
  Forall label_ok (l :: t) -> Forall (Forall (fun b => b < 256)) t ->
  finish (parse_loop (write_rest t ++ (if fq then [46] else [])) PLabel nm (rev l)) =
  match push_all nm (l :: t) with Ok nm' => Ok (if fq then set_fqdn nm' true else nm') | e => e end.
Proof.
  induction t as [|l' t IH]; intros l nm Hok Ho; cbn [write_rest app push_all].
  - destruct fq.
    + rewrite parse_dot. rewrite rev_involutive. now destruct (push_text_label nm l).
    + cbn [parse_loop finish]. destruct (rev l) eqn:E.
      * apply Forall_inv in Hok. unfold label_ok in Hok. rewrite <- rev_length, E in Hok. cbn in Hok. lia.
      * rewrite <- E, rev_involutive. now destruct (push_text_label nm l).
  - rewrite parse_dot, rev_involutive. destruct (push_text_label nm l) as [nm'| |]; try reflexivity.
    apply Forall_cons_iff in Ho as [Hl' Ho].
    rewrite <- app_assoc, write_ascii_parse by exact Hl'. apply IH; [now apply Forall_inv_tail in Hok|exact Ho].
Qed.

Lemma extend_name_not_panic nm l : extend_name nm l <> Panic.
Proof. unfold extend_name. destruct (_ <? _)%nat; discriminate. Qed.

Lemma extend_all_not_panic ls : forall nm, extend_all nm ls <> Panic.
Proof.
  induction ls as [|l ls IH]; intros nm; cbn [extend_all]; [discriminate|].
  destruct (extend_name nm l) eqn:E; [apply IH|discriminate|]. now apply extend_name_not_panic in E.
Qed.

Lemma push_all_spec ls : forall nm, Forall label_ok ls ->
  push_all nm ls = if forallb host_labelb ls then extend_all nm ls else Err.
Proof.
  induction ls as [|l ls IH]; intros nm H; cbn [push_all forallb extend_all]; [reflexivity|].
  inversion H as [|? ? Hl Hls]; subst.
  rewrite push_text_label_spec, (proj2 (Nat.leb_le _ _) (proj2 Hl)), andb_true_r.
  destruct (host_labelb l); cbn [andb]; [|reflexivity].
  destruct (extend_name nm l) as [nm'| |] eqn:E.
  - now apply IH.
  - now destruct (forallb host_labelb ls).
  - now apply extend_name_not_panic in E.
Qed.

Lemma push_all_new fq ls : wf (mkName fq ls) ->
  push_all name_new ls = if forallb host_labelb ls then Ok (mkName false ls) else Err.
Proof.
  intros [Hok Hlen]. rewrite push_all_spec by exact Hok. unfold name_new.
  rewrite extend_all_fresh. rewrite wire_len_wl in Hlen. cbn [labels] in Hlen. apply Nat.leb_le in Hlen. now rewrite Hlen.
Qed.

Lemma text_roundtrip_exact n : wf n -> octets n ->
  from_ascii (to_ascii n) = if forallb host_labelb (labels n) then Ok n else Err.
Proof.
  intros Hwf Hoct. destruct n as [fq [|l t]]; [now destruct fq|].
  pose proof (push_all_new fq _ Hwf) as Hp. destruct Hwf as [Hok _].
  apply Forall_cons_iff in Hoct as [Hl Hoct]. cbn [fqdn labels] in *.
  rewrite from_ascii_finish by apply to_ascii_hd, (Forall_inv Hok). unfold to_ascii. cbn [labels fqdn].
  rewrite <- !app_assoc, write_ascii_parse, parse_rest, Hp by assumption.
  destruct (forallb _ _); [|reflexivity]. now destruct fq.
Qed.

Lemma host_octetb_iff f b : host_octetb f b = true <-> host_octet f b.
Proof.
  unfold host_octetb, is_safe_ascii, is_alnum, is_digit, is_alpha, host_octet.
  (* lia reads the boolean tests through ZifyBool *)
  destruct (N.leb_spec 128 b) as [E1|_]; [split; [discriminate|lia]|].
  destruct (_ || _) eqn:E2; [split; [lia|reflexivity]|].
  destruct (N.eqb_spec b 45) as [->|E3]; [lia|].
  destruct (N.eqb_spec b 95) as [->|E4]; [split; [lia|reflexivity]|].
  destruct (N.eqb_spec b 42) as [->|E5]; [lia|].
  destruct (N.eqb_spec b 46) as [->|E6]; [split; [lia|reflexivity]|].
  split; [discriminate|lia].
Qed.

Lemma host_labelb_iff l : host_labelb l = true <-> host_label l.
Proof.
  destruct l as [|b t]; cbn [host_labelb host_label]; [split; [discriminate|tauto]|].
  now rewrite andb_true_iff, host_octetb_iff, (forallb_Forall _ _ _ (host_octetb_iff false)).
Qed.

Lemma host_style_forallb n : host_style n <-> forallb host_labelb (labels n) = true.
Proof. symmetry. apply forallb_Forall, host_labelb_iff. Qed.

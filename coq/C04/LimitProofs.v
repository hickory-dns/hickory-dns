(* C04 — length limits: every constructor/combinator keeps labels in 1..63 and the name
   within 255 octets; exact acceptance conditions; the flat u8 storage is faithful. *)
From HV Require Import Lib.Base Lib.ListX C04.Model.
Open Scope N_scope.

Definition wl (ls : list label) : nat := fold_right (fun l acc => (S (length l) + acc)%nat) O ls.

Lemma wl_cons l ls : wl (l :: ls) = (S (length l) + wl ls)%nat.
Proof. reflexivity. Qed.

Lemma wl_app a b : wl (a ++ b) = (wl a + wl b)%nat.
Proof. induction a as [|x a IH]; cbn [app]; [reflexivity|]. rewrite !wl_cons, IH. lia. Qed.

Lemma wl_concat ls : wl ls = (length ls + length (concat ls))%nat.
Proof.
  induction ls as [|l ls IH]; [reflexivity|].
  rewrite wl_cons, IH. cbn [concat length]. rewrite app_length. lia.
Qed.

Lemma wl_map_map (f : N -> N) ls : wl (map (map f) ls) = wl ls.
Proof.
  induction ls as [|x ls IH]; cbn [map]; [reflexivity|]. now rewrite !wl_cons, map_length, IH.
Qed.

Lemma wl_ge_len ls : Forall label_ok ls -> (2 * length ls <= wl ls)%nat.
Proof.
  induction 1 as [|l ls Hl _ IH]; [cbn; lia|]. rewrite wl_cons. unfold label_ok in Hl. cbn [length]. lia.
Qed.

Lemma wire_len_wl n : wire_len n = (wl (labels n) + 1)%nat.
Proof. reflexivity. Qed.

Lemma encoded_len_wire n : encoded_len n = wire_len n.
Proof. unfold encoded_len. rewrite wire_len_wl, wl_concat. reflexivity. Qed.

Lemma wf_set_fqdn n v : wf n -> wf (set_fqdn n v).
Proof. (* wf looks at the labels only *) exact (fun H => H). Qed.

Lemma wf_new : wf name_new.
Proof. split; [constructor|cbn; lia]. Qed.
Lemma wf_root : wf name_root.
Proof. exact wf_new. Qed.

Lemma wf_shorter fq ls a :
  wf a -> Forall label_ok ls -> (wl ls <= wl (labels a))%nat -> wf (mkName fq ls).
Proof.
  intros [_ H] Hls Hle. split; [exact Hls|]. refine (Nat.le_trans _ _ _ _ H).
  rewrite !wire_len_wl. cbn [labels]. lia.
Qed.

Lemma wf_skipn fq k a : wf a -> wf (mkName fq (skipn k (labels a))).
Proof.
  intros Ha. apply (wf_shorter _ _ a Ha); [apply Forall_skipn, Ha|].
  rewrite <- (firstn_skipn k (labels a)) at 2. rewrite wl_app. lia.
Qed.

Lemma name_eta n : mkName (fqdn n) (labels n) = n.
Proof. destruct n; reflexivity. Qed.

Lemma extend_name_spec n l :
  extend_name n l =
  if (wire_len n + length l + 1 <=? 255)%nat then Ok (mkName (fqdn n) (labels n ++ [l])) else Err.
Proof.
  unfold extend_name. rewrite encoded_len_wire, Nat.ltb_antisym. now destruct (_ <=? _)%nat.
Qed.

(* with the numeral 255 in place of L every step is far slower to check *)
Lemma extend_all_lim L :
  (forall n l, extend_name n l =
     if (wire_len n + length l + 1 <=? L)%nat then Ok (mkName (fqdn n) (labels n ++ [l])) else Err) ->
  forall ls n, (wire_len n <= L)%nat ->
  extend_all n ls =
  if (wire_len n + wl ls <=? L)%nat then Ok (mkName (fqdn n) (labels n ++ ls)) else Err.
Proof.
  intros HL. induction ls as [|l ls IH]; intros n Hn; cbn [extend_all].
  - rewrite app_nil_r, name_eta. cbn [wl fold_right]. rewrite Nat.add_0_r.
    apply Nat.leb_le in Hn. now rewrite Hn.
  - rewrite HL, wl_cons.
    (* the name after one step; its wire length is the guard just evaluated *)
    set (n' := mkName (fqdn n) (labels n ++ [l])).
    assert (E : wire_len n' = (wire_len n + length l + 1)%nat)
      by (rewrite !wire_len_wl; cbn [n' labels]; rewrite wl_app; cbn; lia).
    rewrite <- E. replace (wire_len n + (S (length l) + wl ls))%nat with (wire_len n' + wl ls)%nat by lia.
    destruct (Nat.leb_spec (wire_len n') L) as [H|H].
    + rewrite (IH n' H). cbn [n' fqdn labels]. now rewrite <- app_assoc.
    + destruct (Nat.leb_spec (wire_len n' + wl ls) L); [lia|reflexivity].
Qed.

Lemma extend_all_spec ls n : (wire_len n <= 255)%nat ->
  extend_all n ls =
  if (wire_len n + wl ls <=? 255)%nat then Ok (mkName (fqdn n) (labels n ++ ls)) else Err.
Proof. exact (extend_all_lim 255 extend_name_spec ls n). Qed.

Lemma extend_all_fresh fq ls :
  extend_all (mkName fq []) ls = if (wl ls + 1 <=? 255)%nat then Ok (mkName fq ls) else Err.
Proof.
  rewrite extend_all_spec by (cbn; lia). change (wire_len (mkName fq [])) with 1%nat.
  now rewrite (Nat.add_comm 1 (wl ls)).
Qed.

Lemma extend_all_wf ls n n' :
  wf n -> Forall label_ok ls -> extend_all n ls = Ok n' -> wf n'.
Proof.
  intros [H1 H2] Hls. rewrite extend_all_spec by exact H2.
  destruct (_ <=? _)%nat eqn:E; [|discriminate]. apply Nat.leb_le in E.
  intros [= <-]. split; [apply Forall_app; auto|]. refine (Nat.le_trans _ _ _ _ E).
  rewrite !wire_len_wl. cbn [labels]. rewrite wl_app. lia.
Qed.

Lemma extend_name_wf n l n' : wf n -> label_ok l -> extend_name n l = Ok n' -> wf n'.
Proof.
  intros Hn Hl E. apply (extend_all_wf [l] n); [exact Hn|now constructor|].
  cbn [extend_all]. now rewrite E.
Qed.

Lemma raw_ok_iff bs : raw_ok bs = true <-> label_ok bs.
Proof.
  unfold raw_ok, label_from_raw, label_ok. destruct bs as [|b bs]; [cbn; split; [discriminate|lia]|].
  destruct (Nat.ltb_spec 63 (length (b :: bs))); cbn [length] in *; split; (discriminate || lia || reflexivity).
Qed.

Lemma label_from_raw_spec bs :
  label_from_raw bs = if raw_ok bs then Ok bs else Err.
Proof.
  unfold raw_ok, label_from_raw. destruct bs as [|b bs]; [reflexivity|]. now destruct (_ <? _)%nat.
Qed.

Lemma label_from_raw_ok bs l : label_from_raw bs = Ok l -> l = bs /\ label_ok l.
Proof.
  rewrite label_from_raw_spec. destruct (raw_ok bs) eqn:E; [|discriminate].
  intros [= <-]. now apply raw_ok_iff in E.
Qed.

(* the test that from_labels turns out to make *)
Lemma wf_labels_iff ls : forallb raw_ok ls && (wl ls + 1 <=? 255)%nat = true <-> wf (mkName true ls).
Proof. rewrite andb_true_iff, (forallb_Forall _ _ _ raw_ok_iff), Nat.leb_le. reflexivity. Qed.

Lemma append_label_wf n raw n' : wf n -> append_label n raw = Ok n' -> wf n'.
Proof.
  intros Hn. unfold append_label. destruct (label_from_raw raw) as [l| |] eqn:E; try discriminate.
  apply label_from_raw_ok in E. now apply extend_name_wf.
Qed.

Lemma prepend_label_wf n raw n' : wf n -> prepend_label n raw = Ok n' -> wf n'.
Proof.
  intros Hn. unfold prepend_label.
  destruct (append_label name_new raw) as [nm| |] eqn:E1; try discriminate.
  destruct (extend_all nm (labels n)) as [nm'| |] eqn:E2; try discriminate.
  intros [= <-]. apply wf_set_fqdn.
  apply (extend_all_wf (labels n) nm); [|apply Hn|exact E2].
  exact (append_label_wf name_new raw nm wf_new E1).
Qed.

Lemma filter_forallb {A} (f : A -> bool) l :
  if forallb f l then filter f l = l else (length (filter f l) < length l)%nat.
Proof.
  induction l as [|a l IH]; cbn [filter forallb]; [reflexivity|].
  destruct (f a), (forallb f l); cbn [andb length]; rewrite ?IH; lia || reflexivity.
Qed.

(* the separate test of from_labels on the number of labels never decides: 255 labels need
   510 octets *)
Lemma count_test_idle {A} L k w (x y : A) : (k <= w)%nat ->
  (if (L <? k)%nat then y else if (w + 1 <=? L)%nat then x else y) = if (w + 1 <=? L)%nat then x else y.
Proof. intros H. destruct (Nat.ltb_spec L k), (Nat.leb_spec (w + 1) L); reflexivity || lia. Qed.

Lemma from_labels_spec raws :
  from_labels raws =
  if forallb raw_ok raws && (wl raws + 1 <=? 255)%nat then Ok (mkName true raws) else Err.
Proof.
  unfold from_labels, name_root. pose proof (filter_forallb raw_ok raws) as F.
  destruct (forallb raw_ok raws) eqn:E; cbn [andb].
  - rewrite F, Nat.eqb_refl. apply (forallb_Forall _ _ _ raw_ok_iff), wl_ge_len in E.
    rewrite (extend_all_fresh true raws). cbn [negb]. apply count_test_idle. lia.
  - destruct (Nat.eqb_spec (length (filter raw_ok raws)) (length raws)); [lia|].
    now destruct (_ <? _)%nat.
Qed.

Lemma from_labels_wf raws n : from_labels raws = Ok n -> wf n.
Proof.
  rewrite from_labels_spec. destruct (_ && _) eqn:E; [|discriminate].
  intros [= <-]. now apply wf_labels_iff.
Qed.

Lemma append_name_spec a b : (wire_len a <= 255)%nat ->
  append_name a b =
  if (wire_len a + wl (labels b) <=? 255)%nat then Ok (mkName (fqdn b) (labels a ++ labels b)) else Err.
Proof.
  intros Ha. unfold append_name. rewrite extend_all_spec by exact Ha. now destruct (_ <=? _)%nat.
Qed.

Lemma append_name_wf a b n : wf a -> wf b -> append_name a b = Ok n -> wf n.
Proof.
  intros Ha Hb. unfold append_name.
  destruct (extend_all a (labels b)) as [n'| |] eqn:E; try discriminate.
  intros [= <-]. apply wf_set_fqdn, (extend_all_wf (labels b) a); [exact Ha|apply Hb|exact E].
Qed.

Lemma append_domain_wf a b n : wf a -> wf b -> append_domain a b = Ok n -> wf n.
Proof.
  intros Ha Hb. unfold append_domain.
  destruct (append_name a b) as [n'| |] eqn:E; try discriminate.
  intros [= <-]. now apply wf_set_fqdn, (append_name_wf a b).
Qed.

Lemma to_lowercase_wf a : wf a -> wf (to_lowercase a).
Proof.
  intros Ha. apply (wf_shorter _ _ a Ha); [|now rewrite wl_map_map].
  apply Forall_map. refine (Forall_impl _ _ (proj1 Ha)). intros x. unfold label_ok. now rewrite map_length.
Qed.

Lemma trim_to_spec a k : wf a ->
  trim_to a k = Ok (if (length (labels a) <? k)%nat then a
                    else mkName true (skipn (length (labels a) - k) (labels a))).
Proof.
  intros Ha. unfold trim_to. destruct (_ <? _)%nat; [reflexivity|].
  rewrite from_labels_spec. now rewrite (proj2 (wf_labels_iff _) (wf_skipn true _ a Ha)).
Qed.

Lemma trim_to_wf a k : wf a -> exists n, trim_to a k = Ok n /\ wf n.
Proof.
  intros Ha. rewrite (trim_to_spec a k Ha). eexists; split; [reflexivity|].
  destruct (_ <? _)%nat; [exact Ha|now apply wf_skipn].
Qed.

Lemma base_name_wf a : wf a -> exists n, base_name a = Ok n /\ wf n.
Proof.
  intros Ha. unfold base_name. destruct (length (labels a)) as [|k].
  - exists a. split; [reflexivity|exact Ha].
  - apply trim_to_wf, Ha.
Qed.

Lemma into_wildcard_wf a : wf a -> wf (into_wildcard a).
Proof.
  intros Ha. unfold into_wildcard. destruct (labels a) as [|l t] eqn:E; [apply wf_root|].
  pose proof (proj1 Ha) as H1. rewrite E in H1. apply Forall_cons_iff in H1 as [Hl Ht]. unfold label_ok in Hl.
  apply (wf_shorter _ _ a Ha); [constructor; [unfold label_ok; cbn; lia|exact Ht]|].
  rewrite E, !wl_cons. cbn [length]. lia.
Qed.

Lemma utf8_len_ascii s : forallb (fun x => x <? 128) s = true -> utf8_len s = length s.
Proof.
  induction s as [|c s IH]; cbn [forallb utf8_len fold_right length]; [reflexivity|].
  intros H. apply andb_true_iff in H. destruct H as [H1 H2]. rewrite H1. fold (utf8_len s).
  now rewrite IH.
Qed.

Lemma safe_lt128 c f e : is_safe_ascii c f e = true -> (c <? 128) = true.
Proof.
  unfold is_safe_ascii. rewrite N.ltb_antisym. now destruct (128 <=? c).
Qed.

Lemma host_label_ascii l : host_labelb l = true -> forallb (fun x => x <? 128) l = true.
Proof.
  destruct l as [|c t]; [discriminate|]. cbn [host_labelb forallb]. intros H.
  apply andb_true_iff in H. destruct H as [H1 H2]. apply andb_true_iff. split.
  - now apply (safe_lt128 c true false).
  - apply forallb_forall. intros x Hx. rewrite forallb_forall in H2.
    now apply (safe_lt128 x false false), H2.
Qed.

Lemma host_labelb_cons c t :
  host_labelb (c :: t) = is_safe_ascii c true false && forallb (fun x => is_safe_ascii x false false) t.
Proof. reflexivity. Qed.

(* Label::from_ascii, all its tests taken together *)
Lemma label_from_ascii_spec s :
  label_from_ascii s = if host_labelb s && (length s <=? 63)%nat then Ok s else Err.
Proof.
  unfold label_from_ascii.
  (* the shortcut for "*" accepts nothing the general test rejects *)
  destruct (list_eqb N.eqb s [42]) eqn:E; [apply bytes_eqb_eq in E; now subst|].
  destruct s as [|c t]; [reflexivity|].
  rewrite <- andb_assoc, <- host_labelb_cons.
  destruct (host_labelb (c :: t)) eqn:Eh; [|rewrite andb_false_r; now destruct (_ <? _)%nat].
  (* host-style: ASCII, so the UTF-8 length is the length; not empty, so from_raw_bytes has
     only the 63 left to test *)
  pose proof (host_label_ascii _ Eh) as Ha. rewrite (utf8_len_ascii _ Ha), Ha. cbn [andb].
  unfold label_from_raw. rewrite Nat.leb_antisym. now destruct (63 <? _)%nat.
Qed.

Lemma push_text_label_spec nm s :
  push_text_label nm s = if host_labelb s && (length s <=? 63)%nat then extend_name nm s else Err.
Proof. unfold push_text_label. rewrite label_from_ascii_spec. now destruct (_ && _). Qed.

Lemma push_text_label_wf nm s nm' : wf nm -> push_text_label nm s = Ok nm' -> wf nm'.
Proof.
  intros Hn. rewrite push_text_label_spec. destruct (host_labelb s) eqn:Eh; [|discriminate].
  destruct (Nat.leb_spec (length s) 63) as [El|]; [|discriminate].
  apply extend_name_wf; [exact Hn|]. destruct s; [discriminate|]. unfold label_ok. cbn [length] in *. lia.
Qed.

Lemma parse_loop_wf s : forall st nm lrev nm' lrev',
  wf nm -> parse_loop s st nm lrev = Ok (nm', lrev') -> wf nm'.
Proof.
  induction s as [|ch s IH]; intros st nm lrev nm' lrev' Hn; cbn [parse_loop].
  - now intros [= <- _].
  - destruct (char_step st ch) as [c st'|st'| |]; try discriminate; try (apply IH, Hn).
    destruct (push_text_label nm (rev lrev)) as [nm2| |] eqn:E; try discriminate.
    apply IH. now apply (push_text_label_wf nm (rev lrev)).
Qed.

Lemma from_ascii_wf s n : from_ascii s = Ok n -> wf n.
Proof.
  unfold from_ascii. destruct (list_eqb N.eqb s [46]).
  - intros [= <-]. apply wf_root.
  - destruct (parse_loop s PLabel name_new []) as [[nm lrev]| |] eqn:E; try discriminate.
    pose proof (parse_loop_wf s _ _ _ _ _ wf_new E) as Hnm.
    destruct lrev as [|c lrev].
    + intros [= <-]. destruct s; [exact Hnm|apply wf_set_fqdn, Hnm].
    + apply push_text_label_wf, Hnm.
Qed.

(* what the loop knows on entering a state, beside that the name so far is within limits:
   the length octet of a label is not 0 (so no label is empty); the flag is set before the
   final state *)
Definition st_inv (buf : list N) (st : rstate) (idx : nat) (nm : name) : Prop :=
  match st with
  | RLabel => exists b, nth_error buf idx = Some b /\ b <> 0
  | RRoot => fqdn nm = true
  | _ => True
  end.

Lemma read_loop_wf fuel : forall buf st idx ns mx ou nm n i,
  wf nm -> st_inv buf st idx nm ->
  read_loop fuel buf st idx ns mx ou nm = Ok (n, i) -> wf n /\ fqdn n = true.
Proof.
  induction fuel as [|fuel IH]; intros buf st idx ns mx ou nm n i Hn Hinv; cbn [read_loop]; [discriminate|].
  destruct (match mx with Some m => (m <=? idx)%nat | None => false end); [discriminate|].
  destruct st.
  - destruct (nth_error buf idx) as [b|] eqn:Eb; [|discriminate].
    destruct (N.eqb_spec b 0) as [|Hb0].
    + apply IH; [apply wf_set_fqdn, Hn|reflexivity].
    + destruct (b / 64 =? 3); [apply IH; [exact Hn|exact I]|].
      destruct (b / 64 =? 0); [|discriminate].
      apply IH; [exact Hn|]. now exists b.
  - destruct Hinv as (b & -> & Hb0).
    destruct (Nat.ltb_spec (length buf - (idx + 1)) (N.to_nat b)) as [|E1]; [discriminate|].
    destruct (Nat.ltb_spec 63 (N.to_nat b)) as [|E2]; [discriminate|].
    destruct (extend_name nm _) as [nm'| |] eqn:E3; try discriminate.
    apply IH; [|exact I].
    refine (extend_name_wf nm _ nm' Hn _ E3).
    unfold label_ok. rewrite firstn_length, skipn_length. lia.
  - destruct (nth_error buf idx) as [hi|]; [|discriminate].
    destruct (nth_error buf (idx + 1)) as [lo|]; [|discriminate].
    destruct (_ <? ns)%nat; [|discriminate].
    apply IH; [exact Hn|exact I].
  - destruct (nth_error buf idx); [|discriminate].
    destruct (255 <=? name_len nm)%nat; [discriminate|].
    intros [= <- _]. split; [exact Hn|exact Hinv].
Qed.

Lemma read_name_wf buf off n i : read_name buf off = Ok (n, i) -> wf n /\ fqdn n = true.
Proof.
  unfold read_name. destruct (length buf <? off)%nat; [discriminate|].
  apply read_loop_wf; [apply wf_new|exact I].
Qed.

(* closed world: a source (new, root, from_labels, from_ascii, read) or a combinator on
   built names *)

Inductive built : name -> Prop :=
| b_new : built name_new
| b_root : built name_root
| b_set_fqdn n v : built n -> built (set_fqdn n v)
| b_from_labels raws n : from_labels raws = Ok n -> built n
| b_append_label n raw n' : built n -> append_label n raw = Ok n' -> built n'
| b_prepend_label n raw n' : built n -> prepend_label n raw = Ok n' -> built n'
| b_append_name a b n : built a -> built b -> append_name a b = Ok n -> built n
| b_append_domain a b n : built a -> built b -> append_domain a b = Ok n -> built n
| b_to_lowercase a : built a -> built (to_lowercase a)
| b_trim_to a k n : built a -> trim_to a k = Ok n -> built n
| b_base_name a n : built a -> base_name a = Ok n -> built n
| b_into_wildcard a : built a -> built (into_wildcard a)
| b_from_ascii s n : from_ascii s = Ok n -> built n
| b_read buf off n i : read_name buf off = Ok (n, i) -> built n.

Lemma built_wf n : built n -> wf n.
Proof.
  induction 1 as [| |n v _ IH|raws n Eq|n raw n' _ IH Eq|n raw n' _ IH Eq|a b n _ IHa _ IHb Eq
                  |a b n _ IHa _ IHb Eq|a _ IH|a k n _ IH Eq|a n _ IH Eq|a _ IH|s n Eq|buf off n i Eq].
  - apply wf_new.
  - apply wf_root.
  - now apply wf_set_fqdn.
  - now apply (from_labels_wf raws).
  - now apply (append_label_wf n raw).
  - now apply (prepend_label_wf n raw).
  - now apply (append_name_wf a b).
  - now apply (append_domain_wf a b).
  - now apply to_lowercase_wf.
  - destruct (trim_to_wf a k IH) as (n' & E & Hn'). congruence.
  - destruct (base_name_wf a IH) as (n' & E & Hn'). congruence.
  - now apply into_wildcard_wf.
  - now apply (from_ascii_wf s).
  - now apply (read_name_wf buf off n i).
Qed.

Lemma built_no_panic_trim a k : built a -> trim_to a k <> Panic.
Proof. intros H. destruct (trim_to_wf a k (built_wf a H)) as (n & E & _). congruence. Qed.

Lemma skipn_app_length {A} (l t : list A) : skipn (length l) (l ++ t) = t.
Proof. rewrite skipn_app, skipn_all, Nat.sub_diag. reflexivity. Qed.

Lemma as_u8_small k : N.of_nat k < 256 -> as_u8 k = N.of_nat k.
Proof. apply N.mod_small. Qed.

Lemma flat_iter_faithful ls : forall pre,
  N.of_nat (length pre + length (concat ls)) < 256 ->
  flat_iter_from (pre ++ concat ls) (N.of_nat (length pre)) (flat_ends (length pre) ls) = Ok ls.
Proof.
  induction ls as [|l ls IH]; intros pre Hlen; cbn [flat_ends flat_iter_from concat]; [reflexivity|].
  cbn [concat] in Hlen. rewrite app_length in Hlen.
  (* no end offset wraps while the data fits a u8 *)
  rewrite as_u8_small by lia.
  destruct (N.ltb_spec (N.of_nat (length pre + length l)) (N.of_nat (length pre))); [lia|].
  destruct (N.ltb_spec (N.of_nat (length (pre ++ l ++ concat ls))) (N.of_nat (length pre + length l)));
    [rewrite !app_length in *; lia|].
  cbn [orb]. specialize (IH (pre ++ l)). rewrite app_length, <- app_assoc in IH. rewrite IH by lia.
  replace (N.to_nat (N.of_nat (length pre + length l) - N.of_nat (length pre))) with (length l) by lia.
  now rewrite Nat2N.id, skipn_app_length, firstn_app_length.
Qed.

(* the labels themselves may have any length: what the u8 offsets need is that the data fits *)
Lemma flat_repr_faithful n : (wire_len n <= 255)%nat -> flat_labels (flat_of n) = Ok (labels n).
Proof.
  intros H. rewrite wire_len_wl, wl_concat in H.
  apply (flat_iter_faithful (labels n) []). cbn [length]. lia.
Qed.

Lemma flat_ends_app pos a b :
  flat_ends pos (a ++ b) = flat_ends pos a ++ flat_ends (pos + length (concat a)) b.
Proof.
  revert pos; induction a as [|l a IH]; intros pos; cbn [flat_ends app concat length].
  - now rewrite Nat.add_0_r.
  - now rewrite IH, app_length, Nat.add_assoc.
Qed.

Lemma flat_ends_length pos ls : length (flat_ends pos ls) = length ls.
Proof. revert pos; induction ls as [|l ls IH]; intros pos; cbn [flat_ends length]; [reflexivity|]. now rewrite IH. Qed.

Lemma flat_extend_refines n l :
  flat_extend (flat_of n) l =
  match extend_name n l with Ok n' => Ok (flat_of n') | Err => Err | Panic => Panic end.
Proof.
  unfold flat_extend, extend_name, encoded_len, flat_of. cbn [f_data f_ends f_fqdn].
  rewrite flat_ends_length. destruct (_ <? _)%nat; [reflexivity|].
  cbn [labels fqdn]. rewrite concat_app, flat_ends_app. cbn [concat flat_ends].
  rewrite !app_nil_r, app_length. reflexivity.
Qed.

Lemma flat_fold_extend t : forall fq d e,
  fold_left (fun acc l => let d := f_data acc ++ l in
                          mkFlat (f_fqdn acc) d (f_ends acc ++ [as_u8 (length d)]))
            t (mkFlat fq d e)
  = mkFlat fq (d ++ concat t) (e ++ flat_ends (length d) t).
Proof.
  induction t as [|l t IH]; intros fq d e; cbn [fold_left concat flat_ends].
  - now rewrite !app_nil_r.
  - cbn [f_data f_ends f_fqdn]. rewrite IH, <- !app_assoc. now rewrite app_length.
Qed.

Lemma flat_into_wildcard_refines n : (wire_len n <= 255)%nat ->
  flat_into_wildcard (flat_of n) = Ok (flat_of (into_wildcard n)).
Proof.
  intros Hn. unfold flat_into_wildcard. rewrite (flat_repr_faithful n Hn).
  unfold into_wildcard, flat_of at 1. cbn [f_ends f_fqdn].
  destruct (labels n) as [|l t]; cbn [flat_ends]; [reflexivity|].
  cbn [tl]. now rewrite flat_fold_extend.
Qed.

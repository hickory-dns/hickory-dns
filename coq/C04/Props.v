(* C04 — property theorems.
   Model (Model.v): name = is_fqdn flag + list of labels (lists of octets), functions written
   from name.rs / label.rs / lower_name.rs / rr_key.rs.  Specification (end of Model.v):
   spec_eq, rfc4034_cmp / spec_cmp, wf (length limits), host_style. *)
From HV Require Import Lib.Base C04.Model C04.OrdProofs C04.LimitProofs C04.TextProofs C04.WireProofs.
Open Scope N_scope.

(* == holds exactly when the fqdn flags agree and the labels agree octet by octet up to
   ASCII letter case (case_equiv is stated without the code's lower-casing function) *)
Theorem C04_eq_iff_spec : forall a b, name_eq a b = true <-> spec_eq a b.
Proof. exact name_eq_spec. Qed.
Print Assumptions C04_eq_iff_spec.

(* equal names feed the hasher the same byte stream *)
Theorem C04_hash_respects_eq : forall a b, name_eq a b = true -> hash_stream a = hash_stream b.
Proof.
  intros a b. rewrite name_eq_spec, spec_eq_lower. intros [Hf Hl]. unfold hash_stream.
  now rewrite Hf, !concat_map, Hl.
Qed.
Print Assumptions C04_hash_respects_eq.

(* cmp is the RFC 4034 6.1 canonical order (relative names sort before absolute ones) *)
Theorem C04_cmp_is_rfc4034 : forall a b,
  name_cmp a b = spec_cmp a b /\ (fqdn a = fqdn b -> name_cmp a b = rfc4034_cmp a b).
Proof.
  intros a b. split; [apply name_cmp_spec|]. intros H. rewrite name_cmp_spec. unfold spec_cmp.
  rewrite H. now destruct (fqdn b).
Qed.
Print Assumptions C04_cmp_is_rfc4034.

(* what the left-justified order used in rfc4034_cmp means, at both levels (octets within a
   label, labels within a name): a proper prefix sorts first ("absence of an octet sorts
   before a zero octet"), otherwise the first differing position decides *)
Theorem C04_canonical_order_meaning : forall (l r : list (list N)),
  lex (lex N.compare) l r = Lt <->
  (exists y r', r = l ++ y :: r') \/
  (exists p x y l' r', l = p ++ x :: l' /\ r = p ++ y :: r' /\
     ((exists z y', y = x ++ z :: y') \/
      (exists q u v x' y', x = q ++ u :: x' /\ y = q ++ v :: y' /\ u < v))).
Proof.
  intros l r. rewrite (lex_lt_iff _ (lex_good _ N_compare_good)).
  (* the same fact one level down; u < v is N.compare u v = Lt by definition *)
  setoid_rewrite (lex_lt_iff _ N_compare_good). reflexivity.
Qed.
Print Assumptions C04_canonical_order_meaning.

(* cmp is a total order up to ==: reflexive, antisymmetric (cmp b a is the reverse of
   cmp a b, so any two names are comparable), transitive, and Equal is a congruence *)
Theorem C04_cmp_total_order : forall a b c,
  name_cmp a a = Eq /\
  name_cmp b a = CompOpp (name_cmp a b) /\
  (name_cmp a b = Lt -> name_cmp b c = Lt -> name_cmp a c = Lt) /\
  (name_cmp a b = Eq -> name_cmp b c = name_cmp a c).
Proof.
  intros a b c. rewrite !name_cmp_spec.
  split; [apply spec_cmp_refl|]. split; [apply spec_cmp_sym|].
  split; [apply spec_cmp_trans|apply spec_cmp_eq_l].
Qed.
Print Assumptions C04_cmp_total_order.

(* the order is consistent with equality *)
Theorem C04_cmp_eq_iff : forall a b, name_cmp a b = Eq <-> name_eq a b = true.
Proof. intros a b. symmetry. apply name_eq_cmp. Qed.
Print Assumptions C04_cmp_eq_iff.

(* the case-sensitive comparison (eq_case, used by LowerName) is structural equality, and
   Label's own comparison is Equal exactly on labels equal up to ASCII case *)
Theorem C04_eq_case_iff : forall a b l r,
  (eq_case a b = true <-> a = b) /\
  (cmp_label CaseInsensitive l r = Eq <-> label_equiv l r).
Proof. intros a b l r. split; [apply eq_case_iff|apply cmp_label_eq_iff]. Qed.
Print Assumptions C04_eq_case_iff.

(* LowerName (zone keys) orders, compares and hashes consistently with Name; RrKey equality *)
Theorem C04_lowername_agrees : forall a b,
  lname_cmp a b = name_cmp a b /\ lname_eq a b = name_eq a b /\
  (lname_eq a b = true -> lname_hash_stream a = lname_hash_stream b) /\
  (forall ta tb, rrkey_cmp a ta b tb = Eq <-> name_eq a b = true /\ ta = tb).
Proof.
  intros a b. split; [apply lname_cmp_name_cmp|]. split; [apply lname_eq_name_eq|].
  split; [apply lname_hash_respects_eq|]. intros ta tb. apply rrkey_cmp_eq_iff.
Qed.
Print Assumptions C04_lowername_agrees.

(* every name obtainable from the constructors and combinators (new, root, set_fqdn,
   from_labels, append_label, prepend_label, append_name, append_domain, to_lowercase,
   trim_to, base_name, into_wildcard, from_ascii, from-wire read with pointers) has labels
   of 1..63 octets and at most 255 octets in wire form *)
Theorem C04_limits_all_constructors : forall n, built n -> wf n.
Proof. exact built_wf. Qed.
Print Assumptions C04_limits_all_constructors.

(* the decoder, on any buffer and offset (compression pointers included) *)
Theorem C04_limits_from_wire : forall buf off n i,
  read_name buf off = Ok (n, i) -> wf n /\ fqdn n = true.
Proof. exact read_name_wf. Qed.
Print Assumptions C04_limits_from_wire.

(* the limits are not over-enforced: from_labels / append_name accept exactly what fits and
   return the labels unchanged *)
Theorem C04_constructors_exact : forall raws a b,
  from_labels raws =
    (if forallb raw_ok raws && (wl raws + 1 <=? 255)%nat then Ok (mkName true raws) else Err) /\
  (wf a -> append_name a b =
    (if (wire_len a + wl (labels b) <=? 255)%nat then Ok (mkName (fqdn b) (labels a ++ labels b)) else Err)).
Proof.
  intros raws a b. split; [apply from_labels_spec|]. intros [_ H]. now apply append_name_spec.
Qed.
Print Assumptions C04_constructors_exact.

(* trim_to / base_name unwrap() a from_labels result: never a panic on names within limits *)
Theorem C04_trim_never_panics : forall a k, wf a ->
  (exists n, trim_to a k = Ok n /\ wf n) /\ (exists n, base_name a = Ok n /\ wf n).
Proof. intros a k H. split; [now apply trim_to_wf|now apply base_name_wf]. Qed.
Print Assumptions C04_trim_never_panics.

(* the flat storage (label_data + u8 end offsets) represents every name within limits
   faithfully; extend_name and into_wildcard (which has no length check of its own and casts
   with `as u8`) on it compute the flat image of the same operation on labels *)
Theorem C04_flat_repr_faithful : forall n, wf n ->
  flat_labels (flat_of n) = Ok (labels n) /\
  (forall l, flat_extend (flat_of n) l =
             match extend_name n l with Ok n' => Ok (flat_of n') | Err => Err | Panic => Panic end) /\
  flat_into_wildcard (flat_of n) = Ok (flat_of (into_wildcard n)).
Proof.
  intros n [_ H]. split; [now apply flat_repr_faithful|]. split; [intros l; apply flat_extend_refines|].
  now apply flat_into_wildcard_refines.
Qed.
Print Assumptions C04_flat_repr_faithful.

(* ... and that is why the 255 guard matters: beyond it the u8 offsets wrap (on a name the
   Rust cannot build: every built name is wf) *)
Theorem C04_flat_repr_needs_limit_refuted :
  exists n, ~ wf n /\ flat_labels (flat_of n) <> Ok (labels n).
Proof.
  exists (mkName true (repeat (repeat 97 60) 5)). split.
  - intros [_ H]. vm_compute in H. lia.
  - vm_compute. discriminate.
Qed.
Print Assumptions C04_flat_repr_needs_limit_refuted.

(* host-style names (letters, digits, '_', '.', non-leading '-', leading '*') survive
   to_ascii / from_ascii unchanged, letter case and fqdn flag included *)
Theorem C04_text_roundtrip : forall n, wf n -> octets n -> host_style n ->
  from_ascii (to_ascii n) = Ok n.
Proof.
  intros n Hw Ho Hh. rewrite (text_roundtrip_exact n Hw Ho).
  apply host_style_forallb in Hh. now rewrite Hh.
Qed.
Print Assumptions C04_text_roundtrip.

(* for every other name within limits the text is rejected on re-parsing: the round trip
   never yields a different name *)
Theorem C04_text_roundtrip_exact : forall n, wf n -> octets n ->
  (host_style n /\ from_ascii (to_ascii n) = Ok n) \/
  (~ host_style n /\ from_ascii (to_ascii n) = Err).
Proof.
  intros n Hw Ho. rewrite (text_roundtrip_exact n Hw Ho). rewrite host_style_forallb.
  destruct (forallb host_labelb (labels n)); [left|right]; split; auto.
Qed.
Print Assumptions C04_text_roundtrip_exact.

(* uncompressed emit, then read at any offset inside any surrounding bytes: same labels,
   octet for octet (no case change, arbitrary octets), fully qualified, and the decoder stops
   exactly behind the name.  PARTIAL with respect to the property text: compressed encoding
   (pointer table of BinEncoder) is not modelled here; it is exercised by the harness oracle
   (names written with compression into one buffer and read back) and belongs to C02. *)
Theorem C04_wire_roundtrip_partial : forall n pre suf, wf n ->
  exists enc, emit_name false n = Ok enc /\
    read_name (pre ++ enc ++ suf) (length pre) = Ok (set_fqdn n true, (length pre + length enc)%nat).
Proof.
  intros n pre suf Hn. exists (enc_labels (labels n) ++ [0]). split; [now apply emit_name_ok|].
  destruct Hn as [H1 H2]. rewrite wire_len_wl in H2.
  unfold read_name, name_new.
  destruct (Nat.ltb_spec (length (pre ++ (enc_labels (labels n) ++ [0]) ++ suf)) (length pre)) as [E|_];
    [rewrite app_length in E; lia|].
  rewrite (read_labels_loop (labels n) [] _ _ suf); [|now rewrite skipn_app_length, <- app_assoc|exact H1|cbn; lia|].
  - unfold set_fqdn. now rewrite app_length, enc_labels_length, Nat.add_assoc.
  - (* fuel: 2 * #labels + 2 <= 2 * |enc|, a label having a length octet and data *)
    rewrite !app_length, enc_labels_length. pose proof (wl_concat (labels n)). lia.
Qed.
Print Assumptions C04_wire_roundtrip_partial.

(* the nine names of RFC 4034 6.1 are strictly increasing under the code's cmp *)
Example C04_rfc4034_example_list : strictly_sorted name_cmp rfc_example_names = true.
Proof. vm_compute. reflexivity. Qed.

(* spec_eq: names differing only in case / differing in a non-letter octet with bit 0x20 *)
Example C04_eq_example :
  let a := mkName true [[119; 87; 119]; [64; 91]] in
  let b := mkName true [[87; 119; 87]; [64; 91]] in
  let c := mkName true [[119; 87; 119]; [96; 123]] in
  spec_eq a b /\ name_eq a b = true /\ name_eq a c = false /\ hash_stream a = hash_stream b.
Proof.
  cbv zeta. split; [now apply name_eq_spec|]. vm_compute. auto.
Qed.

(* hash ignores label boundaries (a collision, not an inequality of equal names) *)
Example C04_hash_boundary_example :
  let a := mkName true [[97; 98]; [99]] in
  let b := mkName true [[97]; [98; 99]] in
  name_eq a b = false /\ hash_stream a = hash_stream b.
Proof. vm_compute. auto. Qed.

(* order laws: a strictly ascending chain with a prefix, a case variant and a length tie *)
Example C04_order_example :
  let a := mkName true [[99; 111; 109]] in
  let b := mkName true [[65]; [99; 111; 109]] in
  let b' := mkName true [[97]; [67; 79; 77]] in
  let c := mkName true [[97; 0]; [99; 111; 109]] in
  name_cmp a b = Lt /\ name_cmp b c = Lt /\ name_cmp a c = Lt /\ name_cmp b b' = Eq /\
  name_cmp b' c = Lt /\ name_cmp (mkName false [[122]]) a = Lt.
Proof. vm_compute. repeat split. Qed.

(* limits: a 255-octet name is built, one more octet is refused *)
Example C04_limits_example :
  let l63 := repeat 97 63 in
  let n := mkName true [l63; l63; l63; repeat 98 61] in
  built n /\ wf n /\ wire_len n = 255%nat /\ append_label n [120] = Err /\
  from_labels [l63; l63; l63; repeat 98 62] = Err /\ from_labels [repeat 97 64] = Err.
Proof.
  cbv zeta. split; [apply (b_from_labels [repeat 97 63; repeat 97 63; repeat 97 63; repeat 98 61]); vm_compute; reflexivity|].
  split; [now apply wf_labels_iff|]. vm_compute. auto.
Qed.

(* text: a host-style name with an escaped dot, a leading '*', mixed case; and names that do
   not come back: leading '-', '*' inside a label, an octet >= 0x80 *)
Example C04_text_example :
  let n := mkName true [[42]; [97; 46; 66]; [95; 120; 45; 49]] in
  wf n /\ octets n /\ host_style n /\
  to_ascii n = [42; 46; 97; 92; 46; 66; 46; 95; 120; 45; 49; 46] /\
  from_ascii (to_ascii n) = Ok n /\
  from_ascii (to_ascii (mkName true [[45; 97]])) = Err /\
  from_ascii (to_ascii (mkName true [[97; 42]])) = Err /\
  to_ascii (mkName false [[200; 0]]) = [92; 51; 49; 48; 92; 48; 48; 48] /\
  from_ascii (to_ascii (mkName false [[200; 0]])) = Err.
Proof.
  cbv zeta. split; [now apply wf_labels_iff|].
  split; [repeat constructor; lia|].
  split; [apply host_style_forallb; vm_compute; reflexivity|]. vm_compute. repeat split.
Qed.

(* wire: arbitrary octets (dot, backslash, NUL, 0xff, upper case) at offset 3 *)
Example C04_wire_example :
  let n := mkName true [[46; 92; 0]; [255; 65]] in
  wf n /\ emit_name false n = Ok [3; 46; 92; 0; 2; 255; 65; 0] /\
  read_name ([9; 9; 9] ++ [3; 46; 92; 0; 2; 255; 65; 0] ++ [7]) 3 = Ok (n, 11%nat) /\
  (* a label, then a pointer to its second label *)
  read_name ([9; 9; 9] ++ [3; 46; 92; 0; 2; 255; 65; 0] ++ [1; 120; 192; 7]) 11
    = Ok (mkName true [[120]; [255; 65]], 15%nat).
Proof. cbv zeta. split; [now apply wf_labels_iff|]. vm_compute. repeat split. Qed.

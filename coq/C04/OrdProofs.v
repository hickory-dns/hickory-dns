(* C04 — proofs about comparison, equality and hashing of names; last, the example list of
   RFC 4034 section 6.1 and the sortedness test Props.v runs on it. *)
From HV Require Lib.LexOrd Lib.Wire.
From HV Require Import Lib.Base C04.Model.
Open Scope N_scope.

(* the two-phase loop of the code (zip, then lengths) is the left-justified order *)
Lemma zip_len_lex {A} (c : A -> A -> comparison) (l r : list A) :
  match zip_cmp c l r with Eq => len_cmp l r | o => o end = lex c l r.
Proof.
  revert r; induction l as [|a l IH]; intros [|b r]; cbn [zip_cmp lex]; try reflexivity.
  destruct (c a b) eqn:E; try reflexivity.
  rewrite <- IH. unfold len_cmp. cbn [length]. rewrite Nat.compare_succ. reflexivity.
Qed.

Lemma lex_map {A B} (f : A -> B) (c : B -> B -> comparison) (l r : list A) :
  lex (fun x y => c (f x) (f y)) l r = lex c (map f l) (map f r).
Proof.
  revert r; induction l as [|a l IH]; intros [|b r]; cbn [lex map]; try reflexivity.
  rewrite IH. reflexivity.
Qed.

Lemma lex_ext {A} (c c' : A -> A -> comparison) (l r : list A) :
  (forall x y, c x y = c' x y) -> lex c l r = lex c' l r.
Proof.
  intros H. revert r; induction l as [|a l IH]; intros [|b r]; cbn [lex]; try reflexivity.
  rewrite H, IH. reflexivity.
Qed.

Lemma lower_canon b : lower b = canon_octet b.
Proof. reflexivity. Qed.

Lemma cmp_label_lex m l r : cmp_label m l r = lex (cmp_u8 m) l r.
Proof. apply zip_len_lex. Qed.

Lemma len_cmp_rev {A} (l r : list A) : len_cmp l r = len_cmp (rev l) (rev r).
Proof. unfold len_cmp. now rewrite !rev_length. Qed.

Lemma cmp_labels_lex m a b :
  cmp_labels m a b = lex (cmp_label m) (rev (labels a)) (rev (labels b)).
Proof. unfold cmp_labels. rewrite len_cmp_rev. apply zip_len_lex. Qed.

Lemma cmp_labels_cs_lex a b :
  cmp_labels CaseSensitive a b = lex (lex N.compare) (rev (labels a)) (rev (labels b)).
Proof. (* cmp_u8 CaseSensitive is N.compare *) rewrite cmp_labels_lex. apply lex_ext, cmp_label_lex. Qed.

Lemma cmp_label_ci_lex l r :
  cmp_label CaseInsensitive l r = lex N.compare (map canon_octet l) (map canon_octet r).
Proof. (* lower is canon_octet by conversion *) rewrite cmp_label_lex. apply (lex_map lower N.compare). Qed.

Lemma cmp_labels_ci_rfc a b : cmp_labels CaseInsensitive a b = rfc4034_cmp a b.
Proof.
  unfold rfc4034_cmp, canon_key. rewrite cmp_labels_lex, <- !map_rev, <- lex_map.
  apply lex_ext, cmp_label_ci_lex.
Qed.

Lemma name_cmp_spec a b : name_cmp a b = spec_cmp a b.
Proof.
  unfold name_cmp, cmp_with_f, spec_cmp. rewrite cmp_labels_ci_rfc. reflexivity.
Qed.

Record good_cmp {A} (c : A -> A -> comparison) : Prop := {
  gc_refl : forall x, c x x = Eq;
  gc_eq : forall x y, c x y = Eq -> x = y;
  gc_sym : forall x y, c y x = CompOpp (c x y);
  gc_trans : forall x y z, c x y = Lt -> c y z = Lt -> c x z = Lt }.

Lemma N_compare_good : good_cmp N.compare.
Proof.
  split.
  - apply N.compare_refl.
  - apply N.compare_eq.
  - intros x y. apply N.compare_antisym.
  - intros x y z. rewrite !N.compare_lt_iff. lia.
Qed.

Lemma gc_eq_iff {A} (c : A -> A -> comparison) : good_cmp c -> forall x y, c x y = Eq <-> x = y.
Proof. intros G x y. split; [apply (gc_eq c G)|intros ->; apply (gc_refl c G)]. Qed.

Lemma lex_lexord {A} (c : A -> A -> comparison) a : forall b, lex c a b = LexOrd.lex c a b.
Proof. induction a as [|x a IH]; intros [|y b]; cbn [lex LexOrd.lex]; try reflexivity. now rewrite IH. Qed.

Lemma lex_good {A} (c : A -> A -> comparison) : good_cmp c -> good_cmp (lex c).
Proof.
  intros G. pose proof (gc_eq_iff c G) as E. split.
  - intros x. rewrite lex_lexord. apply LexOrd.lex_refl, E.
  - intros x y. rewrite lex_lexord. apply LexOrd.lex_eq, E.
  - intros x y. rewrite !lex_lexord. apply LexOrd.lex_anti, G.
  - intros x y z. rewrite !lex_lexord. apply LexOrd.lex_trans; [exact E|apply G].
Qed.

Lemma key_cmp_good : good_cmp (lex (lex N.compare)).
Proof. apply lex_good, lex_good, N_compare_good. Qed.

Lemma gc_gt_lt {A} (c : A -> A -> comparison) : good_cmp c -> forall x y, c x y = Gt <-> c y x = Lt.
Proof.
  intros G x y. rewrite (gc_sym c G x y). now destruct (c x y).
Qed.

(* the flag as a most significant label *)
Definition full_key (n : name) : list (list N) := [if fqdn n then 1 else 0] :: canon_key n.

Lemma spec_cmp_key a b : spec_cmp a b = lex (lex N.compare) (full_key a) (full_key b).
Proof. unfold spec_cmp, full_key. now destruct (fqdn a), (fqdn b). Qed.

Lemma spec_cmp_refl a : spec_cmp a a = Eq.
Proof. rewrite spec_cmp_key. apply (gc_refl _ key_cmp_good). Qed.

Lemma spec_cmp_sym a b : spec_cmp b a = CompOpp (spec_cmp a b).
Proof. rewrite !spec_cmp_key. apply (gc_sym _ key_cmp_good). Qed.

Lemma spec_cmp_trans a b c : spec_cmp a b = Lt -> spec_cmp b c = Lt -> spec_cmp a c = Lt.
Proof. rewrite !spec_cmp_key. apply (gc_trans _ key_cmp_good). Qed.

Lemma spec_cmp_eq_iff a b : spec_cmp a b = Eq <-> fqdn a = fqdn b /\ canon_key a = canon_key b.
Proof.
  rewrite spec_cmp_key, (gc_eq_iff _ key_cmp_good). unfold full_key.
  destruct (fqdn a), (fqdn b); intuition congruence.
Qed.

Lemma spec_cmp_eq_l a b c : spec_cmp a b = Eq -> spec_cmp b c = spec_cmp a c.
Proof.
  rewrite !spec_cmp_key. intros H. apply (gc_eq _ key_cmp_good) in H. now rewrite H.
Qed.

Lemma is_upper_spec b : BoolSpec (65 <= b <= 90) (b < 65 \/ 90 < b) (is_upper b).
Proof. unfold is_upper. destruct (N.leb_spec 65 b), (N.leb_spec b 90); constructor; lia. Qed.

Lemma canon_case_equiv x y : canon_octet x = canon_octet y <-> case_equiv x y.
Proof.
  unfold canon_octet, case_equiv. fold (is_upper x) (is_upper y).
  destruct (is_upper_spec x), (is_upper_spec y); (split; [intros E|lia]).
  - left. lia.
  - right. left. lia.
  - right. right. lia.
  - left. exact E.
Qed.

Lemma map_eq_Forall2 {A B} (f : A -> B) (R : A -> A -> Prop) :
  (forall x y, f x = f y <-> R x y) -> forall l r, map f l = map f r <-> Forall2 R l r.
Proof.
  intros H l r. split.
  - revert r; induction l as [|a l IH]; intros [|b r] E; try discriminate; [constructor|].
    injection E as E1 E2. constructor; [now apply H|now apply IH].
  - induction 1 as [|a b l r Hab _ IH]; cbn [map]; [reflexivity|]. apply H in Hab. congruence.
Qed.

Lemma canon_label_equiv l r : map canon_octet l = map canon_octet r <-> label_equiv l r.
Proof. apply map_eq_Forall2, canon_case_equiv. Qed.

Lemma spec_eq_lower a b :
  spec_eq a b <-> fqdn a = fqdn b /\ map (map lower) (labels a) = map (map lower) (labels b).
Proof. unfold spec_eq. now rewrite <- (map_eq_Forall2 _ _ canon_label_equiv). Qed.

Lemma rev_inj {A} (l r : list A) : rev l = rev r -> l = r.
Proof. intros H. rewrite <- (rev_involutive l), <- (rev_involutive r). now f_equal. Qed.

Lemma spec_cmp_eq_spec_eq a b : spec_cmp a b = Eq <-> spec_eq a b.
Proof.
  rewrite spec_cmp_eq_iff, spec_eq_lower. unfold canon_key.
  split; intros [H1 H2]; (split; [exact H1|]).
  - now apply rev_inj in H2.
  - now f_equal.
Qed.

Lemma is_Eq_iff c : is_Eq c = true <-> c = Eq.
Proof. destruct c; cbn; split; congruence. Qed.

Lemma name_eq_cmp a b : name_eq a b = true <-> name_cmp a b = Eq.
Proof.
  unfold name_eq. fold (name_cmp a b).
  destruct (Bool.eqb (fqdn a) (fqdn b)) eqn:E; [apply is_Eq_iff|].
  split; [discriminate|]. rewrite name_cmp_spec, spec_cmp_eq_iff. intros [H _].
  apply eqb_false_iff in E. contradiction.
Qed.

Lemma name_eq_spec a b : name_eq a b = true <-> spec_eq a b.
Proof. now rewrite name_eq_cmp, name_cmp_spec, spec_cmp_eq_spec_eq. Qed.

Lemma eq_case_iff a b : eq_case a b = true <-> a = b.
Proof.
  unfold eq_case, cmp_with_f. rewrite is_Eq_iff, cmp_labels_cs_lex.
  destruct a as [fa la], b as [fb lb]. cbn [fqdn labels]. split.
  - destruct fa, fb; try discriminate; intros H;
      apply (gc_eq _ key_cmp_good), rev_inj in H; now subst.
  - intros [= -> ->]. destruct fb; apply (gc_refl _ key_cmp_good).
Qed.

(* Label's own Ord / PartialEq (label.rs): same comparison as one step of Name::cmp_labels *)
Lemma cmp_label_eq_iff l r : cmp_label CaseInsensitive l r = Eq <-> label_equiv l r.
Proof.
  rewrite cmp_label_ci_lex, (gc_eq_iff _ (lex_good _ N_compare_good)). apply canon_label_equiv.
Qed.

Lemma lower_idem b : lower (lower b) = lower b.
Proof. exact (Wire.lower_idem b). Qed.

Lemma lname_cmp_name_cmp a b : lname_cmp a b = name_cmp a b.
Proof.
  unfold lname_cmp, cmp_case, name_cmp, cmp_with_f. cbn [to_lowercase fqdn labels].
  rewrite cmp_labels_cs_lex, cmp_labels_ci_rfc. cbn [to_lowercase labels].
  reflexivity.
Qed.

Lemma lname_eq_name_eq a b : lname_eq a b = name_eq a b.
Proof.
  apply eq_true_iff_eq. rewrite name_eq_cmp, <- lname_cmp_name_cmp. apply is_Eq_iff.
Qed.

Lemma lname_hash_respects_eq a b : lname_eq a b = true -> lname_hash_stream a = lname_hash_stream b.
Proof.
  rewrite lname_eq_name_eq, name_eq_spec, spec_eq_lower. intros [_ Hl].
  unfold lname_hash_stream. cbn [to_lowercase labels]. now rewrite Hl.
Qed.

Lemma rrkey_cmp_eq_iff a ta b tb : rrkey_cmp a ta b tb = Eq <-> name_eq a b = true /\ ta = tb.
Proof.
  unfold rrkey_cmp. rewrite lname_cmp_name_cmp, name_eq_cmp.
  destruct (name_cmp a b); rewrite ?N.compare_eq_iff; intuition congruence.
Qed.

Lemma lex_app {A} (c : A -> A -> comparison) : (forall x, c x x = Eq) ->
  forall p l r, lex c (p ++ l) (p ++ r) = lex c l r.
Proof. intros Hr p l r. induction p as [|a p IH]; cbn [app lex]; [reflexivity|]. now rewrite Hr. Qed.

Lemma lex_lt_iff {A} (c : A -> A -> comparison) : good_cmp c -> forall l r,
  lex c l r = Lt <->
  (exists y r', r = l ++ y :: r') \/
  (exists p x y l' r', l = p ++ x :: l' /\ r = p ++ y :: r' /\ c x y = Lt).
Proof.
  intros G l r. split.
  - revert r; induction l as [|a l IH]; intros [|b r]; cbn [lex]; try discriminate.
    + intros _. left. now exists b, r.
    + destruct (c a b) eqn:E; try discriminate.
      * apply (gc_eq c G) in E as <-. intros H.
        apply IH in H as [(y & r' & ->)|(p & x & y & l' & r' & -> & -> & H)].
        -- left. now exists y, r'.
        -- right. now exists (a :: p), x, y, l', r'.
      * intros _. right. now exists [], a, b, l, r.
  - intros [(y & r' & ->)|(p & x & y & l' & r' & -> & -> & H)].
    + rewrite <- (app_nil_r l) at 1. now rewrite (lex_app c (gc_refl c G)).
    + rewrite (lex_app c (gc_refl c G)). cbn [lex]. now rewrite H.
Qed.

Definition rfc_example_names : list name :=
  let example := [101; 120; 97; 109; 112; 108; 101] in
  [ mkName true [example];
    mkName true [[97]; example];
    mkName true [[121; 108; 106; 107; 106; 108; 106; 107]; [97]; example];
    mkName true [[90]; [97]; example];
    mkName true [[122; 65; 66; 67]; [97]; [69; 88; 65; 77; 80; 76; 69]];
    mkName true [[122]; example];
    mkName true [[1]; [122]; example];
    mkName true [[42]; [122]; example];
    mkName true [[128]; [122]; example] ].

Fixpoint strictly_sorted (c : name -> name -> comparison) (l : list name) : bool :=
  match l with
  | a :: ((b :: _) as t) => match c a b with Lt => strictly_sorted c t | _ => false end
  | _ => true
  end.

From HV Require Import Lib.Base Lib.ListX C16.Model.
Open Scope N_scope.

Lemma ip_eqb_eq x y : ip_eqb x y = true <-> x = y.
Proof.
  destruct x as [a|a], y as [b|b]; cbn [ip_eqb]; rewrite ?N.eqb_eq; split; congruence.
Qed.

Lemma label_eqb_spec f a b : label_eqb f a b = true <-> map f a = map f b.
Proof. apply list_eqb_map. intros; apply N.eqb_eq. Qed.

Lemma name_eqb_spec f a b : name_eqb f a b = true <-> map (map f) a = map (map f) b.
Proof. apply list_eqb_map. intros; apply label_eqb_spec. Qed.

Lemma name_eq_cs_spec a b : name_eq_cs a b = true <-> a = b.
Proof. apply list_eqb_eq. intros l l'. apply list_eqb_eq. intros x y. apply N.eqb_eq. Qed.

Lemma same_name_ci_refl a : same_name_ci a a.
Proof. reflexivity. Qed.

Lemma query_eqb_spec a b :
  query_eqb a b = true <-> same_name_ci (qname a) (qname b) /\ qtype a = qtype b /\ qclass a = qclass b.
Proof.
  unfold query_eqb. rewrite !andb_true_iff, (name_eqb_spec lower), !N.eqb_eq. tauto.
Qed.

(* a question section entry is "asked" in the case-insensitive sense; [fatal] in the model
   spells this body out inline *)
Definition asked_loose (rq : request) (e : query) : Prop :=
  exists r, In r (r_qs rq) /\ qtype r = qtype e /\ qclass r = qclass e /\ same_name_ci (qname r) (qname e).
Definition asked_exact (rq : request) (e : query) : Prop :=
  exists r, In r (r_qs rq) /\ qtype r = qtype e /\ qclass r = qclass e /\ qname r = qname e.

Lemma asked_ci_spec rq e : asked_ci rq e = true <-> asked_loose rq e.
Proof. apply existsb_iff. intros r. rewrite query_eqb_spec. tauto. Qed.

Lemma asked_cs_spec rq e : asked_cs rq e = true <-> asked_exact rq e.
Proof.
  apply existsb_iff. intros r. rewrite andb_true_iff, query_eqb_spec, name_eq_cs_spec.
  split; [tauto|]. intros (Hty & Hcl & Hname). rewrite Hname. repeat split; auto.
Qed.

Lemma asked_exact_loose rq e : asked_exact rq e -> asked_loose rq e.
Proof. intros (r & Hin & Hty & Hcl & Hname). exists r. rewrite Hname. repeat split; auto. Qed.

Lemma asked_unfold rq e :
  asked rq e <-> if r_case rq then asked_exact rq e else asked_loose rq e.
Proof.
  unfold asked, asked_exact, asked_loose. destruct (r_case rq); reflexivity.
Qed.

Lemma from_server_spec rq d :
  (negb (ip_eqb (canon (d_ip d)) (canon (r_ip rq))) || negb (N.eqb (d_port d) (r_port rq))) = false
  <-> from_server rq d.
Proof.
  unfold from_server. rewrite orb_false_iff, !negb_false_iff, ip_eqb_eq, N.eqb_eq. reflexivity.
Qed.

Lemma all_asked_exact rq qs :
  r_case rq = true -> (forall e, In e qs -> asked rq e) <-> (forall e, In e qs -> asked_exact rq e).
Proof. intros Hc. unfold asked, asked_exact. rewrite Hc. reflexivity. Qed.

Lemma all_asked_loose rq qs :
  r_case rq = false -> (forall e, In e qs -> asked rq e) <-> (forall e, In e qs -> asked_loose rq e).
Proof. intros Hc. unfold asked, asked_loose. rewrite Hc. reflexivity. Qed.

Lemma asked_is_loose rq e : asked rq e -> asked_loose rq e.
Proof. rewrite asked_unfold. destruct (r_case rq); [apply asked_exact_loose|auto]. Qed.

Lemma matching_not_fatal rq d : matching rq d -> fatal rq d -> False.
Proof.
  intros [_ (qs & Hb & Hall)] [_ Hf]. rewrite Hb in Hf. destruct Hf as (_ & _ & _ & Hn). auto.
Qed.

Definition verdict_spec (rq : request) (d : datagram) (v : verdict) : Prop :=
  match v with
  | Accept qs' => matching rq d /\ exists qs, d_body d = BMsg true (r_id rq) qs /\ qs' = restore rq qs
  | Fail e => fatal rq d /\ e = fatal_class d
  | Skip => ~ matching rq d /\ ~ fatal rq d
  end.

(* the one walk through the decision tree of [examine] *)
Lemma examine_sound rq d : verdict_spec rq d (examine rq d).
Proof.
  unfold verdict_spec, examine, matching, fatal, fatal_class. cbv zeta.
  destruct (negb (ip_eqb (canon (d_ip d)) (canon (r_ip rq))) || negb (N.eqb (d_port d) (r_port rq))) eqn:Hsrc.
  { assert (Hn : ~ from_server rq d) by (rewrite <- from_server_spec; congruence). tauto. }
  apply from_server_spec in Hsrc. destruct (d_body d) as [|[|] id qs]; [tauto| |tauto].
  destruct (N.eqb_spec (r_id rq) id) as [<-|Hid]; cbn [negb].
  2:{ split; [intros [_ (q & Hq & _)]|intros [_ [Hi _]]]; congruence. }
  pose proof (forallb_iff (asked_ci rq) (asked_loose rq) qs (asked_ci_spec rq)) as Hci.
  pose proof (forallb_iff (asked_cs rq) (asked_exact rq) qs (asked_cs_spec rq)) as Hcs.
  destruct (forallb (asked_ci rq) qs).
  - assert (Hl : forall e, In e qs -> asked_loose rq e) by now apply Hci.
    destruct (r_case rq) eqn:Ecase; [destruct (forallb (asked_cs rq) qs)|]; cbn [andb negb].
    + split; [|eauto]. split; [exact Hsrc|]. exists qs. split; [reflexivity|].
      apply all_asked_exact; [exact Ecase|]. now apply Hcs.
    + split; [|reflexivity]. split; [exact Hsrc|]. repeat split; [exact Hl|].
      intros Hall. discriminate (proj2 Hcs (proj1 (all_asked_exact rq qs Ecase) Hall)).
    + split; [|eauto]. split; [exact Hsrc|]. exists qs. split; [reflexivity|].
      apply all_asked_loose; assumption.
  - rewrite andb_false_r. cbn [andb negb]. split.
    + intros [_ (q & Hq & Hall)]. inversion Hq; subst q.
      assert (false = true); [|discriminate]. apply Hci. intros e He. apply asked_is_loose, Hall, He.
    + intros [_ (_ & _ & Hl & _)]. apply Hci in Hl. discriminate.
Qed.

Lemma examine_iff rq d v : examine rq d = v <-> verdict_spec rq d v.
Proof.
  pose proof (examine_sound rq d) as H. split; [intros <-; exact H|]. intros Hv.
  (* the three classes exclude one another *)
  destruct v as [|e|qs'], (examine rq d) as [|e0|qs0]; cbn [verdict_spec] in H, Hv;
    try tauto; try (destruct (matching_not_fatal rq d); tauto).
  - destruct H as [_ ->], Hv as [_ ->]. reflexivity.
  - destruct H as [_ (q0 & Hb0 & ->)], Hv as [_ (q & Hb & ->)]. congruence.
Qed.

Lemma recv_loop_skips rq pre : Forall (skippable rq) pre -> forall k n rest,
  recv_loop rq (length pre + k) n (pre ++ rest) = recv_loop rq k (length pre + n) rest.
Proof.
  induction 1 as [|ev pre Hev _ IH]; intros k n rest; [reflexivity|].
  destruct ev as [d|]; [|destruct Hev]. cbn [length app Nat.add recv_loop].
  rewrite (proj2 (examine_iff rq d Skip) Hev), IH. f_equal. lia.
Qed.

Lemma udp_recv_skips rq pre rest :
  Forall (skippable rq) pre -> (length pre <= ATTEMPTS)%nat ->
  udp_recv rq (pre ++ rest) = recv_loop rq (ATTEMPTS - length pre) (length pre) rest.
Proof.
  intros Hf Hl. unfold udp_recv. replace ATTEMPTS with (length pre + (ATTEMPTS - length pre))%nat at 1 by lia.
  rewrite recv_loop_skips by exact Hf. now rewrite Nat.add_0_r.
Qed.

Lemma udp_recv_round rq pre rest :
  Forall (skippable rq) pre -> (length pre < ATTEMPTS)%nat ->
  exists k, udp_recv rq (pre ++ rest) = recv_loop rq (S k) (length pre) rest.
Proof.
  intros Hf Hl. rewrite udp_recv_skips by (auto; lia).
  destruct (ATTEMPTS - length pre)%nat as [|k] eqn:Ek; [lia|]. now exists k.
Qed.

Lemma udp_spec_sound rq evs o : udp_spec rq evs o -> udp_recv rq evs = o.
Proof.
  intros H. destruct H as [pre d post qs Hl Hf Hm Hb|pre d post Hl Hf Hd|pre post Hl Hf|pre post Hl Hf|pre Hl Hf].
  - (* sp_accept *) destruct (udp_recv_round rq pre (SDg d :: post) Hf Hl) as [k ->]. cbn [recv_loop].
    now rewrite (proj2 (examine_iff rq d (Accept (restore rq qs))) (conj Hm (ex_intro _ qs (conj Hb eq_refl)))).
  - (* sp_fatal *) destruct (udp_recv_round rq pre (SDg d :: post) Hf Hl) as [k ->]. cbn [recv_loop].
    now rewrite (proj2 (examine_iff rq d (Fail (fatal_class d))) (conj Hd eq_refl)).
  - (* sp_ioerr *) destruct (udp_recv_round rq pre (SErr :: post) Hf Hl) as [k ->]. reflexivity.
  - (* sp_exceeded: no round is left *) rewrite udp_recv_skips by (auto; lia). now rewrite Hl, Nat.sub_diag.
  - (* sp_waiting *) rewrite <- (app_nil_r pre) at 1. destruct (udp_recv_round rq pre [] Hf Hl) as [k ->]. reflexivity.
Qed.

Lemma udp_spec_complete_from rq : forall k pre evs,
  Forall (skippable rq) pre -> (length pre + k = ATTEMPTS)%nat ->
  udp_spec rq (pre ++ evs) (recv_loop rq k (length pre) evs).
Proof.
  induction k as [|k IH]; intros pre evs Hf Hl; cbn [recv_loop].
  - apply sp_exceeded; [lia|exact Hf].
  - destruct evs as [|[d|] evs].
    + rewrite app_nil_r. apply sp_waiting; [lia|exact Hf].
    + pose proof (examine_sound rq d) as E. destruct (examine rq d) as [|e|qs'].
      * specialize (IH (pre ++ [SDg d]) evs). rewrite app_length, <- app_assoc, Nat.add_1_r in IH.
        apply IH; [|cbn [length]; lia]. apply Forall_app. split; [exact Hf|]. constructor; [exact E|constructor].
      * destruct E as [Hd ->]. apply sp_fatal; [lia|exact Hf|exact Hd].
      * destruct E as [Hm (qs & Hb & ->)]. apply sp_accept; [lia|exact Hf|exact Hm|exact Hb].
    + apply sp_ioerr; [lia|exact Hf].
Qed.

Lemma udp_spec_complete rq evs : udp_spec rq evs (udp_recv rq evs).
Proof. exact (udp_spec_complete_from rq ATTEMPTS [] evs (Forall_nil _) eq_refl). Qed.

Lemma udp_spec_iff rq evs o : udp_spec rq evs o <-> udp_recv rq evs = o.
Proof. split; [apply udp_spec_sound|intros <-; apply udp_spec_complete]. Qed.

Lemma examined_le rq evs : (examined (udp_recv rq evs) <= ATTEMPTS)%nat.
Proof.
  pose proof (udp_spec_complete rq evs) as H.
  destruct H; cbn [examined]; lia.
Qed.

Lemma app_inv_length {A} (a1 a2 b1 b2 : list A) :
  length a1 = length a2 -> a1 ++ b1 = a2 ++ b2 -> a1 = a2 /\ b1 = b2.
Proof. apply app_inj_length. Qed.

Lemma skip_wrong_source rq d : ~ from_server rq d -> skippable rq (SDg d).
Proof. intros H. split; intros [Hs _]; auto. Qed.

Lemma skip_wrong_id rq d id qs :
  d_body d = BMsg true id qs -> id <> r_id rq -> skippable rq (SDg d).
Proof.
  intros Hb Hid. split.
  - intros [_ (q & Hq & _)]. congruence.
  - intros [_ Hf]. rewrite Hb in Hf. destruct Hf as [Hi _]. auto.
Qed.

Lemma skip_unasked_question rq d id qs e :
  d_body d = BMsg true id qs -> In e qs ->
  (forall r, In r (r_qs rq) -> qtype r = qtype e -> qclass r = qclass e -> ~ same_name_ci (qname r) (qname e)) ->
  skippable rq (SDg d).
Proof.
  intros Hb He Hno.
  assert (Hn : ~ asked_loose rq e) by (intros (r & Hin & Hty & Hcl & Hname); exact (Hno r Hin Hty Hcl Hname)).
  split.
  - intros [_ (q & Hq & Hall)]. rewrite Hb in Hq. inversion Hq; subst q.
    exact (Hn (asked_is_loose rq e (Hall e He))).
  - intros [_ Hf]. rewrite Hb in Hf. destruct Hf as (_ & _ & Hl & _). exact (Hn (Hl e He)).
Qed.


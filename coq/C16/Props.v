From HV Require Import Lib.Base C16.Model C16.UdpProofs C16.RetryProofs C16.MuxProofs.
Open Scope N_scope.

(* The receive loop is exactly the specified relation: for EVERY list of socket results the
   outcome is the unique one allowed by [udp_spec] (accept the first matching datagram
   among the first three if only skippable ones precede it; fail on a fatal one or an io
   error; "attempts exceeded" after three skippable ones; otherwise keep waiting). *)
Theorem C16_udp_outcome_characterised : forall rq evs o,
  udp_recv rq evs = o <-> udp_spec rq evs o.
Proof. intros. symmetry. apply udp_spec_iff. Qed.
Print Assumptions C16_udp_outcome_characterised.

(* completes with datagram d  <=>  d is a matching reply (right canonical source address and
   port, a response carrying the query's id, every question one that was asked, with
   identical case under case randomisation), it is among the first three, and everything
   before it was skippable *)
Theorem C16_udp_accept_iff : forall rq evs n d,
  (exists qs, udp_recv rq evs = Accepted n d qs) <->
  ((n < 3)%nat /\ exists pre post, evs = pre ++ SDg d :: post /\ length pre = n /\
                                  Forall (skippable rq) pre /\ matching rq d).
Proof.
  intros rq evs n d. split.
  - intros (qs & H). apply udp_spec_iff in H. inversion H as [pre d' post qs' Hl Hf Hm Hb| | | |]; subst.
    split; [exact Hl|]. exists pre, post. auto.
  - intros (Hn & pre & post & -> & <- & Hf & Hm). destruct Hm as [Hs (qs & Hb & Hall)].
    exists (restore rq qs). apply udp_spec_iff. apply sp_accept; auto. split; [exact Hs|]. exists qs. auto.
Qed.
Print Assumptions C16_udp_accept_iff.

(* the forward direction of C16_udp_accept_iff, said by position in the script *)
Theorem C16_udp_never_accepts_mismatch : forall rq evs n d qs,
  udp_recv rq evs = Accepted n d qs ->
  matching rq d /\ (n < 3)%nat /\ nth_error evs n = Some (SDg d) /\
  (forall i, (i < n)%nat -> exists e, nth_error evs i = Some e /\ skippable rq e).
Proof.
  intros rq evs n d qs H. destruct (proj1 (C16_udp_accept_iff rq evs n d) (ex_intro _ qs H)) as (Hn & pre & post & -> & <- & Hf & Hm).
  split; [exact Hm|]. split; [exact Hn|]. split.
  - rewrite nth_error_app2 by lia. now rewrite Nat.sub_diag.
  - intros i Hi. rewrite nth_error_app1 by exact Hi.
    destruct (nth_error pre i) as [e|] eqn:E; [|apply nth_error_None in E; lia].
    exists e. split; [reflexivity|]. rewrite Forall_forall in Hf. apply Hf. eapply nth_error_In, E.
Qed.
Print Assumptions C16_udp_never_accepts_mismatch.

(* at most three datagrams are examined, and after three skipped ones the transmission
   fails whatever follows (even the genuine reply) *)
Theorem C16_udp_at_most_three : forall rq evs,
  (examined (udp_recv rq evs) <= 3)%nat /\
  (forall pre post, evs = pre ++ post -> length pre = 3%nat -> Forall (skippable rq) pre ->
                    udp_recv rq evs = Exceeded).
Proof.
  intros rq evs. split; [apply examined_le|]. intros pre post -> Hl Hf. apply udp_spec_iff. now apply sp_exceeded.
Qed.
Print Assumptions C16_udp_at_most_three.

(* the forgeries named in the property are skipped, never fatal, never accepted *)
Theorem C16_udp_forgeries_skipped : forall rq d,
  (canon (d_ip d) <> canon (r_ip rq) \/ d_port d <> r_port rq \/
   (exists id qs, d_body d = BMsg true id qs /\
      (id <> r_id rq \/
       exists e, In e qs /\ forall r, In r (r_qs rq) -> qtype r = qtype e -> qclass r = qclass e ->
                                      ~ same_name_ci (qname r) (qname e)))) ->
  skippable rq (SDg d).
Proof.
  intros rq d [H|[H|(id & qs & Hb & [H|(e & He & Hno)])]].
  - apply skip_wrong_source. intros [Hs _]. auto.
  - apply skip_wrong_source. intros [_ Hp]. auto.
  - eapply skip_wrong_id; eauto.
  - eapply skip_unasked_question; eauto.
Qed.
Print Assumptions C16_udp_forgeries_skipped.

(* address comparison: equal after canonicalisation = same address, or one is the
   IPv4-mapped IPv6 spelling of the other *)
Theorem C16_udp_canonical_source : forall x y,
  canon x = canon y <->
  match x, y with
  | V4 a, V4 b => a = b
  | V6 a, V6 b => a = b \/ (a / 4294967296 = 65535 /\ b / 4294967296 = 65535 /\ a mod 4294967296 = b mod 4294967296)
  | V4 a, V6 b => b / 4294967296 = 65535 /\ b mod 4294967296 = a
  | V6 a, V4 b => a / 4294967296 = 65535 /\ a mod 4294967296 = b
  end.
Proof.
  intros [a|a] [b|b]; cbn [canon].
  - split; congruence.
  - destruct (N.eqb_spec (b / 4294967296) 65535) as [E|E].
    + split; [intros H; inversion H; auto|intros [_ <-]; auto].
    + split; [discriminate|intros [H _]; congruence].
  - destruct (N.eqb_spec (a / 4294967296) 65535) as [E|E].
    + split; [intros H; inversion H; auto|intros [_ <-]; auto].
    + split; [discriminate|intros [H _]; congruence].
  - destruct (N.eqb_spec (a / 4294967296) 65535) as [Ea|Ea], (N.eqb_spec (b / 4294967296) 65535) as [Eb|Eb].
    + split; [intros H; inversion H; auto|intros [->|(_ & _ & ->)]; reflexivity].
    + split; [discriminate|]. intros [->|(_ & H & _)]; congruence.
    + split; [discriminate|]. intros [->|(H & _ & _)]; congruence.
    + split; [intros H; inversion H; auto|]. intros [->|(H & _ & _)]; [reflexivity|congruence].
Qed.
Print Assumptions C16_udp_canonical_source.

(* Non-vacuity: a request (id 0x1234, to 192.0.2.53) with case randomisation, two forged
   datagrams (wrong port, wrong id) and then the genuine reply from the IPv4-mapped spelling
   ::ffff:192.0.2.53 of the server address. *)
Definition ex_q : query := Q [[119; 87; 119]; [99; 111; 109]] 1 1.            (* wWw.com *)
Definition ex_rq : request := RQ (V4 3221226037) 53 4660 [ex_q] true (Some (Q [[119; 119; 119]; [99; 111; 109]] 1 1)).
Definition ex_forged1 := DG (V4 3221226037) 54 (BMsg true 4660 [ex_q]).
Definition ex_forged2 := DG (V4 3221226037) 53 (BMsg true 4661 [ex_q]).
Definition ex_genuine := DG (V6 281473902969397) 53 (BMsg true 4660 [ex_q]).
Definition ex_flipped := DG (V4 3221226037) 53 (BMsg true 4660 [Q [[119; 119; 119]; [99; 111; 109]] 1 1]).

Example C16_udp_example :
  Forall (skippable ex_rq) [SDg ex_forged1; SDg ex_forged2] /\ matching ex_rq ex_genuine /\
  fatal ex_rq ex_flipped /\
  udp_recv ex_rq [SDg ex_forged1; SDg ex_forged2; SDg ex_genuine] =
    Accepted 2 ex_genuine [Q [[119; 119; 119]; [99; 111; 109]] 1 1] /\
  udp_recv ex_rq [SDg ex_forged1; SDg ex_flipped; SDg ex_genuine] = Failed 1 ECase /\
  udp_recv ex_rq [SDg ex_forged1; SDg ex_forged2; SDg ex_forged1; SDg ex_genuine] = Exceeded.
Proof.
  assert (Hport : examine ex_rq ex_forged1 = Skip) by (vm_compute; reflexivity).
  assert (Hid : examine ex_rq ex_forged2 = Skip) by (vm_compute; reflexivity).
  assert (Hgen : examine ex_rq ex_genuine = Accept [Q [[119; 119; 119]; [99; 111; 109]] 1 1]) by (vm_compute; reflexivity).
  assert (Hflip : examine ex_rq ex_flipped = Fail ECase) by (vm_compute; reflexivity).
  apply examine_iff in Hport. apply examine_iff in Hid. apply examine_iff in Hgen. apply examine_iff in Hflip.
  split. { constructor; [exact Hport|constructor; [exact Hid|constructor]]. }
  split. { exact (proj1 Hgen). }
  split. { exact (proj1 Hflip). }
  split; [vm_compute; reflexivity|]. split; vm_compute; reflexivity.
Qed.

(* UDP: the whole request — retransmissions on fresh sockets (`retry`), any interleaving of
   socket results, retry-timer ticks and the deadline.  [max_tasks] is the stream's
   `max_retries`, which it hands to `retry` unchanged. *)

(* Whichever transmission completes the request and however retransmissions interleave: the
   accepted datagram is a matching reply that arrived on that transmission's socket, at most
   two datagrams were skipped on that socket before it, and there are at most
   max(1, max_retries) transmissions. *)
Theorem C16_udp_request_accept_sound : forall rq max_tasks sups evs i n d qs,
  udp_request rq max_tasks sups evs = RAccepted i n d qs ->
  matching rq d /\ (n < 3)%nat /\ In (URx i (SDg d)) evs /\ (i < Nat.max 1 max_tasks)%nat.
Proof.
  intros rq max_tasks sups evs i n d qs. unfold udp_request. pose proof (first_tx_inv max_tasks sups) as Hi.
  destruct (start_tx_cases (RS [] true sups)) as [E|[e E]]; rewrite E in *; [|discriminate].
  apply rrun_accept, Hi. reflexivity.
Qed.
Print Assumptions C16_udp_request_accept_sound.

(* While the request is still running, after ANY script: at most max(1, max_retries)
   transmissions exist and each has examined at most two datagrams (the third examination
   always ends the request: accept, error or "attempts exceeded"). *)
Theorem C16_udp_request_bounded : forall rq max_tasks sups evs st0 st,
  start_tx (RS [] true sups) = inl st0 ->
  rafter rq max_tasks st0 evs = Some st ->
  (length (txs st) <= Nat.max 1 max_tasks)%nat /\
  Forall (fun t => (t_seen t <= 2)%nat /\ (t_left t + t_seen t = 3)%nat) (txs st).
Proof.
  intros rq max_tasks sups evs st0 st Hs Ha.
  destruct (rafter_inv rq max_tasks evs st0 st (first_tx_inv max_tasks sups st0 Hs) Ha) as [Hf Hl].
  split; [exact Hl|].
  eapply Forall_impl; [|exact Hf]. intros t [Hsum Hleft]. unfold ATTEMPTS in Hsum. lia.
Qed.
Print Assumptions C16_udp_request_bounded.

(* With a single transmission the request is exactly the receive loop characterised above. *)
Theorem C16_udp_request_single_transmission : forall rq max_tasks sevs,
  udp_request rq max_tasks [] (map (URx O) sevs) = lift (udp_recv rq sevs).
Proof.
  intros rq max_tasks sevs. unfold udp_request, start_tx. cbn [setups txs app length].
  apply rrun_single. unfold ATTEMPTS. lia.
Qed.
Print Assumptions C16_udp_request_single_transmission.

Example C16_udp_request_example :
  (* the reply to the retransmission arrives on the second socket after a forged datagram on
     the first; later events are irrelevant *)
  udp_request ex_rq 3 [] [URx 0 (SDg ex_forged2); UTick; URx 1 (SDg ex_forged1); URx 1 (SDg ex_genuine); UDeadline]
    = RAccepted 1 1 ex_genuine [Q [[119; 119; 119]; [99; 111; 109]] 1 1] /\
  (* the deadline ends a request nobody answered *)
  udp_request ex_rq 3 [] [URx 0 (SDg ex_forged2); UTick; UDeadline; URx 1 (SDg ex_genuine)] = RTimedOut /\
  (* three forged datagrams on one socket end the request although another transmission is in flight *)
  udp_request ex_rq 3 [] [UTick; URx 0 (SDg ex_forged2); URx 0 (SDg ex_forged1); URx 0 (SDg ex_forged2); URx 1 (SDg ex_genuine)]
    = RExceeded 0 /\
  exists st0 st, start_tx (RS [] true []) = inl st0 /\
                 rafter ex_rq 2 st0 [UTick; UTick; URx 1 (SDg ex_forged1)] = Some st /\ length (txs st) = 2%nat.
Proof.
  split; [vm_compute; reflexivity|]. split; [vm_compute; reflexivity|]. split; [vm_compute; reflexivity|].
  eexists. eexists. split; [reflexivity|]. split; vm_compute; reflexivity.
Qed.

Definition reached (maxact : nat) (ops : list mop) : mux := fst (run (mux_init maxact) ops).
Definition pending (st : mux) (s : nat) (sl : slot) : Prop :=
  nth_error (slots st) s = Some sl /\ c_tx (s_chan sl) = true.

(* After ANY sequence of operations (any draws of the id generator included): the ids in the
   map are pairwise distinct, at most max_active_requests are in flight, the pending requests
   (sender alive) are exactly the entries of the map, and two different pending requests
   never share an id. *)
Theorem C16_mux_ids_distinct : forall maxact ops,
  let st := reached maxact ops in
  NoDup (map fst (active st)) /\ (length (active st) <= maxact)%nat /\
  (forall s sl, pending st s sl <-> exists id, In (id, s) (active st) /\ nth_error (slots st) s = Some sl /\ s_id sl = Some id) /\
  (forall s1 s2 sl1 sl2, pending st s1 sl1 -> pending st s2 sl2 -> s_id sl1 = s_id sl2 -> s1 = s2).
Proof.
  intros maxact ops st. assert (Hinv : Inv st) by exact (reachable_inv maxact ops). pose proof Hinv as [H Hm].
  split; [exact (i_ids _ _ H)|]. split; [unfold st, reached in Hm; now rewrite run_maxact in Hm|]. split.
  - intros s sl. split.
    + intros [Hs Ht]. destruct (i_tx _ _ H s sl Hs Ht) as (id & Hid & Hin). eauto.
    + intros (id & Hin & Hs & Hid). destruct (i_act _ _ H id s Hin) as (sl' & Hs' & _ & Ht).
      unfold slot_of in Hs'. split; [exact Hs|congruence].
  - intros s1 s2 sl1 sl2 [Hs1 Ht1] [Hs2 Ht2]. exact (pending_ids_distinct st s1 s2 sl1 sl2 Hinv Hs1 Hs2 Ht1 Ht2).
Qed.
Print Assumptions C16_mux_ids_distinct.

(* Whatever the interleaving: if polling the receiver of request number s yields a response,
   that response carries the id request s was started with. *)
Theorem C16_mux_routing : forall maxact ops j s id mk,
  nth_error ops j = Some (MTake s) ->
  nth_error (mux_run maxact ops) j = Some (OTake (TOk id mk)) ->
  nth_error (started_ids ops (mux_run maxact ops)) s = Some (Some id).
Proof.
  intros maxact ops j s id mk Hop Hob.
  exact (take_routed_trace ops (mux_init maxact) j s id mk (init_inv maxact) Hop Hob).
Qed.
Print Assumptions C16_mux_routing.

(* ... and it is a response the connection really yielded, handed out at most as often as it
   was yielded ([mk] tells responses with the same id apart, so that copies can be counted):
   at every point of every run, the number of times response (id, mk) has been handed to
   receivers (all requests together) is at most the number of times the stream yielded it so
   far.  So no response reaches two requests, none is duplicated or invented. *)
Theorem C16_mux_no_duplication : forall maxact ops id mk j,
  (count (is_tok id mk) (firstn j (mux_run maxact ops)) <= count (is_recv id mk) (firstn j ops))%nat.
Proof.
  intros maxact ops id mk j. unfold mux_run. rewrite run_firstn.
  pose proof (run_copies id mk (firstn j ops) (mux_init maxact)) as H.
  change (copies_inside id mk (mux_init maxact)) with O in H. lia.
Qed.
Print Assumptions C16_mux_no_duplication.

(* A response whose id belongs to a pending request is appended to that request's channel
   (unless the channel is full or its receiver gone) and to no other; the map is unchanged. *)
Theorem C16_mux_delivers : forall maxact ops id mk s sl,
  let st := reached maxact ops in
  pending st s sl -> s_id sl = Some id ->
  let st' := deliver (IMsg true id mk) st in
  active st' = active st /\
  (exists sl', nth_error (slots st') s = Some sl' /\ s_id sl' = Some id /\
      c_items (s_chan sl') = if c_rx (s_chan sl) && negb (c_parked (s_chan sl))
                             then c_items (s_chan sl) ++ [IOk id mk] else c_items (s_chan sl)) /\
  (forall t, t <> s -> nth_error (slots st') t = nth_error (slots st) t).
Proof.
  intros maxact ops id mk s sl st [Hs Ht] Hid.
  exact (deliver_routes st id mk s sl (reachable_inv maxact ops) Hs Hid Ht).
Qed.
Print Assumptions C16_mux_delivers.

(* Unknown ids (no pending request has it), undecodable messages and non-responses are dropped
   without any effect. *)
Theorem C16_mux_unknown_dropped : forall maxact ops m,
  let st := reached maxact ops in
  (m = IGarbage \/ (exists id mk, m = IMsg false id mk) \/
   (exists id mk, m = IMsg true id mk /\ forall s sl, pending st s sl -> s_id sl <> Some id)) ->
  deliver m st = st.
Proof.
  intros maxact ops m st [H|[H|(id & mk & -> & Hno)]].
  - apply deliver_undecodable. auto.
  - apply deliver_undecodable. auto.
  - apply deliver_unknown; [exact (reachable_inv maxact ops)|]. intros s sl Hs Ht. apply (Hno s sl). split; assumption.
Qed.
Print Assumptions C16_mux_unknown_dropped.

(* Closing: when a poll reports the end of the connection (the stream ended, failed, or the
   multiplexer was shut down with nothing in flight), every request that was in the map has
   been completed with the error (channel permitting) and its sender dropped, nothing is
   pending any more, and in every continuation no receiver is ever left waiting. *)
Theorem C16_mux_close_fails_all : forall maxact ops,
  let st := reached maxact ops in
  (forall e id s sl, In (id, s) (active st) -> nth_error (slots st) s = Some sl ->
      nth_error (slots (close_all e st)) s = Some (fail_slot e sl) /\ active (close_all e st) = []) /\
  (snd (poll st) = PDone ->
     let st' := fst (poll st) in
     active st' = [] /\ (forall s sl, ~ pending st' s sl) /\
     forall ops2 j s, nth_error ops2 j = Some (MTake s) ->
                      nth_error (snd (run st' ops2)) j <> Some (OTake TPending)).
Proof.
  intros maxact ops st. pose proof (reachable_inv maxact ops : Inv st) as Hinv. split.
  - intros e id s sl Hin Hs. split; [exact (close_all_fails_pending e st id s sl Hinv Hin Hs)|reflexivity].
  - intros Hd st'. pose proof (poll_done_closed st Hinv Hd : closed st') as (Hs & Ha & Hdead).
    split; [exact Ha|]. split.
    + intros s sl [Hsl Ht]. rewrite (Hdead s sl Hsl) in Ht. discriminate.
    + intros ops2 j s. exact (closed_no_pending ops2 st' j s (conj Hs (conj Ha Hdead))).
Qed.
Print Assumptions C16_mux_close_fails_all.

(* Timeouts and cancelled receivers (drop_cancelled): after any poll, a request whose timer has
   fired or whose receiver was dropped is no longer pending (its sender is gone, its id is free
   again) and its receiver is never left waiting. *)
Theorem C16_mux_timeouts_and_cancellations : forall maxact ops s sl,
  let st' := fst (poll (reached maxact ops)) in
  nth_error (slots st') s = Some sl ->
  (s_fired sl = true \/ c_rx (s_chan sl) = false) ->
  ~ pending st' s sl /\ snd (take s st') <> TPending.
Proof.
  intros maxact ops s sl st' Hs Hflag.
  destruct (poll_drops_cancelled (reached maxact ops) s sl (reachable_inv maxact ops) Hs Hflag) as [Ht Hn].
  split; [|exact Hn]. intros [_ Hp]. fold st' in Hs. congruence.
Qed.
Print Assumptions C16_mux_timeouts_and_cancellations.

Example C16_mux_timeout_example :
  mux_run 32 [MSend [7]; MSend [9]; MTimeout 0; MCancel 1; MPoll; MTake 0; MSend [7]; MRecv (IMsg true 7 1); MPoll; MTake 0; MTake 2]
  = [OSend (SStarted 7); OSend (SStarted 9); OUnit; OUnit; OPoll PPending; OTake TNone; OSend (SStarted 7); OUnit;
     OPoll PPending; OTake TNone; OTake (TOk 7 1)].
Proof. vm_compute. reflexivity. Qed.

(* Non-vacuity: three concurrent requests (the first two draws of the third request collide with
   ids in flight and are skipped), responses out of order, one duplicated, one for an unknown
   id, one garbage; then the stream ends. *)
Definition ex_ops : list mop :=
  [MSend [7]; MSend [9]; MSend [7; 9; 5]; MRecv (IMsg true 5 101); MRecv (IMsg true 8 102);
   MRecv IGarbage; MRecv (IMsg true 7 103); MRecv (IMsg true 7 103); MPoll;
   MTake 2; MTake 0; MTake 0; MTake 0; MTake 1; MEof; MPoll; MTake 1; MTake 1; MTake 0].

Example C16_mux_example :
  mux_run 32 ex_ops =
  [OSend (SStarted 7); OSend (SStarted 9); OSend (SStarted 5); OUnit; OUnit; OUnit; OUnit; OUnit;
   OPoll PPending; OTake (TOk 5 101); OTake (TOk 7 103); OTake (TOk 7 103); OTake TPending;
   OTake TPending; OUnit; OPoll PDone; OTake (TErr NClosedEof); OTake TNone; OTake (TErr NClosedEof)] /\
  started_ids ex_ops (mux_run 32 ex_ops) = [Some 7; Some 9; Some 5] /\
  count (is_recv 7 103) ex_ops = 2%nat /\ count (is_tok 7 103) (mux_run 32 ex_ops) = 2%nat /\
  snd (poll (reached 32 (firstn 15 ex_ops))) = PDone /\
  (exists sl, pending (reached 32 (firstn 3 ex_ops)) 1 sl /\ s_id sl = Some 9).
Proof.
  split; [vm_compute; reflexivity|]. split; [vm_compute; reflexivity|]. split; [vm_compute; reflexivity|].
  split; [vm_compute; reflexivity|]. split; [vm_compute; reflexivity|].
  eexists. split; [split|]; vm_compute; reflexivity.
Qed.

Example C16_mux_unknown_example :
  let st := reached 32 [MSend [7]] in
  (forall s sl, pending st s sl -> s_id sl <> Some 8) /\ (exists sl, pending st 0 sl) /\
  deliver (IMsg true 8 1) st = st.
Proof.
  cbv zeta. split; [|split].
  - intros s sl [Hs Ht]. destruct s as [|[|s]]; vm_compute in Hs; inversion Hs; subst; vm_compute; discriminate.
  - eexists. split; vm_compute; reflexivity.
  - vm_compute. reflexivity.
Qed.

Example C16_mux_timeout_hyp_example :
  let st' := fst (poll (reached 32 [MSend [7]; MSend [9]; MTimeout 0; MCancel 1])) in
  (exists sl, nth_error (slots st') 0 = Some sl /\ s_fired sl = true /\ c_items (s_chan sl) = [IErr NTimeout]) /\
  (exists sl, nth_error (slots st') 1 = Some sl /\ c_rx (s_chan sl) = false) /\ active st' = [].
Proof.
  cbv zeta. split; [|split].
  - eexists. split; [|split]; vm_compute; reflexivity.
  - eexists. split; vm_compute; reflexivity.
  - vm_compute. reflexivity.
Qed.

(* C16 — proofs about the DnsMultiplexer model.  Every operation is a sequence of a few
   kinds of atomic change to the state ([tau], [chg]; [poll_preserves], [step_preserves]).
   What holds of every reachable state ([Inv]), of every state once the connection has ended
   ([closed]), and that the potential [copies_inside] does not grow, is shown change by
   change. *)
From HV Require Import Lib.Base Lib.ListX C16.Model.
Open Scope N_scope.

Lemma upd_length {A} n (f : A -> A) l : length (upd n f l) = length l.
Proof. revert n; induction l as [|x l IH]; intros [|n]; cbn [upd length]; auto. Qed.

Lemma nth_upd_same {A} n (f : A -> A) l : nth_error (upd n f l) n = option_map f (nth_error l n).
Proof. revert n; induction l as [|x l IH]; intros [|n]; cbn [upd nth_error option_map]; auto. Qed.

Lemma nth_upd_other {A} n m (f : A -> A) l : n <> m -> nth_error (upd n f l) m = nth_error l m.
Proof.
  revert n m; induction l as [|x l IH]; intros [|n] [|m] H; cbn [upd nth_error]; auto; try congruence.
Qed.

Lemma nth_upd_inv {A} n m (f : A -> A) l y :
  nth_error (upd n f l) m = Some y ->
  exists x, nth_error l m = Some x /\ ((n = m /\ y = f x) \/ (n <> m /\ y = x)).
Proof.
  intros H. destruct (Nat.eq_dec n m) as [->|Hne].
  - rewrite nth_upd_same in H. destruct (nth_error l m) as [x|]; [|discriminate].
    inversion H. exists x. auto.
  - rewrite nth_upd_other in H by exact Hne. exists y. auto.
Qed.

Lemma upd_none {A} (f : A -> A) s l : nth_error l s = None -> upd s f l = l.
Proof.
  revert s; induction l as [|x l IH]; intros [|s] H; cbn [upd nth_error] in *; try discriminate; auto.
  f_equal. auto.
Qed.

Lemma map_upd {A B} (g : A -> B) f s l : (forall x, g (f x) = g x) -> map g (upd s f l) = map g l.
Proof.
  intros Hf. revert s; induction l as [|x l IH]; intros [|s]; cbn [upd map]; auto.
  - now rewrite Hf.
  - now rewrite IH.
Qed.

Lemma nth_app_old {A} {l : list A} l' {m x} : nth_error l m = Some x -> nth_error (l ++ l') m = Some x.
Proof. intros H. rewrite nth_error_app1; [exact H|]. apply nth_error_Some. congruence. Qed.

Lemma nth_snoc_inv {A} (l : list A) y m x :
  nth_error (l ++ [y]) m = Some x -> nth_error l m = Some x \/ (m = length l /\ x = y).
Proof.
  intros H. destruct (Nat.lt_ge_cases m (length l)) as [Hlt|Hge].
  - left. now rewrite nth_error_app1 in H.
  - right. rewrite nth_error_app2 in H by exact Hge.
    destruct (m - length l)%nat as [|[|k]] eqn:E; cbn in H; try discriminate.
    inversion H. split; [lia|reflexivity].
Qed.

Lemma lookup_in id a s : lookup id a = Some s -> In (id, s) a.
Proof.
  induction a as [|[i t] a IH]; cbn [lookup]; [discriminate|].
  destruct (N.eqb_spec i id) as [->|_].
  - intros H; inversion H; subst. left; reflexivity.
  - intros H. right. auto.
Qed.

Lemma lookup_none id a : lookup id a = None <-> ~ In id (map fst a).
Proof.
  induction a as [|[i t] a IH]; cbn [lookup map fst In]; [tauto|].
  destruct (N.eqb_spec i id) as [E|E].
  - split; [discriminate|tauto].
  - rewrite IH. tauto.
Qed.

Lemma NoDup_map_inj {A B} (f : A -> B) l x y :
  NoDup (map f l) -> In x l -> In y l -> f x = f y -> x = y.
Proof.
  induction l as [|z l IH]; cbn [map In]; [tauto|].
  intros Hnd Hx Hy E. apply NoDup_cons_iff in Hnd. destruct Hnd as [Hni Hnd].
  destruct Hx as [->|Hx], Hy as [->|Hy]; auto; exfalso; apply Hni.
  - rewrite E. now apply in_map.
  - rewrite <- E. now apply in_map.
Qed.

Lemma nodup_fst_unique {A B} (l : list (A * B)) k a b :
  NoDup (map fst l) -> In (k, a) l -> In (k, b) l -> a = b.
Proof. intros Hnd Ha Hb. pose proof (NoDup_map_inj fst l _ _ Hnd Ha Hb eq_refl). congruence. Qed.

Lemma nodup_snd_unique {A B} (l : list (A * B)) k a b :
  NoDup (map snd l) -> In (a, k) l -> In (b, k) l -> a = b.
Proof. intros Hnd Ha Hb. pose proof (NoDup_map_inj snd l _ _ Hnd Ha Hb eq_refl). congruence. Qed.

Lemma lookup_some_of_in id s a : NoDup (map fst a) -> In (id, s) a -> lookup id a = Some s.
Proof.
  intros Hnd Hin. destruct (lookup id a) as [t|] eqn:E.
  - apply lookup_in in E. f_equal. exact (nodup_fst_unique a id t s Hnd E Hin).
  - apply lookup_none in E. exfalso. apply E. exact (in_map fst _ _ Hin).
Qed.

Lemma pick_id_fresh fuel draws a id : pick_id fuel draws a = Some id -> lookup id a = None /\ In id draws.
Proof.
  revert draws; induction fuel as [|f IH]; intros [|d ds]; cbn [pick_id]; try discriminate.
  destruct (lookup d a) eqn:E.
  - intros H. destruct (IH ds H). split; [assumption|right; assumption].
  - intros H. inversion H; subst. split; [assumption|left; reflexivity].
Qed.

Lemma chan_send_tx x c : c_tx (chan_send x c) = c_tx c.
Proof. unfold chan_send. destruct (c_rx c), (c_parked c); reflexivity. Qed.

Lemma chan_send_rx x c : c_rx (chan_send x c) = c_rx c.
Proof. unfold chan_send. destruct (c_rx c) eqn:E, (c_parked c); cbn; auto. Qed.

Lemma chan_send_items x c :
  c_items (chan_send x c) = if c_rx c && negb (c_parked c) then c_items c ++ [x] else c_items c.
Proof. unfold chan_send. destruct (c_rx c), (c_parked c); reflexivity. Qed.

Lemma chan_send_in y x c : In y (c_items (chan_send x c)) -> In y (c_items c) \/ y = x.
Proof.
  rewrite chan_send_items. destruct (c_rx c && negb (c_parked c)); [|auto].
  intros H. apply in_app_or in H. destruct H as [H|[H|[]]]; auto.
Qed.

Lemma fail_slot_id e sl : s_id (fail_slot e sl) = s_id sl.
Proof. reflexivity. Qed.
Lemma fail_slot_tx e sl : c_tx (s_chan (fail_slot e sl)) = false.
Proof. reflexivity. Qed.
Lemma fail_slot_items e sl id mk :
  In (IOk id mk) (c_items (s_chan (fail_slot e sl))) -> In (IOk id mk) (c_items (s_chan sl)).
Proof.
  cbn. intros H. apply chan_send_in in H. destruct H as [H|H]; [exact H|discriminate].
Qed.

Definition slot_of (sls : list slot) (s : nat) (sl : slot) : Prop := nth_error sls s = Some sl.

(* [a] pairs ids and slots one to one; the slots whose sender is alive are exactly those in
   [a]; a queued response carries the id of its slot *)
Record Inv2 (a : list (N * nat)) (sls : list slot) : Prop := {
  i_ids : NoDup (map fst a);
  i_slots : NoDup (map snd a);
  i_act : forall id s, In (id, s) a ->
            exists sl, slot_of sls s sl /\ s_id sl = Some id /\ c_tx (s_chan sl) = true;
  i_items : forall s sl id mk, slot_of sls s sl -> In (IOk id mk) (c_items (s_chan sl)) -> s_id sl = Some id;
  i_tx : forall s sl, slot_of sls s sl -> c_tx (s_chan sl) = true ->
            exists id, s_id sl = Some id /\ In (id, s) a
}.

Definition Inv (st : mux) : Prop := Inv2 (active st) (slots st) /\ (length (active st) <= maxact st)%nat.

(* [i_items] and [i_tx] together: what the invariant asks of the slot at index [s].  The
   operations change one slot at a time, so this is the unit the preservation proofs work in. *)
Definition slot_ok (a : list (N * nat)) (s : nat) (sl : slot) : Prop :=
  (forall id mk, In (IOk id mk) (c_items (s_chan sl)) -> s_id sl = Some id) /\
  (c_tx (s_chan sl) = true -> exists id, s_id sl = Some id /\ In (id, s) a).

Lemma Inv2_slot {a sls s sl} : Inv2 a sls -> slot_of sls s sl -> slot_ok a s sl.
Proof. intros H Hs. split; [intros id mk; exact (i_items _ _ H s sl id mk Hs)|exact (i_tx _ _ H s sl Hs)]. Qed.

Lemma Inv2_intro a sls :
  NoDup (map fst a) -> NoDup (map snd a) ->
  (forall id s, In (id, s) a -> exists sl, slot_of sls s sl /\ s_id sl = Some id /\ c_tx (s_chan sl) = true) ->
  (forall s sl, slot_of sls s sl -> slot_ok a s sl) ->
  Inv2 a sls.
Proof.
  intros Hids Hslots Hact Hok. constructor; auto.
  - intros s sl id mk Hs. exact (proj1 (Hok s sl Hs) id mk).
  - intros s sl Hs. exact (proj2 (Hok s sl Hs)).
Qed.

Lemma Inv2_init : Inv2 [] [].
Proof.
  apply Inv2_intro; [constructor|constructor|intros id s []|]. intros [|s] sl Hs; discriminate.
Qed.

Lemma Inv2_upd a sls s f :
  Inv2 a sls ->
  (forall sl, slot_of sls s sl ->
     s_id (f sl) = s_id sl /\ c_tx (s_chan (f sl)) = c_tx (s_chan sl) /\
     forall id mk, In (IOk id mk) (c_items (s_chan (f sl))) ->
                   In (IOk id mk) (c_items (s_chan sl)) \/ s_id sl = Some id) ->
  Inv2 a (upd s f sls).
Proof.
  intros H Hf. apply Inv2_intro; try apply H.
  - intros id t Hin. destruct (i_act _ _ H id t Hin) as (sl & Hs & Hid & Htx). unfold slot_of in *.
    destruct (Nat.eq_dec s t) as [->|Hne].
    + exists (f sl). rewrite nth_upd_same, Hs. destruct (Hf sl Hs) as (Hi & Ht & _). rewrite Hi, Ht. auto.
    + exists sl. rewrite nth_upd_other by exact Hne. auto.
  - intros t sl' Hs. apply nth_upd_inv in Hs.
    destruct Hs as (sl & Hs & [[-> ->]|[_ ->]]); [|exact (Inv2_slot H Hs)].
    destruct (Inv2_slot H Hs) as [Hit Htx]. destruct (Hf sl Hs) as (Hi & Ht & Hin).
    unfold slot_ok. rewrite Hi, Ht. split; [|exact Htx].
    intros id mk Hx. destruct (Hin id mk Hx); eauto.
Qed.

Lemma Inv2_remove l1 id s l2 sls e :
  Inv2 (l1 ++ (id, s) :: l2) sls -> Inv2 (l1 ++ l2) (upd s (fail_slot e) sls).
Proof.
  intros H. pose proof (i_ids _ _ H) as Hids. pose proof (i_slots _ _ H) as Hslots.
  rewrite map_app in Hids, Hslots. cbn [map fst snd] in Hids, Hslots.
  assert (Hin : forall id' t, In (id', t) (l1 ++ l2) -> In (id', t) (l1 ++ (id, s) :: l2) /\ s <> t).
  { intros id' t Hin. split; [rewrite in_app_iff in *; cbn [In]; tauto|].
    intros ->. apply (NoDup_remove_2 _ _ _ Hslots). rewrite <- map_app. exact (in_map snd _ _ Hin). }
  apply Inv2_intro.
  - rewrite map_app. exact (NoDup_remove_1 _ _ _ Hids).
  - rewrite map_app. exact (NoDup_remove_1 _ _ _ Hslots).
  - intros id' t Hi. destruct (Hin id' t Hi) as [Hi' Hne].
    destruct (i_act _ _ H id' t Hi') as (sl & Hs & Hr). exists sl. split; [|exact Hr].
    unfold slot_of. now rewrite nth_upd_other.
  - intros t sl' Hs. apply nth_upd_inv in Hs. destruct Hs as (sl & Hs & [[-> ->]|[Hne ->]]);
      destruct (Inv2_slot H Hs) as [Hit Htx]; split.
    + intros id' mk Hx. exact (Hit id' mk (fail_slot_items e sl id' mk Hx)).
    + rewrite fail_slot_tx. discriminate.
    + exact Hit.
    + intros Ht. destruct (Htx Ht) as (id' & Hid & Hi). exists id'. split; [exact Hid|].
      apply in_elt_inv in Hi. destruct Hi as [Hi|Hi]; [inversion Hi; congruence|exact Hi].
Qed.

Lemma Inv2_push a sls sl : Inv2 a sls -> slot_ok a (length sls) sl -> Inv2 a (sls ++ [sl]).
Proof.
  intros H Hsl. apply Inv2_intro; try apply H.
  - intros id s Hin. destruct (i_act _ _ H id s Hin) as (sl0 & Hs & Hr). exists sl0.
    split; [exact (nth_app_old _ Hs)|exact Hr].
  - intros s sl0 Hs. apply nth_snoc_inv in Hs.
    destruct Hs as [Hs|[-> ->]]; [exact (Inv2_slot H Hs)|exact Hsl].
Qed.

Lemma Inv2_push_live a sls id :
  Inv2 a sls -> ~ In id (map fst a) ->
  Inv2 ((id, length sls) :: a) (sls ++ [SL live_chan (Some id) false]).
Proof.
  intros H Hid. apply Inv2_intro; cbn [map fst snd].
  - constructor; [exact Hid|apply H].
  - constructor; [|apply H]. (* the entries of the map point below [length sls] *)
    intros Hin. apply in_map_iff in Hin. destruct Hin as ([i t] & Ht & Hin). cbn in Ht. subst t.
    destruct (i_act _ _ H i _ Hin) as (sl & Hs & _).
    apply (Nat.lt_irrefl (length sls)). apply nth_error_Some. unfold slot_of in Hs. congruence.
  - intros i s [E|Hin].
    + inversion E; subst. exists (SL live_chan (Some i) false). split; [apply nth_error_app_mid|auto].
    + destruct (i_act _ _ H i s Hin) as (sl & Hs & Hr). exists sl.
      split; [exact (nth_app_old _ Hs)|exact Hr].
  - intros s sl Hs. apply nth_snoc_inv in Hs. destruct Hs as [Hs|[-> ->]].
    + destruct (Inv2_slot H Hs) as [Hit Htx]. split; [exact Hit|].
      intros Ht. destruct (Htx Ht) as (i & Hi & Hin). exists i. split; [exact Hi|right; exact Hin].
    + split; [intros i mk []|]. intros _. exists id. split; [reflexivity|left; reflexivity].
Qed.

Lemma drop_list_nil sls : drop_list [] sls = ([], sls).
Proof. reflexivity. Qed.

Lemma drop_list_cons id s a sls :
  drop_list ((id, s) :: a) sls =
  match slot_reason sls s with
  | Some e => drop_list a (upd s (fail_slot e) sls)
  | None => ((id, s) :: fst (drop_list a sls), snd (drop_list a sls))
  end.
Proof. cbn [drop_list]. destruct (slot_reason sls s); [reflexivity|]. now destruct (drop_list a sls). Qed.

Lemma drop_cancelled_eq st :
  drop_cancelled st = MX (fst (drop_list (active st) (slots st))) (snd (drop_list (active st) (slots st)))
                         (inq st) (shut st) (maxact st).
Proof. unfold drop_cancelled. now destruct (drop_list (active st) (slots st)). Qed.

Lemma deliver_cases m st :
  deliver m st = st \/
  exists id mk s, m = IMsg true id mk /\ lookup id (active st) = Some s /\
    deliver m st = with_slots st (upd s (on_chan (chan_send (IOk id mk))) (slots st)).
Proof.
  destruct m as [|[|] id mk]; cbn [deliver]; auto.
  destruct (lookup id (active st)) as [s|] eqn:El; [right|auto]. exists id, mk, s. auto.
Qed.

(* a channel whose sender is gone from the start: send_message on a multiplexer that is
   shut down, full, or out of ids *)
Definition stillborn (c : chan) : Prop := c = dead_chan \/ exists e, c = failed_chan e.

Lemma send_cases draws st :
  (exists c, stillborn c /\ fst (send draws st) = with_slots st (slots st ++ [SL c None false]) /\
             forall id, snd (send draws st) <> SStarted id) \/
  (exists id, shut st = false /\ (length (active st) < maxact st)%nat /\ lookup id (active st) = None /\
              send draws st = (MX ((id, length (slots st)) :: active st) (slots st ++ [SL live_chan (Some id) false])
                                  (inq st) (shut st) (maxact st), SStarted id)).
Proof.
  unfold send, with_slots, stillborn.
  destruct (shut st) eqn:Es.
  { left; exists dead_chan. split; [eauto|split; [reflexivity|discriminate]]. }
  destruct (maxact st <=? length (active st))%nat eqn:Emax.
  { left; exists (failed_chan NBusy). split; [eauto|split; [reflexivity|discriminate]]. }
  destruct (pick_id ID_DRAWS draws (active st)) as [id|] eqn:Ep.
  - right; exists id. apply pick_id_fresh in Ep. apply Nat.leb_gt in Emax. tauto.
  - left; exists (failed_chan NIdExhausted). split; [eauto|split; [reflexivity|discriminate]].
Qed.

(* DnsResponseStream::poll_next taking the head of the queue: the update and the result
   written inline in [take], repeated so that [take_cases] can name them *)
Definition pop : slot -> slot := on_chan (fun c => CH (tl (c_items c)) false (c_tx c) (c_rx c)).
Definition item_res (x : item) : takeres :=
  match x with IOk id mk => TOk id mk | IErr NTimeout => TNone | IErr e => TErr e end.

Lemma take_cases s st :
  take s st = (st, TInvalid) \/ take s st = (st, TNone) \/
  (take s st = (st, TPending) /\ exists sl, slot_of (slots st) s sl /\ c_tx (s_chan sl) = true) \/
  exists sl x rest, slot_of (slots st) s sl /\ c_items (s_chan sl) = x :: rest /\
    take s st = (with_slots st (upd s pop (slots st)), item_res x).
Proof.
  unfold take, slot_of. destruct (nth_error (slots st) s) as [sl|]; [|auto].
  destruct (c_rx (s_chan sl)); cbn [negb]; [|auto].
  destruct (c_items (s_chan sl)) as [|x rest] eqn:Ei; [|do 3 right; exists sl, x, rest; auto].
  destruct (c_tx (s_chan sl)) eqn:Et; [right; right; left; eauto|auto].
Qed.

Lemma take_fst s st : fst (take s st) = st \/ fst (take s st) = with_slots st (upd s pop (slots st)).
Proof. destruct (take_cases s st) as [->|[->|[[-> _]|(sl & x & rest & _ & _ & ->)]]]; auto. Qed.

Lemma step_send draws st : step st (MSend draws) = (fst (send draws st), OSend (snd (send draws st))).
Proof. cbn [step]. now destruct (send draws st). Qed.
Lemma step_poll st : step st MPoll = (fst (poll st), OPoll (snd (poll st))).
Proof. cbn [step]. now destruct (poll st). Qed.
Lemma step_take s st : step st (MTake s) = (fst (take s st), OTake (snd (take s st))).
Proof. cbn [step]. now destruct (take s st). Qed.

Lemma run_cons st o ops :
  run st (o :: ops) = (fst (run (fst (step st o)) ops), snd (step st o) :: snd (run (fst (step st o)) ops)).
Proof. cbn [run]. destruct (step st o) as [st1 ob]. cbn [fst snd]. now destruct (run st1 ops). Qed.

(* What the multiplexer does to its own state inside a poll, one change at a time: it reads
   the next thing the stream yields and drops it, or (a response whose id is in the map)
   hands it to the slot the map gives; it fails one request of the map; it marks itself
   shut down. *)
Inductive tau (st : mux) : mux -> Prop :=
| tau_read x q : inq st = x :: q -> tau st (set_inq st q)
| tau_resp id mk s q : inq st = InMsg (IMsg true id mk) :: q -> lookup id (active st) = Some s ->
    tau st (MX (active st) (upd s (on_chan (chan_send (IOk id mk))) (slots st)) q (shut st) (maxact st))
| tau_fail e l1 id s l2 : active st = l1 ++ (id, s) :: l2 ->
    tau st (MX (l1 ++ l2) (upd s (fail_slot e) (slots st)) (inq st) (shut st) (maxact st))
| tau_shut : tau st (MX (active st) (slots st) (inq st) true (maxact st)).

(* ... and what its users do to it besides: the stream side queues input, send_message
   appends a slot (its sender gone from the start, or live under a fresh id while there is
   room), the holder of a receiver changes what is his in one slot. *)
Inductive chg (st : mux) : mux -> Prop :=
| chg_tau st' : tau st st' -> chg st st'
| chg_inq q : chg st (set_inq st q)
| chg_dead c : stillborn c -> chg st (with_slots st (slots st ++ [SL c None false]))
| chg_live id : shut st = false -> (length (active st) < maxact st)%nat -> lookup id (active st) = None ->
    chg st (MX ((id, length (slots st)) :: active st) (slots st ++ [SL live_chan (Some id) false])
               (inq st) (shut st) (maxact st))
| chg_rx s f :
    (forall sl, s_id (f sl) = s_id sl /\ c_tx (s_chan (f sl)) = c_tx (s_chan sl) /\
                incl (c_items (s_chan (f sl))) (c_items (s_chan sl))) ->
    chg st (with_slots st (upd s f (slots st))).

(* a poll is a sequence of [tau]s: what each of them preserves, every part of a poll does *)
Section Preserves.
  Variable P : mux -> Prop.
  Hypothesis Htau : forall st st', tau st st' -> P st -> P st'.

  (* [kept]: the entries already looked at and left in the map *)
  Lemma drop_list_preserves q sh m a : forall kept sls,
    P (MX (kept ++ a) sls q sh m) ->
    P (MX (kept ++ fst (drop_list a sls)) (snd (drop_list a sls)) q sh m).
  Proof.
    induction a as [|[id s] a IH]; intros kept sls H; [exact H|].
    rewrite drop_list_cons. destruct (slot_reason sls s) as [e|].
    - apply IH. exact (Htau _ _ (tau_fail (MX _ sls q sh m) e kept id s a eq_refl) H).
    - specialize (IH (kept ++ [(id, s)]) sls). rewrite <- !app_assoc in IH. exact (IH H).
  Qed.

  Lemma drop_cancelled_preserves st : P st -> P (drop_cancelled st).
  Proof. rewrite drop_cancelled_eq. destruct st. apply (drop_list_preserves _ _ _ _ []). Qed.

  Lemma close_all_preserves e st : P st -> P (close_all e st).
  Proof.
    intros H. apply (Htau _ _ (tau_shut _)) in H. unfold close_all. destruct st as [a sls q sh m]. cbn in *.
    revert sls H. induction a as [|[id s] a IH]; intros sls H; [exact H|].
    apply IH. exact (Htau _ _ (tau_fail (MX _ sls q true m) e [] id s a eq_refl) H).
  Qed.

  Lemma process_preserves fuel : forall st, P st -> P (fst (process fuel st)).
  Proof.
    induction fuel as [|f IH]; intros st H; cbn [process]; [exact H|].
    destruct (inq st) as [|[m| |] q] eqn:Eq; cbn [fst]; [exact H| | |];
      try (apply close_all_preserves; exact (Htau _ _ (tau_read _ _ q Eq) H)).
    apply IH. destruct (deliver_cases m (set_inq st q)) as [->|(id & mk & s & -> & El & ->)].
    - exact (Htau _ _ (tau_read _ _ q Eq) H).
    - exact (Htau _ _ (tau_resp _ id mk s q Eq El) H).
  Qed.

  Lemma poll_preserves st : P st -> P (fst (poll st)).
  Proof.
    intros H. apply drop_cancelled_preserves in H. unfold poll.
    destruct (shut (drop_cancelled st) && _); cbn [fst]; [|apply process_preserves]; exact H.
  Qed.
End Preserves.

(* every operation is one [chg], or (MPoll) a sequence of [tau]s *)
Lemma step_preserves (P : mux -> Prop) :
  (forall st st', chg st st' -> P st -> P st') -> forall st o, P st -> P (fst (step st o)).
Proof.
  intros Hchg st o H.
  assert (Hrx : forall s f, _ -> P (with_slots st (upd s f (slots st)))) by exact (fun s f Hf => Hchg _ _ (chg_rx st s f Hf) H).
  destruct o as [draws|m| | | |s|s|s|]; rewrite ?step_send, ?step_poll, ?step_take; cbn [step fst];
    try exact (Hchg _ _ (chg_inq st _) H).
  - (* MSend *) destruct (send_cases draws st) as [(c & Hc & -> & _)|(id & Hs & Hm & Hl & ->)].
    + exact (Hchg _ _ (chg_dead st c Hc) H).
    + exact (Hchg _ _ (chg_live st id Hs Hm Hl) H).
  - (* MPoll *) apply poll_preserves; [|exact H]. intros st1 st2 Ht. exact (Hchg _ _ (chg_tau _ _ Ht)).
  - (* MTimeout *) apply Hrx. intros sl. cbn. auto using incl_refl.
  - (* MCancel *) apply Hrx. intros sl. cbn. auto using incl_nil_l.
  - (* MTake *) destruct (take_fst s st) as [->| ->]; [exact H|]. apply Hrx. intros sl. cbn.
    split; [reflexivity|]. split; [reflexivity|]. destruct (c_items (s_chan sl)); [apply incl_refl|apply incl_tl, incl_refl].
  - (* MShutdown *) exact (Hchg _ _ (chg_tau _ _ (tau_shut st)) H).
Qed.

Lemma run_preserves (P : mux -> Prop) :
  (forall st o, P st -> P (fst (step st o))) -> forall ops st, P st -> P (fst (run st ops)).
Proof.
  intros Hstep. induction ops as [|o ops IH]; intros st H; [exact H|].
  rewrite run_cons. apply IH, Hstep, H.
Qed.

Lemma tau_inv st st' : tau st st' -> Inv st -> Inv st'.
Proof.
  intros Ht [H Hm]. destruct Ht as [x q Hq|id mk s q Hq El|e l1 id s l2 Ha|].
  - exact (conj H Hm).
  - (* tau_resp: the slot that the map gives for an id carries that id *)
    split; [|exact Hm]. apply Inv2_upd; [exact H|]. intros sl Hsl. cbn. rewrite chan_send_tx. split; [reflexivity|]. split; [reflexivity|].
    intros i k Hin. apply chan_send_in in Hin. destruct Hin as [Hin|Hin]; [left; exact Hin|right].
    destruct (i_act _ _ H id s (lookup_in _ _ _ El)) as (sl0 & Hs0 & Hid & _).
    unfold slot_of in *. inversion Hin. congruence.
  - (* tau_fail *) rewrite Ha in H, Hm. split; [exact (Inv2_remove l1 id s l2 _ e H)|].
    cbn [active maxact]. rewrite app_length in *. cbn [length] in Hm. lia.
  - exact (conj H Hm).
Qed.

Lemma chg_inv st st' : chg st st' -> Inv st -> Inv st'.
Proof.
  intros Hc Hi. pose proof Hi as [H Hm]. destruct Hc as [st' Ht|q|c [->|[e ->]]|id Hs Hlt Hl|s f Hf].
  - exact (tau_inv st st' Ht Hi).
  - exact Hi.
  - (* chg_dead: a sender that is gone and never held a response is fine whatever the map *)
    split; [|exact Hm]. apply Inv2_push; [exact H|]. split; [intros id mk []|discriminate].
  - split; [|exact Hm]. apply Inv2_push; [exact H|]. split; [intros id mk [Hx|[]]|]; discriminate.
  - (* chg_live *) split; [apply Inv2_push_live; [exact H|now apply lookup_none]|cbn [active length maxact]; lia].
  - (* chg_rx *) split; [|exact Hm]. apply Inv2_upd; [exact H|]. intros sl _. destruct (Hf sl) as (Hi' & Ht & Hin).
    split; [exact Hi'|]. split; [exact Ht|]. intros id mk Hx. left. exact (Hin _ Hx).
Qed.

Lemma set_inq_inv st q : Inv st -> Inv (set_inq st q).
Proof. intros H. exact H. Qed.

Lemma step_inv st o : Inv st -> Inv (fst (step st o)).
Proof. exact (step_preserves Inv chg_inv st o). Qed.

Lemma poll_inv st : Inv st -> Inv (fst (poll st)).
Proof. exact (poll_preserves Inv tau_inv st). Qed.

Lemma init_inv maxact : Inv (mux_init maxact).
Proof. split; [exact Inv2_init|cbn; lia]. Qed.

Lemma reachable_inv maxact ops : Inv (fst (run (mux_init maxact) ops)).
Proof. exact (run_preserves Inv step_inv ops _ (init_inv maxact)). Qed.

Lemma run_maxact ops st : maxact (fst (run st ops)) = maxact st.
Proof.
  apply (run_preserves (fun st' => maxact st' = maxact st)); [|reflexivity].
  apply step_preserves. intros st1 st2 [? []| | | |] <-; reflexivity.
Qed.

Lemma run_length ops : forall st, length (snd (run st ops)) = length ops.
Proof.
  induction ops as [|o ops IH]; intros st; [reflexivity|]. rewrite run_cons. cbn [snd length]. now rewrite IH.
Qed.

Lemma run_firstn ops : forall st j, firstn j (snd (run st ops)) = snd (run st (firstn j ops)).
Proof.
  induction ops as [|o ops IH]; intros st [|j]; try reflexivity.
  cbn [firstn]. rewrite !run_cons. cbn [snd firstn]. now rewrite IH.
Qed.

Lemma pending_ids_distinct st s1 s2 sl1 sl2 :
  Inv st -> slot_of (slots st) s1 sl1 -> slot_of (slots st) s2 sl2 ->
  c_tx (s_chan sl1) = true -> c_tx (s_chan sl2) = true -> s_id sl1 = s_id sl2 -> s1 = s2.
Proof.
  intros [H _] Hs1 Hs2 Ht1 Ht2 Heq.
  destruct (i_tx _ _ H s1 sl1 Hs1 Ht1) as (i1 & Hi1 & Hin1). destruct (i_tx _ _ H s2 sl2 Hs2 Ht2) as (i2 & Hi2 & Hin2).
  assert (i1 = i2) by congruence. subst i2. exact (nodup_fst_unique _ _ _ _ (i_ids _ _ H) Hin1 Hin2).
Qed.

Lemma take_routed st s id mk :
  Inv st -> snd (take s st) = TOk id mk ->
  exists sl, slot_of (slots st) s sl /\ s_id sl = Some id.
Proof.
  intros [H _]. destruct (take_cases s st) as [->|[->|[[-> _]|(sl & x & rest & Hs & Hi & ->)]]]; try discriminate.
  cbn [snd]. intros E. exists sl. split; [exact Hs|]. apply (i_items _ _ H s sl id mk Hs). rewrite Hi. left.
  destruct x as [i m|e]; [inversion E; reflexivity|destruct e; discriminate].
Qed.

Lemma deliver_routes st id mk s sl :
  Inv st -> slot_of (slots st) s sl -> s_id sl = Some id -> c_tx (s_chan sl) = true ->
  let st' := deliver (IMsg true id mk) st in
  active st' = active st /\
  (exists sl', slot_of (slots st') s sl' /\ s_id sl' = Some id /\
      c_items (s_chan sl') = if c_rx (s_chan sl) && negb (c_parked (s_chan sl))
                             then c_items (s_chan sl) ++ [IOk id mk] else c_items (s_chan sl)) /\
  (forall t, t <> s -> nth_error (slots st') t = nth_error (slots st) t).
Proof.
  intros [H _] Hs Hid Htx. cbn zeta.
  destruct (i_tx _ _ H s sl Hs Htx) as (i & Hi & Hin). assert (i = id) by congruence. subst i.
  cbn [deliver]. rewrite (lookup_some_of_in id s (active st) (i_ids _ _ H) Hin). cbn [active slots].
  split; [reflexivity|]. split.
  - exists (on_chan (chan_send (IOk id mk)) sl). unfold slot_of in *. rewrite nth_upd_same, Hs.
    split; [reflexivity|]. split; [exact Hid|]. cbn. apply chan_send_items.
  - intros t Hne. apply nth_upd_other. auto.
Qed.

Lemma deliver_unknown st id mk :
  Inv st ->
  (forall s sl, slot_of (slots st) s sl -> c_tx (s_chan sl) = true -> s_id sl <> Some id) ->
  deliver (IMsg true id mk) st = st.
Proof.
  intros [H _] Hno. cbn [deliver].
  destruct (lookup id (active st)) as [s|] eqn:El; [|reflexivity].
  apply lookup_in in El. destruct (i_act _ _ H id s El) as (sl & Hs & Hid & Htx). exfalso. eapply Hno; eauto.
Qed.

Lemma deliver_undecodable st m :
  (m = IGarbage \/ exists id mk, m = IMsg false id mk) -> deliver m st = st.
Proof. intros [->|(id & mk & ->)]; reflexivity. Qed.

(* what close_all does to the slots: the entries of the map are failed one by one.  The body
   repeats the fold written inline in [close_all]; [fold]/[change] below rely on that. *)
Definition fail_all (e : nerr) (a : list (N * nat)) (sls : list slot) : list slot :=
  fold_left (fun sls p => upd (snd p) (fail_slot e) sls) a sls.

Lemma fail_all_other e a : forall sls s,
  ~ In s (map snd a) -> nth_error (fail_all e a sls) s = nth_error sls s.
Proof.
  unfold fail_all. induction a as [|[i t] a IH]; intros sls s Hn; cbn [fold_left snd map In] in *; [reflexivity|].
  rewrite IH by tauto. apply nth_upd_other. tauto.
Qed.

Lemma fail_all_effect e a : forall sls s,
  NoDup (map snd a) -> In s (map snd a) ->
  nth_error (fail_all e a sls) s = option_map (fail_slot e) (nth_error sls s).
Proof.
  induction a as [|[id t] a IH]; intros sls s Hnd Hin; cbn [map snd In] in *; [destruct Hin|].
  apply NoDup_cons_iff in Hnd. destruct Hnd as [Hni Hnd'].
  change (fail_all e ((id, t) :: a) sls) with (fail_all e a (upd t (fail_slot e) sls)).
  destruct Hin as [<-|Hin].
  - rewrite fail_all_other by exact Hni. apply nth_upd_same.
  - rewrite IH by assumption. rewrite nth_upd_other; [reflexivity|]. intros ->. apply Hni, Hin.
Qed.

Lemma close_all_fails_pending e st id s sl :
  Inv st -> In (id, s) (active st) -> slot_of (slots st) s sl ->
  slot_of (slots (close_all e st)) s (fail_slot e sl).
Proof.
  intros [H _] Hin Hs. unfold slot_of in *. cbn [close_all slots]. fold (fail_all e (active st) (slots st)).
  rewrite fail_all_effect; [now rewrite Hs|exact (i_slots _ _ H)|exact (in_map snd _ _ Hin)].
Qed.

Definition all_tx_dead (st : mux) : Prop :=
  forall s sl, slot_of (slots st) s sl -> c_tx (s_chan sl) = false.
Definition closed (st : mux) : Prop := shut st = true /\ active st = [] /\ all_tx_dead st.

Lemma Inv_closed st : Inv st -> shut st = true -> active st = [] -> closed st.
Proof.
  intros [H _] Hs Ha. split; [exact Hs|]. split; [exact Ha|]. intros s sl Hsl.
  destruct (c_tx (s_chan sl)) eqn:E; [|reflexivity].
  destruct (i_tx _ _ H s sl Hsl E) as (id & _ & Hin). rewrite Ha in Hin. destruct Hin.
Qed.

Lemma chg_closed st st' : chg st st' -> closed st -> closed st'.
Proof.
  intros Hc (Hs & Ha & Hd).
  destruct Hc as [st' [x q Hq|id mk s q Hq El|e l1 id s l2 Hl|]|q|c Hc|id Hsh Hlt Hl|s f Hf];
    try (split; [first [exact Hs|reflexivity]|split; assumption]).
  - rewrite Ha in El. discriminate.
  - rewrite Ha in Hl. now destruct l1.
  - split; [exact Hs|]. split; [exact Ha|]. intros t sl Ht.
    apply nth_snoc_inv in Ht. destruct Ht as [Ht|[_ ->]]; [exact (Hd t sl Ht)|now destruct Hc as [->|[e ->]]].
  - congruence.
  - split; [exact Hs|]. split; [exact Ha|]. intros t sl Ht. apply nth_upd_inv in Ht.
    destruct Ht as (sl0 & Ht & [[_ ->]|[_ ->]]); [rewrite (proj1 (proj2 (Hf sl0)))|]; exact (Hd t sl0 Ht).
Qed.

Lemma closed_step st o : closed st -> closed (fst (step st o)).
Proof. exact (step_preserves closed chg_closed st o). Qed.

Lemma closed_run ops : forall st, closed st -> closed (fst (run st ops)).
Proof. exact (run_preserves closed closed_step ops). Qed.

Lemma take_pending_live st s :
  snd (take s st) = TPending -> exists sl, slot_of (slots st) s sl /\ c_tx (s_chan sl) = true.
Proof.
  destruct (take_cases s st) as [->|[->|[[_ Hl]|(sl & x & rest & _ & _ & ->)]]]; try discriminate; [intros _; exact Hl|].
  destruct x as [i m|e]; [|destruct e]; discriminate.
Qed.

Lemma closed_no_pending ops : forall st j s,
  closed st -> nth_error ops j = Some (MTake s) -> nth_error (snd (run st ops)) j <> Some (OTake TPending).
Proof.
  induction ops as [|o ops IH]; intros st j s Hc Hop; [destruct j; discriminate|].
  rewrite run_cons. destruct j as [|j]; cbn [snd nth_error] in *.
  - inversion Hop; subst o. rewrite step_take. intros E. inversion E as [E'].
    destruct (take_pending_live st s E') as (sl & Hs & Ht). destruct Hc as (_ & _ & Hd).
    rewrite (Hd s sl Hs) in Ht. discriminate.
  - exact (IH _ j s (closed_step st o Hc) Hop).
Qed.

Lemma process_done fuel : forall st, snd (process fuel st) = PDone ->
  shut (fst (process fuel st)) = true /\ active (fst (process fuel st)) = [].
Proof.
  induction fuel as [|f IH]; intros st; cbn [process]; [discriminate|].
  destruct (inq st) as [|[m| |] q]; cbn [fst snd]; try discriminate; auto.
Qed.

Lemma poll_done_closed st : Inv st -> snd (poll st) = PDone -> closed (fst (poll st)).
Proof.
  intros H Hd. enough (shut (fst (poll st)) = true /\ active (fst (poll st)) = []) as [Hs Ha]
    by exact (Inv_closed _ (poll_inv st H) Hs Ha).
  unfold poll in *. destruct (shut (drop_cancelled st) && _) eqn:Ec; [|now apply process_done].
  apply andb_prop in Ec. destruct Ec as [Es Ea]. cbn [fst]. split; [exact Es|]. now destruct (active (drop_cancelled st)).
Qed.

(* [tau] only applies [fail_slot] and [chan_send] to slots.  Used with the id ([s_id]) and the
   reason to drop the request ([cancel_reason]) for [g]. *)
Lemma tau_obs {B} (g : slot -> B) :
  (forall e sl, g (fail_slot e sl) = g sl) -> (forall x sl, g (on_chan (chan_send x) sl) = g sl) ->
  forall st st', tau st st' -> map g (slots st') = map g (slots st).
Proof. intros Hfail Hsend st st' [x q _|id mk s q _ _|e l1 id s l2 _|]; cbn [slots set_inq]; auto using map_upd. Qed.

Definition ids_of (st : mux) : list (option N) := map s_id (slots st).

Lemma step_ids st o : ids_of (fst (step st o)) = ids_of st ++ new_ids o (snd (step st o)).
Proof.
  unfold ids_of. destruct o as [draws|m| | | |s|s|s|]; rewrite ?step_send, ?step_poll, ?step_take;
    cbn [step fst snd new_ids]; rewrite ?app_nil_r; try reflexivity.
  - (* MSend *) destruct (send_cases draws st) as [(c & _ & -> & Hr)|(id & _ & _ & _ & ->)];
      cbn [fst snd with_slots slots]; rewrite map_app; [|reflexivity].
    destruct (snd (send draws st)) as [id| |]; [destruct (Hr id eq_refl)|reflexivity|reflexivity].
  - (* MPoll *) apply (poll_preserves (fun st' => map s_id (slots st') = map s_id (slots st))); [|reflexivity].
    intros st1 st2 Ht <-. now apply tau_obs.
  - (* MTimeout *) now apply map_upd.
  - (* MCancel *) now apply map_upd.
  - (* MTake *) destruct (take_fst s st) as [->| ->]; [reflexivity|]. now apply map_upd.
Qed.

Lemma take_routed_trace ops : forall st j s id mk,
  Inv st -> nth_error ops j = Some (MTake s) ->
  nth_error (snd (run st ops)) j = Some (OTake (TOk id mk)) ->
  nth_error (ids_of st ++ started_ids ops (snd (run st ops))) s = Some (Some id).
Proof.
  induction ops as [|o ops IH]; intros st j s id mk Hinv Hop Hob; [destruct j; discriminate|].
  rewrite run_cons in *. cbn [snd started_ids] in *. destruct j as [|j]; cbn [nth_error] in Hop, Hob.
  - inversion Hop; subst o. rewrite step_take in Hob. inversion Hob as [Hr].
    destruct (take_routed st s id mk Hinv Hr) as (sl & Hs & Hid).
    apply nth_app_old. unfold ids_of. rewrite nth_error_map, Hs. cbn. now rewrite Hid.
  - specialize (IH _ j s id mk (step_inv st o Hinv) Hop Hob). rewrite step_ids, <- app_assoc in IH. exact IH.
Qed.

Definition b2n (b : bool) : nat := if b then 1%nat else O.

Lemma count_cons {A} (f : A -> bool) x l : count f (x :: l) = (b2n (f x) + count f l)%nat.
Proof. unfold count. cbn [filter]. destruct (f x); reflexivity. Qed.
Lemma count_nil {A} (f : A -> bool) : count f [] = O.
Proof. reflexivity. Qed.

Lemma count_app {A} (f : A -> bool) a b : count f (a ++ b) = (count f a + count f b)%nat.
Proof. unfold count. now rewrite filter_app, app_length. Qed.

Lemma sum_upd {A} (g : A -> nat) f s l x :
  nth_error l s = Some x -> (list_sum (map g (upd s f l)) + g x = list_sum (map g l) + g (f x))%nat.
Proof.
  unfold list_sum. revert s; induction l as [|y l IH]; intros [|s] H; cbn [upd map fold_right nth_error] in *; try discriminate.
  - inversion H; subst. lia.
  - specialize (IH s H). lia.
Qed.

Lemma sum_upd_le {A} (g : A -> nat) f s l d :
  (forall x, (g (f x) <= g x + d)%nat) -> (list_sum (map g (upd s f l)) <= list_sum (map g l) + d)%nat.
Proof.
  intros Hf. destruct (nth_error l s) as [x|] eqn:E.
  - pose proof (sum_upd g f s l x E). specialize (Hf x). lia.
  - rewrite upd_none by exact E. lia.
Qed.

Section Copies.
Variables id mk : N.

Definition is_ok (x : item) : bool :=
  match x with IOk i m => N.eqb i id && N.eqb m mk | _ => false end.
Definition is_in (e : inev) : bool :=
  match e with InMsg (IMsg true i m) => N.eqb i id && N.eqb m mk | _ => false end.

(* copies of response (id, mk) still inside the multiplexer: yielded by the stream but not
   yet decoded, or queued in some channel.  Every step moves copies towards the receivers
   or loses them; only MRecv adds one. *)
Definition slot_cnt (sl : slot) : nat := count is_ok (c_items (s_chan sl)).
Definition copies_inside (st : mux) : nat :=
  (count is_in (inq st) + list_sum (map slot_cnt (slots st)))%nat.

Lemma send_cnt x sl :
  (slot_cnt (on_chan (chan_send x) sl) <= slot_cnt sl + b2n (is_ok x))%nat.
Proof.
  unfold slot_cnt. cbn [on_chan s_chan]. rewrite chan_send_items.
  destruct (c_rx (s_chan sl) && negb (c_parked (s_chan sl))); [|lia].
  rewrite count_app, count_cons, count_nil. lia.
Qed.

Lemma fail_slot_cnt e sl : slot_cnt (fail_slot e sl) = slot_cnt sl.
Proof.
  unfold slot_cnt. cbn [fail_slot on_chan s_chan chan_close_tx c_items]. rewrite chan_send_items.
  destruct (c_rx (s_chan sl) && negb (c_parked (s_chan sl))); [|reflexivity].
  rewrite count_app, count_cons, count_nil. cbn [is_ok b2n]. lia.
Qed.

Lemma tau_copies st st' : tau st st' -> (copies_inside st' <= copies_inside st)%nat.
Proof.
  intros [x q Hq|i k s q Hq _|e l1 i s l2 _|]; unfold copies_inside; cbn [set_inq inq slots];
    rewrite ?Hq, ?count_cons; try lia.
  - (* the copy that [tau_resp] queues is the one it has read *)
    pose proof (sum_upd_le slot_cnt _ s (slots st) _ (send_cnt (IOk i k))). cbn [is_in is_ok] in *. lia.
  - rewrite (map_upd slot_cnt _ s _ (fail_slot_cnt e)). lia.
Qed.

Lemma copies_upd_le st s f d :
  (forall sl, (slot_cnt (f sl) <= slot_cnt sl + d)%nat) ->
  (copies_inside (with_slots st (upd s f (slots st))) <= copies_inside st + d)%nat.
Proof.
  intros Hf. unfold copies_inside. cbn [with_slots inq slots].
  pose proof (sum_upd_le slot_cnt f s (slots st) d Hf). lia.
Qed.

Lemma step_copies st o :
  (b2n (is_tok id mk (snd (step st o))) + copies_inside (fst (step st o))
   <= copies_inside st + b2n (is_recv id mk o))%nat.
Proof.
  destruct o as [draws|m| | | |s|s|s|]; rewrite ?step_send, ?step_poll; cbn [step fst snd is_tok is_recv b2n Nat.add].
  - (* MSend: the new slot holds no response *)
    destruct (send_cases draws st) as [(c & [->|[e ->]] & -> & _)|(i & _ & _ & _ & ->)];
      unfold copies_inside; cbn [fst with_slots inq slots]; rewrite map_app, list_sum_app; cbn; lia.
  - (* MRecv *) unfold copies_inside. cbn [set_inq inq slots]. rewrite count_app, count_cons, count_nil.
    destruct m as [|[|] i k]; cbn [is_in b2n]; lia.
  - (* MEof *) unfold copies_inside. cbn [set_inq inq slots]. rewrite count_app. cbn. lia.
  - (* MErr *) unfold copies_inside. cbn [set_inq inq slots]. rewrite count_app. cbn. lia.
  - (* MPoll *) enough (copies_inside (fst (poll st)) <= copies_inside st)%nat by lia.
    apply (poll_preserves (fun st' => copies_inside st' <= copies_inside st)%nat); [|lia].
    intros st1 st2 Ht H. pose proof (tau_copies st1 st2 Ht). lia.
  - (* MTimeout *) apply copies_upd_le. intros sl. unfold slot_cnt. cbn [s_chan]. lia.
  - (* MCancel *) apply copies_upd_le. intros sl. unfold slot_cnt. cbn [on_chan s_chan c_items]. rewrite count_nil. lia.
  - (* MTake: the response handed out is the head of the queue, which [pop] removes *)
    destruct (take_cases s st) as [->|[->|[[-> _]|(sl & x & rest & Hs & Hi & ->)]]]; cbn [fst snd]; try (cbn [is_tok b2n]; lia).
    unfold copies_inside. cbn [with_slots inq slots]. pose proof (sum_upd slot_cnt pop s (slots st) sl Hs) as H.
    assert (Hc : (slot_cnt sl = b2n (is_ok x) + slot_cnt (pop sl))%nat).
    { unfold slot_cnt. cbn [pop on_chan s_chan c_items]. rewrite Hi, count_cons. reflexivity. }
    assert (Ht : is_tok id mk (OTake (item_res x)) = is_ok x) by (destruct x as [i m|e]; [|destruct e]; reflexivity).
    rewrite Ht. lia.
  - (* MShutdown *) unfold copies_inside. cbn [inq slots]. lia.
Qed.

Lemma run_copies ops : forall st,
  (count (is_tok id mk) (snd (run st ops)) + copies_inside (fst (run st ops))
   <= copies_inside st + count (is_recv id mk) ops)%nat.
Proof.
  induction ops as [|o ops IH]; intros st; [cbn; lia|]. rewrite run_cons. cbn [fst snd].
  pose proof (step_copies st o). specialize (IH (fst (step st o))). rewrite !count_cons. lia.
Qed.
End Copies.

Lemma cancel_reason_send x sl : cancel_reason (on_chan (chan_send x) sl) = cancel_reason sl.
Proof. unfold cancel_reason. cbn [on_chan s_fired s_chan]. now rewrite chan_send_rx. Qed.

Lemma cancel_reason_fail e sl : cancel_reason (fail_slot e sl) = cancel_reason sl.
Proof. unfold cancel_reason. cbn [fail_slot on_chan s_fired s_chan chan_close_tx c_rx]. now rewrite chan_send_rx. Qed.

Lemma slot_reason_map sls sls' s :
  map cancel_reason sls = map cancel_reason sls' -> slot_reason sls s = slot_reason sls' s.
Proof.
  intros E. apply (f_equal (fun l => nth_error l s)) in E. rewrite !nth_error_map in E.
  unfold slot_reason. destruct (nth_error sls s), (nth_error sls' s); cbn in E; congruence.
Qed.

Lemma drop_list_clean a : forall sls id s, In (id, s) (fst (drop_list a sls)) -> slot_reason sls s = None.
Proof.
  induction a as [|[i t] a IH]; intros sls id s Hin; [destruct Hin|].
  rewrite drop_list_cons in Hin. destruct (slot_reason sls t) as [e|] eqn:Er.
  - (* failing the slot of [t] changes no slot's reason *)
    rewrite <- (IH _ id s Hin). apply slot_reason_map. symmetry. apply map_upd. intros sl; apply cancel_reason_fail.
  - destruct Hin as [Hin|Hin]; [|exact (IH sls id s Hin)]. inversion Hin; subst. exact Er.
Qed.

(* no request in the map has timed out or lost its receiver *)
Definition clean (st : mux) : Prop :=
  forall id s, In (id, s) (active st) -> slot_reason (slots st) s = None.

Lemma drop_cancelled_clean st : clean (drop_cancelled st).
Proof.
  intros id s Hin. rewrite drop_cancelled_eq in Hin. rewrite <- (drop_list_clean _ _ id s Hin). apply slot_reason_map.
  apply (drop_cancelled_preserves (fun st' => map cancel_reason (slots st') = map cancel_reason (slots st))); [|reflexivity].
  intros st1 st2 Ht <-. exact (tau_obs _ cancel_reason_fail cancel_reason_send _ _ Ht).
Qed.

Lemma tau_clean st st' : tau st st' -> clean st -> clean st'.
Proof.
  intros Ht Hc id s Hin. rewrite (slot_reason_map _ (slots st) s (tau_obs _ cancel_reason_fail cancel_reason_send _ _ Ht)).
  apply (Hc id). destruct Ht as [x q _|i k t q _ _|e l1 i t l2 Ha|]; cbn [active set_inq] in Hin; try exact Hin.
  rewrite Ha. rewrite in_app_iff in *. cbn [In]. tauto.
Qed.

Lemma poll_clean st : clean (fst (poll st)).
Proof.
  unfold poll. destruct (shut (drop_cancelled st) && _); cbn [fst]; [|apply (process_preserves clean tau_clean)];
    apply drop_cancelled_clean.
Qed.

Lemma poll_drops_cancelled st s sl :
  Inv st -> nth_error (slots (fst (poll st))) s = Some sl ->
  (s_fired sl = true \/ c_rx (s_chan sl) = false) ->
  c_tx (s_chan sl) = false /\ snd (take s (fst (poll st))) <> TPending.
Proof.
  intros Hi Hs Hflag. pose proof (poll_inv st Hi) as [H _].
  assert (Ht : c_tx (s_chan sl) = false).
  { destruct (c_tx (s_chan sl)) eqn:E; [|reflexivity]. exfalso.
    destruct (i_tx _ _ H s sl Hs E) as (id & _ & Hin). pose proof (poll_clean st id s Hin) as Hc.
    unfold slot_reason in Hc. rewrite Hs in Hc. unfold cancel_reason in Hc.
    destruct Hflag as [Hf|Hf]; rewrite Hf in Hc; [|destruct (s_fired sl)]; discriminate. }
  split; [exact Ht|]. intros E. destruct (take_pending_live _ s E) as (sl' & Hs' & Ht').
  unfold slot_of in Hs'. congruence.
Qed.

From HV Require Import Lib.Base C16.Model C16.UdpProofs.
Open Scope N_scope.

Definition tx_ok (t : tx) : Prop := (t_left t + t_seen t = ATTEMPTS)%nat /\ (1 <= t_left t)%nat.
(* max 1: the first transmission starts whatever [max_tasks] is *)
Definition rinv (max_tasks : nat) (st : rstate) : Prop :=
  Forall tx_ok (txs st) /\ (length (txs st) <= Nat.max 1 max_tasks)%nat.

Lemma set_nth_length {A} n (x : A) l : length (set_nth n x l) = length l.
Proof. revert n; induction l as [|y l IH]; intros [|n]; cbn [set_nth length]; auto. Qed.

Lemma set_nth_forall {A} (P : A -> Prop) n x l : Forall P l -> P x -> Forall P (set_nth n x l).
Proof.
  intros Hl Hx. revert n; induction Hl as [|y l Hy Hl IH]; intros [|n]; cbn [set_nth]; constructor; auto.
Qed.

Lemma start_tx_cases st :
  start_tx st = inl (RS (txs st ++ [TX ATTEMPTS O]) (armed st) (tl (setups st))) \/
  exists e, start_tx st = inr (RFailed (length (txs st)) O e).
Proof. unfold start_tx. destruct (setups st) as [|[| | |] rest]; eauto. Qed.

Lemma new_tx_inv max_tasks st a sups :
  rinv max_tasks st -> (length (txs st) < Nat.max 1 max_tasks)%nat ->
  rinv max_tasks (RS (txs st ++ [TX ATTEMPTS O]) a sups).
Proof.
  intros [Hf Hl] Hlt. split; cbn [txs].
  - apply Forall_app. split; [exact Hf|]. constructor; [|constructor]. split; cbn; unfold ATTEMPTS; lia.
  - rewrite app_length. cbn [length]. lia.
Qed.

Lemma rstep_spec rq max_tasks st ev : rinv max_tasks st ->
  match rstep rq max_tasks st ev with
  | inl st' => rinv max_tasks st'
  | inr (RAccepted i n d qs) =>
      matching rq d /\ (n < ATTEMPTS)%nat /\ ev = URx i (SDg d) /\ (i < Nat.max 1 max_tasks)%nat
  | inr _ => True
  end.
Proof.
  intros Hi. pose proof Hi as [Hf Hl]. destruct ev as [i e| |]; cbn [rstep]; [| |exact I].
  - destruct (nth_error (txs st) i) as [t|] eqn:Et; [|exact Hi].
    rewrite Forall_forall in Hf. destruct (Hf t (nth_error_In _ _ Et)) as [Hsum Hleft].
    destruct e as [d|]; [|exact I]. destruct (examine rq d) as [|er|qs] eqn:Ex; [|exact I|].
    + destruct (t_left t) as [|[|k]] eqn:El; try exact I. split; cbn [txs]; [|now rewrite set_nth_length].
      apply set_nth_forall; [apply Forall_forall, Hf|]. split; cbn [t_left t_seen]; lia.
    + apply examine_iff in Ex. destruct Ex as [Hm _]. split; [exact Hm|]. split; [lia|]. split; [reflexivity|].
      assert (i < length (txs st))%nat by (apply nth_error_Some; congruence). lia.
  - destruct (armed st); [|exact Hi]. destruct (length (txs st) <? max_tasks)%nat eqn:El; [|exact Hi].
    apply Nat.ltb_lt in El. destruct (start_tx_cases st) as [->|[e ->]]; [apply new_tx_inv; [exact Hi|lia]|exact I].
Qed.

Lemma rrun_accept rq max_tasks evs : forall st i n d qs,
  rinv max_tasks st -> rrun rq max_tasks st evs = RAccepted i n d qs ->
  matching rq d /\ (n < ATTEMPTS)%nat /\ In (URx i (SDg d)) evs /\ (i < Nat.max 1 max_tasks)%nat.
Proof.
  induction evs as [|ev evs IH]; intros st i n d qs Hi; cbn [rrun]; [discriminate|].
  pose proof (rstep_spec rq max_tasks st ev Hi) as Hs. destruct (rstep rq max_tasks st ev) as [st'|r].
  - intros H. destruct (IH st' i n d qs Hs H) as (Hm & Hn & Hin & Hlt). auto using in_cons.
  - intros ->. destruct Hs as (Hm & Hn & -> & Hlt). auto using in_eq.
Qed.

Lemma first_tx_inv max_tasks sups st : start_tx (RS [] true sups) = inl st -> rinv max_tasks st.
Proof.
  destruct (start_tx_cases (RS [] true sups)) as [->|[e ->]]; [|discriminate]. intros H; inversion H.
  apply (new_tx_inv _ (RS [] true sups)); [split|]; cbn [txs length]; [constructor|lia|lia].
Qed.

(* state after a script, if the request is still running *)
Fixpoint rafter (rq : request) (max_tasks : nat) (st : rstate) (evs : list uev) : option rstate :=
  match evs with
  | [] => Some st
  | ev :: evs' => match rstep rq max_tasks st ev with inl st' => rafter rq max_tasks st' evs' | inr _ => None end
  end.

Lemma rafter_inv rq max_tasks evs : forall st st',
  rinv max_tasks st -> rafter rq max_tasks st evs = Some st' -> rinv max_tasks st'.
Proof.
  induction evs as [|ev evs IH]; intros st st' Hi; cbn [rafter]; [intros H; inversion H; subst; exact Hi|].
  pose proof (rstep_spec rq max_tasks st ev Hi) as Hs.
  destruct (rstep rq max_tasks st ev) as [st1|r]; [apply IH, Hs|discriminate].
Qed.

(* with a single transmission the request behaves exactly like the receive loop *)
Definition lift (o : outcome) : rres :=
  match o with
  | Accepted n d qs => RAccepted O n d qs
  | Failed n e => RFailed O n e
  | Exceeded => RExceeded O
  | Waiting _ => RWaiting
  end.

Lemma rrun_single rq max_tasks sevs : forall k n a sups,
  (1 <= k)%nat ->
  rrun rq max_tasks (RS [TX k n] a sups) (map (URx O) sevs) = lift (recv_loop rq k n sevs).
Proof.
  induction sevs as [|e sevs IH]; intros k n a sups Hk.
  - destruct k; [lia|]. reflexivity.
  - destruct k as [|k]; [lia|]. cbn [map rrun rstep nth_error txs recv_loop].
    destruct e as [d|]; [|reflexivity]. destruct (examine rq d) as [|er|qs]; try reflexivity.
    cbn [t_left t_seen]. destruct k as [|k]; [reflexivity|]. cbn [set_nth]. apply IH. lia.
Qed.


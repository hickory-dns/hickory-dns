(* C12 — the five zone invariants of WF.  Each is kept by every Update RR on its own; only the
   second (no SOA but at the apex) needs the RR to be outside the known class.  The first and
   the fourth are apex_soa and cname_excl, together upd_inv (InvProofs.v).  At the end a boolean
   check [wfb], sound for WF. *)
From HV Require Import Lib.Base Lib.ListX C12.Model C12.Spec C12.ZoneProofs C12.InvProofs.
Open Scope N_scope.

Lemma WF_upd_inv o z : WF o z -> upd_inv o z.
Proof. intros W. exact (conj (wf_soa _ _ W) (wf_cname _ _ W)). Qed.

Lemma apply_rr_one_soa o z u z' b :
  (forall n, n <> o -> zget z (n, tSOA) = None) -> soa_not_apex o u = false ->
  apply_rr o z u = Some (z', b) -> forall n, n <> o -> zget z' (n, tSOA) = None.
Proof.
  intros Wone Hk H n Hn.
  destruct (apply_rr_cases _ _ _ _ _ H) as [[(Hz & _) _]|(_ & v & -> & Hv)].
  - destruct (Hz (n, tSOA)) as [E|E]; [exact E|]. rewrite E. now apply Wone.
  - rewrite zget_zset. destruct (key_eqb_spec (n, tSOA) (rname u, rtype u)) as [[= En Et]|_]; [|now apply Wone].
    destruct Hv as [(Hc & _)|(recs & Eg & _)].
    + elim Hn. rewrite En. symmetry in Et. exact (soa_not_apex_false _ _ Hk Hc Et).
    + rewrite <- En, <- Et, (Wone n Hn) in Eg. discriminate.
Qed.

Lemma existsb_rdata_false (recs : list rec) d :
  existsb (fun r : rec => rdata_eqb (fst r) d) recs = false -> ~ In d (map fst recs).
Proof.
  intros H Hin. apply in_map_iff in Hin. destruct Hin as (x & <- & Hx).
  apply (existsb_false _ _ _ H) in Hx. cbn beta in Hx. now rewrite rdata_eqb_refl in Hx.
Qed.

Lemma NoDup_app_single {A} (l : list A) x : NoDup l -> ~ In x l -> NoDup (l ++ [x]).
Proof. intros. apply (NoDup_Add (Add_app x l [])). now rewrite app_nil_r. Qed.

Lemma NoDup_map_filter (f : rec -> bool) (l : list rec) : NoDup (map fst l) -> NoDup (map fst (filter f l)).
Proof.
  induction l as [|x l IH]; cbn [map filter]; [auto|].
  intros H. inversion H as [|? ? Hn Hd]; subst. destruct (f x); cbn [map]; [|now apply IH].
  constructor; [|now apply IH]. intros Hin. apply Hn. revert Hin. apply incl_map, incl_filter.
Qed.

Lemma rs_remove_ns (recs : list rec) d recs' b :
  rs_remove recs tNS d = (recs', b) -> recs <> [] -> NoDup (map fst recs) ->
  recs' <> [] /\ NoDup (map fst recs').
Proof.
  unfold rs_remove. change (tNS =? tNS) with true. change (tNS =? tSOA) with false. cbn [andb].
  destruct (length recs <=? 1)%nat eqn:El; intros [= <- _] Hne Hnd; [auto|].
  split; [|now apply NoDup_map_filter].
  (* two records with different RDATA do not both go *)
  destruct recs as [|x [|y l]]; try discriminate El. cbn [filter].
  destruct (rdata_eqb (fst x) d) eqn:Ex; [|discriminate]. destruct (rdata_eqb (fst y) d) eqn:Ey; [|discriminate].
  apply rdata_eqb_eq in Ex, Ey. inversion Hnd as [|? ? Hx _]. elim Hx. left. congruence.
Qed.

Lemma apply_rr_apex_ns o z u z' b recs :
  zget z (o, tNS) = Some recs -> recs <> [] -> NoDup (map fst recs) -> apply_rr o z u = Some (z', b) ->
  exists recs', zget z' (o, tNS) = Some recs' /\ recs' <> [] /\ NoDup (map fst recs').
Proof.
  intros Hg Hne Hnd H.
  destruct (apply_rr_cases _ _ _ _ _ H) as [[(_ & _ & Hns) _]|(_ & v & -> & Hv)]; [rewrite Hns; eauto|].
  rewrite zget_zset. destruct (key_eqb_spec (o, tNS) (rname u, rtype u)) as [[= En Et]|_]; [|eauto].
  exists v. split; [reflexivity|]. rewrite <- En, <- Et in Hv. destruct Hv as [(_ & _ & Hi)|(recs0 & Eg & Er)].
  - (* appended, and only RDATA that is not there yet *)
    split; [exact (rs_insert_nonempty _ _ _ _ _ Hi)|].
    rewrite (recs_at_some _ _ _ Hg), rs_insert_other in Hi by reflexivity.
    destruct (existsb _ recs) eqn:Ee; [discriminate|]. injection Hi as <-. rewrite map_app.
    apply NoDup_app_single; [exact Hnd|now apply existsb_rdata_false].
  - rewrite Hg in Eg. injection Eg as <-. exact (rs_remove_ns _ _ _ _ Er Hne Hnd).
Qed.

Lemma apply_rr_cname1 o z u z' b :
  (forall n recs, zget z (n, tCNAME) = Some recs -> (length recs <= 1)%nat) -> apply_rr o z u = Some (z', b) ->
  forall n recs, zget z' (n, tCNAME) = Some recs -> (length recs <= 1)%nat.
Proof.
  intros Wc1 H n recs.
  destruct (apply_rr_cases _ _ _ _ _ H) as [[(Hz & _) _]|(_ & v & -> & Hv)].
  - destruct (Hz (n, tCNAME)) as [-> | ->]; [discriminate|apply Wc1].
  - rewrite zget_zset. destruct (key_eqb_spec (n, tCNAME) (rname u, rtype u)) as [[= En Et]|_]; [|apply Wc1].
    intros [= <-]. rewrite <- En, <- Et in Hv. destruct Hv as [(_ & _ & Hi)|(recs0 & Eg & Er)].
    + rewrite rs_insert_cname in Hi. injection Hi as <-. cbn [length]. lia.
    + destruct (rs_remove_true _ _ _ _ Er) as [_ ->].
      apply Nat.le_trans with (length recs0); [apply filter_length_le|exact (Wc1 _ _ Eg)].
Qed.

Lemma apply_rr_WF o z u z' b :
  WF o z -> soa_not_apex o u = false -> apply_rr o z u = Some (z', b) -> WF o z'.
Proof.
  intros W Hk H. destruct (apply_rr_upd_inv _ _ _ _ _ (WF_upd_inv _ _ W) H) as [Wsoa' Wc'].
  destruct W as [_ Wone (recs & Hg & Hne & Hnd) _ Wc1]. constructor; [exact Wsoa'| | |exact Wc'|].
  - exact (apply_rr_one_soa _ _ _ _ _ Wone Hk H).
  - exact (apply_rr_apex_ns _ _ _ _ _ _ Hg Hne Hnd H).
  - exact (apply_rr_cname1 _ _ _ _ _ Wc1 H).
Qed.

Lemma update_WF ovf o z m : WF o z -> Known_inv o m = false -> WF o (fst (update ovf o z m)).
Proof.
  intros W Hk. apply update_keeps; [|exact (WF_upd_inv _ _ W)|exact W]. intros z0 u z1 b Hu W0.
  apply (apply_rr_WF _ _ _ _ _ W0). destruct Hu as [Hin| <-]; [exact (existsb_false _ _ _ Hk Hin)|].
  unfold soa_not_apex. now rewrite name_eqb_refl, andb_false_r.
Qed.

Fixpoint nodupb (l : list rdata) : bool :=
  match l with
  | [] => true
  | x :: l' => negb (existsb (rdata_eqb x) l') && nodupb l'
  end.

Lemma nodupb_sound l : nodupb l = true -> NoDup l.
Proof.
  induction l as [|x l IH]; cbn [nodupb]; [constructor|].
  intros H. apply andb_true_iff in H. destruct H as [H1 H2]. constructor; [|now apply IH].
  intros Hin. apply negb_true_iff in H1. apply (existsb_false _ _ _ H1) in Hin. now rewrite rdata_eqb_refl in Hin.
Qed.

Definition wfb (o : name) (z : zone) : bool :=
  match zget z (o, tSOA) with Some [(DSoa _ _, _)] => true | _ => false end
  && forallb (fun e => negb (snd (fst e) =? tSOA) || name_eqb (fst (fst e)) o) z
  && match zget z (o, tNS) with Some (r :: l) => nodupb (map fst (r :: l)) | _ => false end
  && forallb (fun e1 => negb (snd (fst e1) =? tCNAME) ||
        forallb (fun e2 => negb (name_eqb (fst (fst e2)) (fst (fst e1))) || exempt (snd (fst e2)) || (snd (fst e2) =? tCNAME)) z) z
  && forallb (fun e => negb (snd (fst e) =? tCNAME) || (length (snd e) <=? 1)%nat) z.

Lemma wfb_sound o z : wfb o z = true -> WF o z.
Proof.
  unfold wfb. rewrite !andb_true_iff. intros ((((Hsoa & Hone) & Hns) & Hcname) & Hcname1).
  rewrite forallb_forall in Hone, Hcname, Hcname1. constructor.
  - destruct (zget z (o, tSOA)) as [[|[[| | |s r] ttl] [|]]|]; try discriminate. eauto.
  - intros n Hn. destruct (zget z (n, tSOA)) eqn:E; [|reflexivity].
    apply zget_in in E. specialize (Hone _ E). cbn [fst snd] in Hone.
    rewrite N.eqb_refl in Hone. now apply bytes_eqb_eq in Hone.
  - destruct (zget z (o, tNS)) as [[|r l]|]; try discriminate. exists (r :: l). repeat split; [discriminate|].
    now apply nodupb_sound.
  - intros n t Hc Ht Hex. apply zhas_in in Hc, Ht. destruct Hc as [v1 Hc]. destruct Ht as [v2 Ht].
    specialize (Hcname _ Hc). cbn [fst snd] in Hcname. rewrite N.eqb_refl in Hcname. cbn [negb orb] in Hcname.
    rewrite forallb_forall in Hcname.
    specialize (Hcname _ Ht). cbn [fst snd] in Hcname. rewrite name_eqb_refl, Hex in Hcname. now apply N.eqb_eq.
  - intros n recs Hg. apply zget_in in Hg. specialize (Hcname1 _ Hg). cbn [fst snd] in Hcname1.
    rewrite N.eqb_refl in Hcname1. now apply Nat.leb_le.
Qed.

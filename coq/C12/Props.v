(* C12 — property theorems.  Statements are about the model of C12/Model.v (what the code does);
   the invariants, known classes and RFC 1982 comparison are in C12/Spec.v.
   Naming: plain = full strength; _guarded = for every input outside a narrow decidable class
   (the class is a finding confirmed on the real code); _refuted = the unguarded statement is
   false, with a witness evaluated by the kernel. *)
From HV Require Import Lib.Base C12.Model C12.Spec C12.ZoneProofs C12.InvProofs C12.WfProofs C12.RfcProofs.
Open Scope N_scope.

(* sequential: message k is judged against the zone as left by messages 1..k-1 *)
Theorem C12_sequential : forall ovf o z ms1 m ms2,
  run ovf o z (ms1 ++ m :: ms2) =
  run ovf o z ms1 ++ update ovf o (final ovf o z ms1) m
                  :: run ovf o (fst (update ovf o (final ovf o z ms1) m)) ms2.
Proof.
  intros. rewrite run_app. cbn [run]. destruct (update ovf o (final ovf o z ms1) m) as [z' r]. reflexivity.
Qed.
Print Assumptions C12_sequential.

(* a message whose authorisation, prerequisites or prescan fail changes nothing — for every
   zone, well-formed or not *)
Theorem C12_rejected_changes_nothing : forall ovf o z m,
  m_auth m = false \/ verify_prerequisites o z (m_pre m) <> NoError \/ pre_scan o (m_upd m) <> NoError ->
  fst (update ovf o z m) = z /\ snd (update ovf o z m) <> Rc NoError.
Proof.
  intros ovf o z m H. destruct (update_cases ovf o z m) as [(c & Hc & ->)|(Ha & Hv & Hp & _)].
  - split; [reflexivity|]. now intros [= ->].
  - destruct H as [H|[H|H]]; congruence.
Qed.
Print Assumptions C12_rejected_changes_nothing.

(* conversely: from a well-formed zone, ANY answer other than NOERROR means the zone is exactly
   as before (the update loop cannot fail half-way once the prescan has passed) *)
Theorem C12_all_or_nothing_guarded : forall ovf o z m c,
  WF o z -> Known_inv o m = false ->
  snd (update ovf o z m) = Rc c -> c <> NoError -> fst (update ovf o z m) = z.
Proof.
  intros ovf o z m c W _.
  destruct (update_inv_cases ovf o z m (WF_upd_inv _ _ W)) as [(c' & _ & ->)|(z' & -> & _)];
    [reflexivity|cbn [snd]; congruence].
Qed.
Print Assumptions C12_all_or_nothing_guarded.

(* The only guard is Known_inv = "the update section adds an SOA whose owner is not the apex"
   (finding C12-soa-not-apex, open).  "Delete all RRsets" at the apex and the serial at 2^32-1
   need no guard: the model follows the code with fixes 9a1aca9 and 118f816. *)

(* one step: exactly one SOA, apex NS, CNAME exclusive afterwards, and no panic, in every build *)
Theorem C12_invariants_step_guarded : forall ovf o z m,
  WF o z -> Known_inv o m = false ->
  WF o (fst (update ovf o z m)) /\ snd (update ovf o z m) <> Panicked.
Proof.
  intros ovf o z m W Hk. split; [now apply update_WF|].
  destruct (update_inv_cases ovf o z m (WF_upd_inv _ _ W)) as [(c & _ & ->)|(z' & -> & _)]; discriminate.
Qed.
Print Assumptions C12_invariants_step_guarded.

(* every history, every build, including histories that cross serial 2^32-1 and histories that
   "delete all RRsets" at the apex: the invariants hold after every message and none panics *)
Theorem C12_invariants_history_guarded : forall ovf o z ms,
  WF o z -> Forall (fun m => Known_inv o m = false) ms ->
  Forall (fun zr => WF o (fst zr) /\ snd zr <> Panicked) (run ovf o z ms).
Proof.
  intros ovf o z ms. revert z. induction ms as [|m ms IH]; intros z W Hk; cbn [run]; [constructor|].
  inversion Hk as [|? ? Hk1 Hk2]; subst. pose proof (C12_invariants_step_guarded ovf o z m W Hk1) as Hs.
  destruct (update ovf o z m) as [z' r]. constructor; [exact Hs|]. apply IH; [apply Hs|exact Hk2].
Qed.
Print Assumptions C12_invariants_history_guarded.

Definition o_ex : name := [2; 1].
Definition soa_ex s := mkRR o_ex cIN 300 tSOA (DSoa s 7).
Definition z_ex (s : N) : zone :=
  build [soa_ex s; mkRR o_ex cIN 300 tNS (DGen 1); mkRR [3; 2; 1] cIN 300 tA (DGen 1);
         mkRR [6; 2; 1] cIN 300 tCNAME (DCname [3; 2; 1]); mkRR [5; 2; 1] cIN 300 tNS (DGen 3)].
Definition sign us := mkMsg true [] us.

Example C12_ex_wf : WF o_ex (z_ex 10).
Proof. apply wfb_sound; vm_compute; reflexivity. Qed.

(* fix 9a1aca9: "delete all RRsets from a name" (class ANY, type ANY) at the apex keeps exactly the
   apex SOA and NS RRsets, removes every other RRset of the apex, and touches no other name — for
   every zone *)
Theorem C12_apex_delete_all_keeps_soa_ns : forall o z u z' b,
  apex_wipe o u = true -> apply_rr o z u = Some (z', b) ->
  zget z' (o, tSOA) = zget z (o, tSOA) /\ zget z' (o, tNS) = zget z (o, tNS) /\
  (forall t, t <> tSOA -> t <> tNS -> zget z' (o, t) = None) /\
  (forall n t, n <> o -> zget z' (n, t) = zget z (n, t)).
Proof.
  intros o z u z' b H. destruct (apex_wipe_true _ _ H) as (Hc & Ht & Hn).
  unfold apply_rr. rewrite Hc, Ht, Hn. change (cANY =? cIN) with false. cbn [orb andb].
  intros [= <- _]. destruct (trimmed_retain o o z) as (_ & Hs & Hns).
  repeat split; [exact Hs|exact Hns|intros t H1 H2|intros n t Hne]; rewrite zget_retain.
  - unfold retain_keep. cbn [fst snd]. apply N.eqb_neq in H1, H2. now rewrite name_eqb_refl, H1, H2.
  - unfold retain_keep. cbn [fst snd]. apply name_eqb_neq in Hne. now rewrite Hne.
Qed.
Print Assumptions C12_apex_delete_all_keeps_soa_ns.

(* C12-soa-not-apex (open): an SOA owned by another name is added: two SOAs *)
Theorem C12_invariants_refuted_soa_not_apex :
  exists o z m, WF o z /\ snd (update false o z m) = Rc NoError /\ ~ WF o (fst (update false o z m)).
Proof.
  exists o_ex, (z_ex 10), (sign [mkRR [3; 2; 1] cIN 300 tSOA (DSoa 1 7)]).
  split; [exact C12_ex_wf|]. split; [vm_compute; reflexivity|].
  intros [_ H _ _ _]. specialize (H [3; 2; 1] ltac:(discriminate)). vm_compute in H. discriminate.
Qed.
Print Assumptions C12_invariants_refuted_soa_not_apex.

(* fix 118f816: no message panics, whatever the serial and whatever SOA it carries, in builds with
   and without overflow checks *)
Theorem C12_no_panic : forall ovf o z m,
  WF o z -> Known_inv o m = false -> snd (update ovf o z m) <> Panicked.
Proof. intros. now apply C12_invariants_step_guarded. Qed.
Print Assumptions C12_no_panic.

(* if an accepted message changed anything at all, the serial is the successor modulo 2^32 of the
   serial the zone had once the update section was applied (which may itself have set a newer
   SOA), and that is strictly newer in RFC 1982 arithmetic: 0 follows 2^32-1 *)
Theorem C12_changed_implies_serial_successor_guarded : forall ovf o z m z',
  WF o z -> Known_inv o m = false -> update ovf o z m = (z', Rc NoError) -> z' <> z ->
  exists z1 upd, apply_rrs o z false (m_upd m) = (z1, upd, true) /\
    serial o z' = (serial o z1 + 1) mod two32 /\ serial_lt (serial o z1) (serial o z') = true.
Proof.
  intros ovf o z m z' W _.
  destruct (update_inv_cases ovf o z m (WF_upd_inv _ _ W))
    as [(c & _ & ->)|(z2 & -> & z1 & upd & s & r & ttl & Ha & _ & Hg & ->)]; intros [= <-] Hne; [congruence|].
  destruct upd; [|apply apply_rrs_false in Ha; destruct Ha as [-> _]; congruence].
  exists z1, true. split; [exact Ha|].
  rewrite (serial_of_soa _ _ _ _ _ Hg), (serial_of_soa _ _ _ _ _ (zget_zset_same _ _ _)).
  split; [reflexivity|apply serial_lt_succ].
Qed.
Print Assumptions C12_changed_implies_serial_successor_guarded.

(* without SOA RDATA in the message: strictly advanced (RFC 1982) relative to the serial before
   the message, by exactly one, wrap included, in every build *)
Theorem C12_changed_implies_serial_advanced_guarded : forall ovf o z m z',
  WF o z -> Known_inv o m = false -> soa_serials (m_upd m) = [] ->
  update ovf o z m = (z', Rc NoError) -> z' <> z ->
  serial_lt (serial o z) (serial o z') = true /\ serial o z' = (serial o z + 1) mod two32.
Proof.
  intros ovf o z m z' W Hk Hs Hu Hne.
  destruct (C12_changed_implies_serial_successor_guarded ovf o z m z' W Hk Hu Hne) as (z1 & upd & Ha & H1 & H2).
  destruct (wf_soa _ _ W) as (s & r & ttl & Hg).
  assert (serial o z1 = serial o z) as E
    by (unfold serial; now rewrite (apply_rrs_soa_same _ _ _ _ _ _ _ _ _ _ Hg Hs Ha), Hg).
  rewrite E in *. auto.
Qed.
Print Assumptions C12_changed_implies_serial_advanced_guarded.

(* the converse ("serial moved => content changed") is false: re-adding the CNAME that is
   already there bumps the serial although the zone minus its SOA RRset is identical
   (finding C12-serial-bump-without-change, open) *)
Theorem C12_serial_moved_implies_changed_refuted :
  exists o z m z', WF o z /\ Known_inv o m = false /\ update false o z m = (z', Rc NoError) /\
    zdel z' (o, tSOA) = zdel z (o, tSOA) /\ serial o z' <> serial o z.
Proof.
  exists o_ex, (build [soa_ex 10; mkRR o_ex cIN 300 tNS (DGen 1); mkRR [6; 2; 1] cIN 300 tCNAME (DCname [3; 2; 1])]),
         (sign [mkRR [6; 2; 1] cIN 300 tCNAME (DCname [3; 2; 1])]).
  eexists. split; [apply wfb_sound; vm_compute; reflexivity|]. split; [reflexivity|].
  split; [vm_compute; reflexivity|]. split; [vm_compute; reflexivity|vm_compute; discriminate].
Qed.
Print Assumptions C12_serial_moved_implies_changed_refuted.

(* fix 118f816: an SOA update replaces the zone SOA exactly when its serial is newer in RFC 1982
   arithmetic (Spec.serial_lt, written from RFC 1982 3.2) *)
Theorem C12_soa_update_is_rfc1982 : forall ns es, soa_newer ns es = serial_lt es ns.
Proof. exact soa_newer_serial_lt. Qed.
Print Assumptions C12_soa_update_is_rfc1982.

(* one Update RR outside the known classes (Spec.Known_rr: decidable in the zone and the RR)
   leaves, key by key, the records that the pseudocode of 3.4.2.7 (Spec.rfc_rr, written
   independently of the model, SOA by RFC 1982) leaves *)
Theorem C12_update_rr_is_rfc_guarded : forall o z u z' b,
  WF o z -> Known_rr o z u = false -> apply_rr o z u = Some (z', b) -> same_records z' (rfc_rr o z u).
Proof.
  intros o z u z' b W. exact (apply_rr_is_rfc _ _ _ _ _ (wf_soa _ _ W)).
Qed.
Print Assumptions C12_update_rr_is_rfc_guarded.

(* the whole update section, RR by RR against the zone left by the RRs before it *)
Theorem C12_update_section_is_rfc_guarded : forall o us z,
  WF o z -> all_goodb o z us = true -> steps_rfc o z us.
Proof.
  intros o us z W. exact (section_is_rfc _ _ _ (wf_soa _ _ W)).
Qed.
Print Assumptions C12_update_section_is_rfc_guarded.

(* the classes are real: e.g. the RR of C12-ttl-not-replaced is in Known_rr and the model
   differs from the RFC there *)
Theorem C12_update_is_rfc_refuted :
  exists o z u z' b, WF o z /\ apply_rr o z u = Some (z', b) /\ ~ same_records z' (rfc_rr o z u).
Proof.
  exists o_ex, (z_ex 10), (mkRR [3; 2; 1] cIN 60 tA (DGen 1)). eexists. eexists.
  split; [exact C12_ex_wf|]. split; [vm_compute; reflexivity|].
  intros H. specialize (H ([3; 2; 1], tA)). vm_compute in H. discriminate.
Qed.
Print Assumptions C12_update_is_rfc_refuted.

(* a three-message history outside the known classes: add, failing prerequisite, delete *)
Example C12_ex_history :
  let ms := [sign [mkRR [3; 2; 1] cIN 60 tA (DGen 2)];
             mkMsg true [mkRR [9; 2; 1] cANY 0 tANY DNone] [mkRR [3; 2; 1] cIN 60 tA (DGen 3)];
             sign [mkRR [3; 2; 1] cNONE 0 tA (DGen 1)]] in
  Forall (fun m => Known_inv o_ex m = false) ms /\
  map (fun zr => (snd zr, serial o_ex (fst zr))) (run false o_ex (z_ex 10) ms)
    = [(Rc NoError, 11); (Rc NXDomain, 11); (Rc NoError, 12)].
Proof. cbv zeta. split; [repeat constructor|vm_compute; reflexivity]. Qed.

(* an error answer from a well-formed zone (C12_all_or_nothing_guarded) *)
Example C12_ex_error :
  let m := mkMsg true [mkRR [3; 2; 1] cNONE 0 tA DNone] [mkRR [3; 2; 1] cIN 60 tA (DGen 2)] in
  Known_inv o_ex m = false /\ snd (update false o_ex (z_ex 10) m) = Rc YXRRSet.
Proof. cbv zeta. split; vm_compute; reflexivity. Qed.

(* a changing message at the top serial, build with overflow checks: wraps to 0, which is
   "advanced" in RFC 1982 arithmetic (C12_changed_implies_serial_advanced_guarded, C12_no_panic) *)
Example C12_ex_wrap :
  let m := sign [mkRR [3; 2; 1] cIN 60 tA (DGen 2)] in
  soa_serials (m_upd m) = [] /\ snd (update true o_ex (z_ex 4294967295) m) = Rc NoError /\
  serial o_ex (fst (update true o_ex (z_ex 4294967295) m)) = 0 /\ serial_lt 4294967295 0 = true.
Proof. cbv zeta. repeat split; vm_compute; reflexivity. Qed.

(* "delete all RRsets" at the apex on a concrete zone: the apex keeps SOA and NS, the invariants
   hold, the answer is NOERROR (C12_apex_delete_all_keeps_soa_ns, C12_invariants_step_guarded) *)
Example C12_ex_apex_delete_all :
  let z := build [soa_ex 10; mkRR o_ex cIN 300 tNS (DGen 1); mkRR o_ex cIN 300 tA (DGen 1)] in
  let m := sign [mkRR o_ex cANY 0 tANY DNone] in
  WF o_ex z /\ Known_inv o_ex m = false /\ snd (update true o_ex z m) = Rc NoError /\
  zget (fst (update true o_ex z m)) (o_ex, tA) = None /\ serial o_ex (fst (update true o_ex z m)) = 11.
Proof. cbv zeta. split; [apply wfb_sound; vm_compute; reflexivity|]. repeat split; vm_compute; reflexivity. Qed.

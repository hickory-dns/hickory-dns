(* C12 — what one Update RR does to the map (apply_rr_cases: it drops keys, or stores one record
   list under its own key); the invariant upd_inv that every Update RR keeps and on which the
   serial increment succeeds.  On a zone with upd_inv a message is either refused with the zone
   untouched or its whole update section is [applied] (update_inv_cases), and keeps what every
   Update RR keeps (update_keeps). *)
From HV Require Import Lib.Base Lib.ListX C12.Model C12.Spec C12.ZoneProofs.
Open Scope N_scope.

Lemma recs_at_some z k l : zget z k = Some l -> recs_at z k = l.
Proof. unfold recs_at. now intros ->. Qed.
Lemma recs_at_none z k : zget z k = None -> recs_at z k = [].
Proof. unfold recs_at. now intros ->. Qed.

Lemma exempt_false t : exempt t = false -> in_range t = true /\ (t =? tNSEC) = false /\ (t =? tNSEC3) = false.
Proof.
  unfold exempt. rewrite !orb_false_iff, negb_false_iff. tauto.
Qed.

Lemma apex_wipe_true o u : apex_wipe o u = true -> rclass u = cANY /\ rtype u = tANY /\ rname u = o.
Proof.
  unfold apex_wipe. rewrite !andb_true_iff, !N.eqb_eq, bytes_eqb_eq. tauto.
Qed.

Lemma soa_not_apex_false o u : soa_not_apex o u = false -> rclass u = cIN -> rtype u = tSOA -> rname u = o.
Proof.
  unfold soa_not_apex. intros H Ec Et. rewrite Ec, Et, !N.eqb_refl in H. now apply negb_false_iff, bytes_eqb_eq in H.
Qed.

Definition trimmed (o : name) (z z' : zone) : Prop :=
  (forall k, zget z' k = None \/ zget z' k = zget z k) /\
  zget z' (o, tSOA) = zget z (o, tSOA) /\ zget z' (o, tNS) = zget z (o, tNS).

Lemma trimmed_refl o z : trimmed o z z.
Proof. unfold trimmed. auto. Qed.

Definition coexist (t t' : N) : Prop :=
  exempt t = false -> exempt t' = false -> (t = tCNAME <-> t' = tCNAME).

Lemma upsert_blocked_true z n t :
  upsert_blocked z n t = true <->
  exists kt, zhas z (n, kt) = true /\ in_range kt = true /\ is_nsec t kt = false /\ label_no_multi t kt tCNAME = true.
Proof.
  unfold upsert_blocked. rewrite existsb_exists. split.
  - intros ([[n' kt] v] & Hin & H). cbn [fst snd] in H.
    rewrite !andb_true_iff, negb_true_iff, bytes_eqb_eq in H. destruct H as [[[-> H1] H2] H3].
    exists kt. repeat split; auto. apply zhas_in. eauto.
  - intros (kt & Hh & H1 & H2 & H3). apply zhas_in in Hh. destruct Hh as [v Hin].
    exists ((n, kt), v). split; [exact Hin|]. cbn [fst snd].
    rewrite name_eqb_refl, H1, H2, H3. reflexivity.
Qed.

Lemma upsert_not_blocked z n t t' :
  upsert_blocked z n t = false -> zhas z (n, t') = true -> coexist t t'.
Proof.
  intros Hb Hh Ht Ht'. apply exempt_false in Ht, Ht'. destruct Ht as (_ & N1 & N2), Ht' as (R' & N1' & N2').
  destruct (label_no_multi t t' tCNAME) eqn:El.
  - rewrite (proj2 (upsert_blocked_true z n t)) in Hb; [discriminate|].
    exists t'. unfold is_nsec. now rewrite N1, N2, N1', N2'.
  - unfold label_no_multi in El. rewrite <- !N.eqb_eq.
    destruct (t =? tCNAME), (t' =? tCNAME); (discriminate El || tauto).
Qed.

Lemma soa_not_blocked z o : zhas z (o, tCNAME) = false -> upsert_blocked z o tSOA = false.
Proof.
  intros H. destruct (upsert_blocked z o tSOA) eqn:E; [|reflexivity].
  apply upsert_blocked_true in E. destruct E as (kt & Hh & _ & _ & Hl).
  (* in label_no_multi tSOA kt tCNAME the test tSOA =? tCNAME computes to false *)
  change ((kt =? tCNAME) = true) in Hl. apply N.eqb_eq in Hl. congruence.
Qed.

Lemma upsert_spec z r z' b : upsert z r = (z', b) ->
  (b = false /\ z' = z) \/
  (b = true /\ rclass r = cIN /\ upsert_blocked z (rname r) (rtype r) = false /\
   exists recs', rs_insert (recs_at z (rname r, rtype r)) (rtype r) (rdat r) (rttl r) = (recs', true) /\
                 z' = zset z (rname r, rtype r) recs').
Proof.
  unfold upsert. destruct (N.eqb_spec (rclass r) cIN) as [Ec|_]; cbn [negb]; [|intros [= <- <-]; auto].
  destruct (upsert_blocked z (rname r) (rtype r)); [intros [= <- <-]; auto|].
  fold (recs_at z (rname r, rtype r)).
  destruct (rs_insert _ _ _ _) as [recs' []]; intros [= <- <-]; [right|left; auto].
  repeat split; auto. eauto.
Qed.

Lemma trimmed_filter o (f : key -> bool) z :
  f (o, tSOA) = true -> f (o, tNS) = true -> trimmed o z (filter (fun e => f (fst e)) z).
Proof.
  intros Hs Hn. split; [intros k|split]; rewrite zget_filter.
  - destruct (f k); auto.
  - now rewrite Hs.
  - now rewrite Hn.
Qed.

Lemma trimmed_retain o n z : trimmed o z (retain_any o n z).
Proof. apply (trimmed_filter o (retain_keep o n)); apply retain_keeps_apex; auto. Qed.

Lemma trimmed_zdel o z n t :
  ((t =? tSOA) || (t =? tNS)) && name_eqb n o = false -> trimmed o z (zdel z (n, t)).
Proof.
  intros Eg.
  (* the guard of the class-ANY arm failed: the RR does not name the apex SOA or NS *)
  assert (Hk : forall t', t' = tSOA \/ t' = tNS -> negb (key_eqb (o, t') (n, t)) = true).
  { intros t' Ht. apply negb_true_iff, key_eqb_neq. intros [= <- <-].
    rewrite name_eqb_refl, andb_true_r in Eg. destruct Ht as [-> | ->]; discriminate Eg. }
  apply (trimmed_filter o (fun k => negb (key_eqb k (n, t)))); apply Hk; auto.
Qed.

Lemma apply_rr_cases o z u z' b : apply_rr o z u = Some (z', b) ->
  (trimmed o z z' /\ (b = false -> z' = z)) \/
  (b = true /\ exists v, z' = zset z (rname u, rtype u) v /\
     ((rclass u = cIN /\ upsert_blocked z (rname u) (rtype u) = false /\
       rs_insert (recs_at z (rname u, rtype u)) (rtype u) (rdat u) (rttl u) = (v, true)) \/
      exists recs, zget z (rname u, rtype u) = Some recs /\ rs_remove recs (rtype u) (rdat u) = (v, true))).
Proof.
  unfold apply_rr. destruct (rclass u =? cIN).
  { intros [= H]. destruct (upsert_spec _ _ _ _ H) as [[-> ->]|(-> & Hu)]; [auto using trimmed_refl|].
    destruct Hu as (Hc & Hb & v & Hi & ->). right. eauto 8. }
  destruct (rclass u =? cANY).
  { intros H. left.
    destruct (((rtype u =? tSOA) || (rtype u =? tNS)) && name_eqb (rname u) o) eqn:Eg.
    { injection H as <- <-. auto using trimmed_refl. }
    destruct (rtype u =? tANY).
    - injection H as <- <-. split; [apply trimmed_retain|apply filter_not_shorter].
    - destruct (rdat u); try discriminate. injection H as <- <-.
      split; [now apply trimmed_zdel|]. intros H. now apply zdel_absent, zhas_false. }
  destruct (rclass u =? cNONE); [|discriminate].
  destruct (zget z (rname u, rtype u)) as [recs|]; [|intros [= <- <-]; auto using trimmed_refl].
  destruct (rs_remove recs (rtype u) (rdat u)) as [recs' []] eqn:Er; intros [= <- <-];
    [right; eauto 8|auto using trimmed_refl].
Qed.

Lemma apply_rrs_inv o (P : zone -> Prop) us :
  (forall z u z' b, In u us -> P z -> apply_rr o z u = Some (z', b) -> P z') ->
  forall z upd z' upd' c, P z -> apply_rrs o z upd us = (z', upd', c) -> P z'.
Proof.
  induction us as [|u us IH]; intros Hstep z upd z' upd' c Hz; cbn [apply_rrs].
  - now intros [= <- _ _].
  - destruct (apply_rr o z u) as [[z1 b]|] eqn:Ea; [|now intros [= <- _ _]].
    apply IH; [intros z2 u2 z3 b2 Hin; apply Hstep; now right|]. apply (Hstep _ _ _ _ (or_introl eq_refl) Hz Ea).
Qed.

(* Two of the five invariants of WF are what the update loop and the serial increment rely on:
   the apex SOA (the agreement with the RFC needs no more) and CNAME exclusivity, which keeps a
   CNAME away from the apex (no_apex_cname) and so lets the incremented SOA back in
   (increment_spec).  Every Update RR keeps each of the two, whatever the RR. *)
Definition apex_soa (o : name) (z : zone) : Prop := exists s r ttl, zget z (o, tSOA) = Some [(DSoa s r, ttl)].

Definition cname_excl (z : zone) : Prop :=
  forall n t, zhas z (n, tCNAME) = true -> zhas z (n, t) = true -> exempt t = false -> t = tCNAME.

Definition upd_inv (o : name) (z : zone) : Prop := apex_soa o z /\ cname_excl z.

Lemma no_apex_cname o z : upd_inv o z -> zhas z (o, tCNAME) = false.
Proof.
  intros [(s & r & ttl & Hs) Wc]. destruct (zhas z (o, tCNAME)) eqn:E; [|reflexivity].
  discriminate (Wc o tSOA E (zhas_some _ _ _ Hs) eq_refl).
Qed.

Lemma apply_rr_soa o z u z' b s r ttl :
  zget z (o, tSOA) = Some [(DSoa s r, ttl)] -> apply_rr o z u = Some (z', b) ->
  zget z' (o, tSOA) = Some [(DSoa s r, ttl)] \/
  exists ns nr, rdat u = DSoa ns nr /\ zget z' (o, tSOA) = Some [(DSoa ns nr, rttl u)].
Proof.
  intros Hs H.
  destruct (apply_rr_cases _ _ _ _ _ H) as [[(_ & Hsoa & _) _]|(_ & v & -> & Hv)]; [left; now rewrite Hsoa|].
  rewrite zget_zset. destruct (key_eqb_spec (o, tSOA) (rname u, rtype u)) as [[= En Et]|_]; [|now left].
  destruct Hv as [(_ & _ & Hi)|(recs & _ & Er)].
  - right. rewrite <- En, <- Et, (recs_at_some _ _ _ Hs), rs_insert_soa in Hi.
    destruct (rdat u) as [| | |ns nr]; try discriminate. destruct (soa_newer ns s); [|discriminate].
    injection Hi as <-. eauto.
  - destruct (rs_remove_true _ _ _ _ Er) as [Hn _]. now elim Hn.
Qed.

Lemma apply_rr_apex_soa o z u z' b : apex_soa o z -> apply_rr o z u = Some (z', b) -> apex_soa o z'.
Proof.
  intros (s & r & ttl & Hs) H. unfold apex_soa.
  destruct (apply_rr_soa _ _ _ _ _ _ _ _ Hs H) as [Hs'|(ns & nr & _ & Hs')]; eauto.
Qed.

Lemma cname_excl_zset z n t v :
  cname_excl z -> (zhas z (n, t) = true \/ forall t', zhas z (n, t') = true -> coexist t t') ->
  cname_excl (zset z (n, t) v).
Proof.
  intros Wc Hx.
  assert (Hj : forall t', zhas z (n, t') = true -> coexist t t').
  { destruct Hx as [Hx|Hx]; [|exact Hx]. intros t' H' He He'. split; intros ->; apply (Wc n); auto. }
  intros n' t'. rewrite !zhas_zset.
  destruct (key_eqb_spec (n', tCNAME) (n, t)) as [E1|_], (key_eqb_spec (n', t') (n, t)) as [E2|_];
    cbn [orb]; intros H1 H2 He.
  - congruence.
  - injection E1 as <- <-. now apply (Hj t').
  - injection E2 as <- <-. now apply (Hj tCNAME).
  - now apply (Wc n').
Qed.

Lemma apply_rr_cname_excl o z u z' b : cname_excl z -> apply_rr o z u = Some (z', b) -> cname_excl z'.
Proof.
  intros Wc H. destruct (apply_rr_cases _ _ _ _ _ H) as [[(Hz & _) _]|(_ & v & -> & [(_ & Hb & _)|(recs & Eg & _)])].
  - assert (Hh : forall k, zhas z' k = true -> zhas z k = true).
    { intros k. unfold zhas. now destruct (Hz k) as [-> | ->]. }
    intros n t H1 H2. apply (Wc n); auto.
  - apply cname_excl_zset; [exact Wc|right; intros t'; now apply upsert_not_blocked].
  - apply cname_excl_zset; [exact Wc|left; exact (zhas_some _ _ _ Eg)].
Qed.

Lemma apply_rr_upd_inv o z u z' b : upd_inv o z -> apply_rr o z u = Some (z', b) -> upd_inv o z'.
Proof.
  intros [Hs Wc] H. exact (conj (apply_rr_apex_soa _ _ _ _ _ Hs H) (apply_rr_cname_excl _ _ _ _ _ Wc H)).
Qed.

Lemma apply_rrs_upd_inv o us z upd z' upd' c :
  upd_inv o z -> apply_rrs o z upd us = (z', upd', c) -> upd_inv o z'.
Proof.
  apply (apply_rrs_inv o (upd_inv o)). intros z0 u z1 b _. apply apply_rr_upd_inv.
Qed.

Lemma increment_spec ovf o z s r ttl :
  zget z (o, tSOA) = Some [(DSoa s r, ttl)] -> zhas z (o, tCNAME) = false ->
  increment_soa_serial ovf o z =
    Done (zset z (o, tSOA) [(DSoa ((s + 1) mod two32) r, ttl)], (s + 1) mod two32).
Proof.
  intros Hs Hc. unfold increment_soa_serial, next_serial. rewrite Hs. do 2 f_equal.
  unfold upsert. cbn [rclass rname rtype rdat rttl]. change (cIN =? cIN) with true. cbn [negb].
  rewrite soa_not_blocked by (rewrite zhas_zdel, Hc; apply andb_false_r).
  rewrite zget_zdel, key_eqb_refl, rs_insert_nil. apply zset_zdel.
Qed.

(* the Update RRs the loop of update_records has an arm for *)
Definition loop_ok (u : rr) : Prop :=
  (rclass u =? cIN) = true \/
  ((rclass u =? cIN) = false /\ (rclass u =? cANY) = true /\ rdat u = DNone) \/
  ((rclass u =? cIN) = false /\ (rclass u =? cANY) = false /\ (rclass u =? cNONE) = true).

(* the type conjunct serves C14: on replay a row of type AXFR clears the zone *)
Lemma pre_scan_cons o u us : pre_scan o (u :: us) = NoError ->
  pre_scan o us = NoError /\ (rtype u =? tAXFR) = false /\ loop_ok u.
Proof.
  cbn [pre_scan]. unfold loop_ok. destruct (negb (zone_of o (rname u))); [discriminate|].
  destruct (rclass u =? cIN).
  { destruct (rtype u =? tAXFR); [now rewrite orb_true_r|]. destruct (_ || _); [discriminate|tauto]. }
  destruct (rclass u =? cANY).
  { destruct (negb (rttl u =? 0)); [discriminate|].
    destruct (rdat u); cbn [is_empty_data negb]; try discriminate.
    destruct (rtype u =? tAXFR); [discriminate|]. destruct (_ || _); [discriminate|tauto]. }
  destruct (rclass u =? cNONE); [|discriminate].
  destruct (negb (rttl u =? 0)); [discriminate|].
  destruct (rtype u =? tAXFR); [now rewrite orb_true_r|]. destruct (_ || _); [discriminate|tauto].
Qed.

Lemma apply_rr_total o z u : loop_ok u -> exists zb, apply_rr o z u = Some zb.
Proof.
  unfold apply_rr. intros [H|[(H1 & H2 & H3)|(H1 & H2 & H3)]].
  - rewrite H. eauto.
  - rewrite H1, H2, H3. destruct (_ && _); [eauto|]. destruct (rtype u =? tANY); eauto.
  - rewrite H1, H2, H3. destruct (zget z (rname u, rtype u)); [|eauto].
    destruct (rs_remove l (rtype u) (rdat u)) as [r []]; eauto.
Qed.

Lemma pre_scan_total o us : pre_scan o us = NoError ->
  forall z upd, exists z' upd', apply_rrs o z upd us = (z', upd', true).
Proof.
  induction us as [|u us IH]; intros H z upd; cbn [apply_rrs]; [eauto|].
  apply pre_scan_cons in H. destruct H as (H & _ & Hu).
  destruct (apply_rr_total o z u Hu) as [[z1 b] ->]. now apply IH.
Qed.

Lemma serial_of_soa o z s r ttl : zget z (o, tSOA) = Some [(DSoa s r, ttl)] -> serial o z = s.
Proof. unfold serial. now intros ->. Qed.

Lemma soa_newer_serial_lt ns es : soa_newer ns es = serial_lt es ns.
Proof.
  unfold soa_newer, serial_lt, half32. rewrite (N.eqb_sym ns es). f_equal. apply orb_comm.
Qed.

Lemma soa_newer_succ s : soa_newer ((s + 1) mod two32) s = true.
Proof.
  unfold soa_newer, half32, two32.
  pose proof (N.div_mod (s + 1) 4294967296 ltac:(lia)) as Hdm.
  pose proof (N.mod_lt (s + 1) 4294967296 ltac:(lia)) as Hm.
  set (q := (s + 1) / 4294967296) in *. set (r := (s + 1) mod 4294967296) in *.
  rewrite andb_true_iff, negb_true_iff, orb_true_iff, !andb_true_iff, N.eqb_neq, !N.ltb_lt.
  (* no wrap: r = s + 1; wrap: r < 2^32 <= s + 1 - r *)
  destruct (N.eq_dec q 0); lia.
Qed.

Lemma serial_lt_succ s : serial_lt s ((s + 1) mod two32) = true.
Proof. rewrite <- soa_newer_serial_lt. apply soa_newer_succ. Qed.

(* the serial increment does what an Update RR carrying the next SOA would do (the RR that the
   journal of C14 records): what every Update RR keeps, it keeps *)
Lemma apply_rr_next_soa o z s r ttl :
  upd_inv o z -> zget z (o, tSOA) = Some [(DSoa s r, ttl)] ->
  apply_rr o z (mkRR o cIN ttl tSOA (DSoa ((s + 1) mod two32) r)) =
  Some (zset z (o, tSOA) [(DSoa ((s + 1) mod two32) r, ttl)], true).
Proof.
  intros Hz Hs. unfold apply_rr, upsert. cbn [rclass rname rtype rdat rttl]. change (cIN =? cIN) with true. cbn [negb].
  now rewrite (soa_not_blocked _ _ (no_apex_cname _ _ Hz)), Hs, rs_insert_soa, soa_newer_succ.
Qed.

Definition applied (o : name) (z : zone) (us : list rr) (z' : zone) : Prop :=
  exists z1 upd s r ttl, apply_rrs o z false us = (z1, upd, true) /\
    upd_inv o z1 /\ zget z1 (o, tSOA) = Some [(DSoa s r, ttl)] /\
    z' = if upd then zset z1 (o, tSOA) [(DSoa ((s + 1) mod two32) r, ttl)] else z1.

Lemma update_records_spec ovf o z us :
  upd_inv o z -> pre_scan o us = NoError ->
  exists z', update_records ovf o z us true = (z', Rc NoError) /\ applied o z us z'.
Proof.
  intros Hz Hp. destruct (pre_scan_total o us Hp z false) as (z1 & upd & Ha).
  pose proof (apply_rrs_upd_inv _ _ _ _ _ _ _ Hz Ha) as Hz1. destruct (proj1 Hz1) as (s & r & ttl & Hs).
  exists (if upd then zset z1 (o, tSOA) [(DSoa ((s + 1) mod two32) r, ttl)] else z1).
  split; [|now exists z1, upd, s, r, ttl].
  unfold update_records. rewrite Ha. destruct upd; cbn [andb negb]; [|reflexivity].
  now rewrite (increment_spec ovf o z1 s r ttl Hs (no_apex_cname _ _ Hz1)), zget_zset_same.
Qed.

Lemma update_cases ovf o z m :
  (exists c, c <> NoError /\ update ovf o z m = (z, Rc c)) \/
  (m_auth m = true /\ verify_prerequisites o z (m_pre m) = NoError /\ pre_scan o (m_upd m) = NoError /\
   update ovf o z m = update_records ovf o z (m_upd m) true).
Proof.
  unfold update. destruct (m_auth m); cbn [negb]; [|left; exists Refused; now split].
  destruct (N.eqb_spec (verify_prerequisites o z (m_pre m)) NoError); cbn [negb]; [|left; eauto].
  destruct (N.eqb_spec (pre_scan o (m_upd m)) NoError); cbn [negb]; [right; auto|left; eauto].
Qed.

(* no guard: a message that adds an SOA elsewhere is applied like any other *)
Lemma update_inv_cases ovf o z m :
  upd_inv o z ->
  (exists c, c <> NoError /\ update ovf o z m = (z, Rc c)) \/
  (exists z', update ovf o z m = (z', Rc NoError) /\ applied o z (m_upd m) z').
Proof.
  intros Hz. destruct (update_cases ovf o z m) as [H|(_ & _ & Hp & ->)]; [now left|right].
  now apply update_records_spec.
Qed.

Lemma update_keeps ovf o (P : zone -> Prop) z m :
  (forall z u z' b, In u (m_upd m) \/ rname u = o -> P z -> apply_rr o z u = Some (z', b) -> P z') ->
  upd_inv o z -> P z -> P (fst (update ovf o z m)).
Proof.
  intros Hstep Hz Pz.
  destruct (update_inv_cases ovf o z m Hz) as [(c & _ & ->)|(z' & -> & z1 & upd & s & r & ttl & Ha & Hz1 & Hs & ->)];
    [exact Pz|].
  pose proof (apply_rrs_inv o P _ (fun z0 u z2 b Hin => Hstep z0 u z2 b (or_introl Hin)) _ _ _ _ _ Pz Ha) as P1.
  destruct upd; cbn [fst]; [|exact P1].
  (* the serial increment is an Update RR for the apex *)
  refine (Hstep _ _ _ _ _ P1 (apply_rr_next_soa _ _ _ _ _ Hz1 Hs)). now right.
Qed.

Lemma update_upd_inv ovf o z m : upd_inv o z -> upd_inv o (fst (update ovf o z m)).
Proof.
  intros Hz. apply (update_keeps ovf o (upd_inv o)); [|exact Hz..]. intros z0 u z1 b _. apply apply_rr_upd_inv.
Qed.

Lemma apply_rr_false o z u z' : apply_rr o z u = Some (z', false) -> z' = z.
Proof.
  intros H. destruct (apply_rr_cases _ _ _ _ _ H) as [[_ Hz]|[E _]]; [auto|discriminate].
Qed.

Lemma apply_rrs_false o us : forall z upd z' c,
  apply_rrs o z upd us = (z', false, c) -> z' = z /\ upd = false.
Proof.
  induction us as [|u us IH]; intros z upd z' c; cbn [apply_rrs].
  - now intros [= <- <-].
  - destruct (apply_rr o z u) as [[z1 b]|] eqn:Ea; [|now intros [= <- <-]].
    intros H. apply IH in H. destruct H as [-> H]. apply orb_false_iff in H. destruct H as [-> ->].
    split; [|reflexivity]. now apply apply_rr_false in Ea.
Qed.

Lemma apply_rrs_soa_same o us z upd z' upd' c s r ttl :
  zget z (o, tSOA) = Some [(DSoa s r, ttl)] -> soa_serials us = [] ->
  apply_rrs o z upd us = (z', upd', c) -> zget z' (o, tSOA) = Some [(DSoa s r, ttl)].
Proof.
  intros Hs Hn. revert Hs. apply (apply_rrs_inv o (fun z => zget z (o, tSOA) = Some [(DSoa s r, ttl)])).
  intros z0 u z1 b Hin Hs H. destruct (apply_rr_soa _ _ _ _ _ _ _ _ Hs H) as [Hs1|(ns & nr & E & _)]; [exact Hs1|].
  (* an SOA in the section would show in soa_serials *)
  cut (In ns (soa_serials us)); [now rewrite Hn|]. apply in_flat_map. exists u. rewrite E. now split; [|left].
Qed.

Lemma run_app ovf o ms1 : forall z ms2,
  run ovf o z (ms1 ++ ms2) = run ovf o z ms1 ++ run ovf o (final ovf o z ms1) ms2.
Proof.
  induction ms1 as [|m ms1 IH]; intros z ms2; cbn [run app final fold_left]; [reflexivity|].
  destruct (update ovf o z m) as [z' r] eqn:E. cbn [fst app]. f_equal. apply IH.
Qed.

(* C12 — basic facts about the zone map operations and RecordSet::insert / remove. *)
From HV Require Import Lib.Base Lib.ListX C12.Model.
Open Scope N_scope.

Lemma name_eqb_spec a b : reflect (a = b) (name_eqb a b).
Proof. apply iff_reflect. symmetry. apply bytes_eqb_eq. Qed.
Lemma name_eqb_refl a : name_eqb a a = true.
Proof. now apply bytes_eqb_eq. Qed.
Lemma name_eqb_neq a b : name_eqb a b = false <-> a <> b.
Proof. destruct (name_eqb_spec a b); split; congruence. Qed.

Lemma key_eqb_eq a b : key_eqb a b = true <-> a = b.
Proof.
  destruct a as [n t], b as [n' t']. unfold key_eqb; cbn [fst snd].
  rewrite andb_true_iff, bytes_eqb_eq, N.eqb_eq. split; [intros [-> ->]|intros [= -> ->]]; auto.
Qed.
Lemma key_eqb_spec a b : reflect (a = b) (key_eqb a b).
Proof. apply iff_reflect. symmetry. apply key_eqb_eq. Qed.
Lemma key_eqb_refl a : key_eqb a a = true.
Proof. now apply key_eqb_eq. Qed.
Lemma key_eqb_neq a b : key_eqb a b = false <-> a <> b.
Proof. destruct (key_eqb_spec a b); split; congruence. Qed.

Lemma rdata_eqb_eq a b : rdata_eqb a b = true <-> a = b.
Proof.
  destruct a, b; cbn [rdata_eqb]; try (split; congruence).
  - rewrite N.eqb_eq. split; congruence.
  - rewrite bytes_eqb_eq. split; congruence.
  - rewrite andb_true_iff, !N.eqb_eq. split; [intros [-> ->]|intros [= -> ->]]; auto.
Qed.
Lemma rdata_eqb_refl a : rdata_eqb a a = true.
Proof. now apply rdata_eqb_eq. Qed.

(* the hypothesis has the form of the model's test *)
Lemma filter_not_shorter {A} (f : A -> bool) l :
  (length (filter f l) <? length l)%nat = false -> filter f l = l.
Proof.
  intros H. apply Nat.ltb_ge in H. induction l as [|x l IH]; cbn [filter length] in *; [reflexivity|].
  pose proof (filter_length_le f l). destruct (f x); cbn [length] in H; [f_equal; apply IH|]; lia.
Qed.

Lemma zget_filter (f : key -> bool) z k :
  zget (filter (fun e => f (fst e)) z) k = if f k then zget z k else None.
Proof.
  induction z as [|[k' v] z IH]; cbn [filter zget fst]; [now destruct (f k)|].
  destruct (key_eqb_spec k' k) as [->|Hn].
  - destruct (f k); [cbn [zget]; rewrite key_eqb_refl; reflexivity|exact IH].
  - destruct (f k'); [cbn [zget]; destruct (key_eqb_spec k' k); [contradiction|]|]; exact IH.
Qed.

Lemma zget_zdel z k k' : zget (zdel z k) k' = if key_eqb k' k then None else zget z k'.
Proof.
  unfold zdel. rewrite (zget_filter (fun x => negb (key_eqb x k))). now destruct (key_eqb k' k).
Qed.

Lemma zget_zset z k v k' : zget (zset z k v) k' = if key_eqb k' k then Some v else zget z k'.
Proof.
  unfold zset; cbn [zget]. rewrite zget_zdel.
  destruct (key_eqb_spec k k'), (key_eqb_spec k' k); congruence.
Qed.

Lemma zget_zset_same z k v : zget (zset z k v) k = Some v.
Proof. now rewrite zget_zset, key_eqb_refl. Qed.

Lemma zget_retain origin n z k :
  zget (retain_any origin n z) k = if retain_keep origin n k then zget z k else None.
Proof. apply (zget_filter (retain_keep origin n)). Qed.

Lemma retain_keeps_apex o n t : t = tSOA \/ t = tNS -> retain_keep o n (o, t) = true.
Proof.
  intros Ht. unfold retain_keep. cbn [fst snd]. rewrite name_eqb_refl, andb_true_r.
  destruct Ht as [-> | ->]; apply orb_true_r.
Qed.

Lemma zdel_absent z k : zget z k = None -> zdel z k = z.
Proof.
  unfold zdel. induction z as [|[k' v] z IH]; cbn [filter zget fst]; [reflexivity|].
  destruct (key_eqb k' k); [discriminate|]. cbn [negb]. intros H. f_equal. now apply IH.
Qed.

Lemma zset_zdel z k v : zset (zdel z k) k v = zset z k v.
Proof. unfold zset, zdel. rewrite filter_filter_and. f_equal. apply filter_ext. intros e. apply andb_diag. Qed.

Lemma zget_in z k v : zget z k = Some v -> In (k, v) z.
Proof.
  induction z as [|[k' v'] z IH]; cbn [zget]; [discriminate|].
  destruct (key_eqb_spec k' k) as [->|_]; [intros [= ->]; now left|right; auto].
Qed.

Lemma zhas_some z k v : zget z k = Some v -> zhas z k = true.
Proof. unfold zhas. now intros ->. Qed.
Lemma zhas_true z k : zhas z k = true -> exists v, zget z k = Some v.
Proof. unfold zhas. destruct (zget z k) as [v|]; [eauto|discriminate]. Qed.
Lemma zhas_false z k : zhas z k = false <-> zget z k = None.
Proof. unfold zhas. destruct (zget z k); split; congruence. Qed.

Lemma zhas_zset z k v k' : zhas (zset z k v) k' = key_eqb k' k || zhas z k'.
Proof. unfold zhas. rewrite zget_zset. now destruct (key_eqb k' k). Qed.

Lemma zhas_zdel z k k' : zhas (zdel z k) k' = negb (key_eqb k' k) && zhas z k'.
Proof. unfold zhas. rewrite zget_zdel. now destruct (key_eqb k' k). Qed.

Lemma zhas_retain o n z k : zhas (retain_any o n z) k = retain_keep o n k && zhas z k.
Proof. unfold zhas. rewrite zget_retain. now destruct (retain_keep o n k). Qed.

Lemma in_zhas z k v : In (k, v) z -> zhas z k = true.
Proof.
  induction z as [|[k' v'] z IH]; cbn [In]; [contradiction|].
  unfold zhas; cbn [zget]. intros [[= -> ->]|H]; [now rewrite key_eqb_refl|].
  destruct (key_eqb k' k); [reflexivity|]. now apply IH.
Qed.

Lemma zhas_in z k : zhas z k = true <-> exists v, In (k, v) z.
Proof.
  split.
  - intros H. destruct (zhas_true _ _ H) as [v Hg]. apply zget_in in Hg. eauto.
  - intros [v H]. eapply in_zhas; eauto.
Qed.

Lemma rs_insert_nil t d ttl : rs_insert [] t d ttl = ([(d, ttl)], true).
Proof.
  unfold rs_insert. destruct (t =? tSOA); [reflexivity|].
  destruct ((t =? tCNAME) || (t =? tANAME)); reflexivity.
Qed.

Lemma rs_insert_soa es er ettl rest d ttl :
  rs_insert ((DSoa es er, ettl) :: rest) tSOA d ttl =
  match d with
  | DSoa ns _ => if soa_newer ns es then ([(d, ttl)], true) else ((DSoa es er, ettl) :: rest, false)
  | _ => ((DSoa es er, ettl) :: rest, false)
  end.
Proof. reflexivity. Qed.

Lemma rs_insert_cname recs d ttl : rs_insert recs tCNAME d ttl = ([(d, ttl)], true).
Proof. reflexivity. Qed.

Lemma rs_insert_other recs t d ttl :
  (t =? tSOA) = false -> (t =? tCNAME) || (t =? tANAME) = false ->
  rs_insert recs t d ttl =
  if existsb (fun r => rdata_eqb (fst r) d) recs then (recs, false) else (recs ++ [(d, ttl)], true).
Proof. unfold rs_insert. now intros -> ->. Qed.

Lemma rs_insert_res recs t d ttl recs' b :
  rs_insert recs t d ttl = (recs', b) -> if b then recs' <> [] else recs' = recs.
Proof.
  unfold rs_insert. destruct (t =? tSOA).
  - destruct recs as [|[[| | |es er] ettl] recs0]; [| | | |destruct d as [| | |ns nr]; [| | |destruct (soa_newer ns es)]];
      intros [= <- <-]; (reflexivity || discriminate).
  - destruct ((t =? tCNAME) || (t =? tANAME)); [intros [= <- <-]; discriminate|].
    destruct (existsb _ recs); intros [= <- <-]; [reflexivity|now destruct recs].
Qed.

Lemma rs_insert_false recs t d ttl recs' : rs_insert recs t d ttl = (recs', false) -> recs' = recs.
Proof. apply rs_insert_res. Qed.

Lemma rs_insert_nonempty recs t d ttl recs' : rs_insert recs t d ttl = (recs', true) -> recs' <> [].
Proof. apply rs_insert_res. Qed.

Lemma rs_remove_false recs t d recs' : rs_remove recs t d = (recs', false) -> recs' = recs.
Proof.
  unfold rs_remove. destruct ((t =? tNS) && (length recs <=? 1)%nat); [now intros [= <-]|].
  destruct (t =? tSOA); [now intros [= <-]|]. intros [= <- H]. now apply filter_not_shorter.
Qed.

Lemma rs_remove_true (recs : list rec) t d recs' :
  rs_remove recs t d = (recs', true) ->
  t <> tSOA /\ recs' = filter (fun r : rec => negb (rdata_eqb (fst r) d)) recs.
Proof.
  unfold rs_remove. destruct ((t =? tNS) && (length recs <=? 1)%nat); [discriminate|].
  destruct (N.eqb_spec t tSOA); [discriminate|]. now intros [= <- _].
Qed.

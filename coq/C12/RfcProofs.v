(* C12 — an Update RR outside the known classes is processed as RFC 2136 3.4.2.7 prescribes. *)
From HV Require Import Lib.Base Lib.ListX C12.Model C12.Spec C12.ZoneProofs C12.InvProofs.
Open Scope N_scope.

Lemma recs_at_zset z k v k' : recs_at (zset z k v) k' = if key_eqb k' k then v else recs_at z k'.
Proof. unfold recs_at. rewrite zget_zset. now destruct (key_eqb k' k). Qed.

Lemma recs_at_filter (f : name * N -> bool) z k :
  recs_at (filter (fun e => f (fst e)) z) k = if f k then recs_at z k else [].
Proof. unfold recs_at. rewrite zget_filter. now destruct (f k). Qed.

Lemma recs_at_zdel z k k' : recs_at (zdel z k) k' = if key_eqb k' k then [] else recs_at z k'.
Proof. unfold recs_at. rewrite zget_zdel. now destruct (key_eqb k' k). Qed.

Lemma has_rrset_false_recs z k : has_rrset z k = false -> recs_at z k = [].
Proof. unfold has_rrset. destruct (recs_at z k); [reflexivity|discriminate]. Qed.

Lemma has_rrset_zhas z k : has_rrset z k = true -> zhas z k = true.
Proof. unfold has_rrset, recs_at, zhas. now destruct (zget z k). Qed.

Lemma same_refl z : same_records z z.
Proof. intros k; reflexivity. Qed.

Lemma same_zset z k l : recs_at z k = l -> same_records (zset z k l) z.
Proof. intros <- k'. rewrite recs_at_zset. now destruct (key_eqb_spec k' k) as [->|]. Qed.

Lemma has_empty_false z n t l : has_empty_at z n = false -> zget z (n, t) = Some l -> l <> [].
Proof.
  intros H Hg ->. apply zget_in in Hg. apply (existsb_false _ _ _ H) in Hg.
  cbn [fst snd is_nil] in Hg. now rewrite name_eqb_refl in Hg.
Qed.

Lemma has_exempt_false z n t : has_exempt_at z n = false -> zhas z (n, t) = true -> exempt t = false.
Proof.
  intros H Hh. apply zhas_in in Hh. destruct Hh as [v Hin]. apply (existsb_false _ _ _ H) in Hin.
  cbn [fst snd] in Hin. now rewrite name_eqb_refl in Hin.
Qed.

Lemma has_other_true z n : has_other z n = true <->
  exists t l, In ((n, t), l) z /\ t <> tCNAME /\ l <> [].
Proof.
  unfold has_other. rewrite existsb_exists. split.
  - intros ([[n' t] l] & Hin & H). cbn [fst snd] in H.
    rewrite !andb_true_iff, !negb_true_iff, bytes_eqb_eq, N.eqb_neq in H. destruct H as [[-> H2] H3].
    exists t, l. repeat split; auto. now intros ->.
  - intros (t & l & Hin & Ht & Hl). exists ((n, t), l). split; [exact Hin|]. cbn [fst snd].
    rewrite name_eqb_refl. apply N.eqb_neq in Ht. rewrite Ht. destruct l; [contradiction|reflexivity].
Qed.

Lemma orb_false_elim' a b : a || b = false -> a = false /\ b = false.
Proof. apply orb_false_iff. Qed.

Lemma Known_rr_false o z u : Known_rr o z u = false ->
  soa_not_apex o u = false /\
  has_empty_at z (rname u) = false /\
  ((rclass u =? cIN) && existsb (fun r => rdata_eqb (fst r) (rdat u) && negb (snd r =? rttl u))
                                   (recs_at z (rname u, rtype u))) = false /\
  exempt (rtype u) = false /\ (rtype u =? tANAME) = false /\ has_exempt_at z (rname u) = false.
Proof.
  unfold Known_rr. intros H.
  repeat (apply orb_false_iff in H; destruct H as [H ?]). repeat split; assumption.
Qed.

Lemma blocked_iff_rfc_skip z n t :
  has_empty_at z n = false -> has_exempt_at z n = false -> exempt t = false ->
  upsert_blocked z n t = (if t =? tCNAME then has_other z n else has_rrset z (n, tCNAME)).
Proof.
  intros He Hx Ht. symmetry. destruct (upsert_blocked z n t) eqn:Eb.
  - (* the key the scan found holds records *)
    apply upsert_blocked_true in Eb. destruct Eb as (kt & Hh & _ & _ & Hl).
    destruct (zhas_true _ _ Hh) as [l Hg]. pose proof (has_empty_false _ _ _ _ He Hg) as Hne.
    unfold label_no_multi in Hl. destruct (t =? tCNAME); cbn [andb negb orb] in Hl.
    + rewrite orb_false_r in Hl. apply negb_true_iff, N.eqb_neq in Hl.
      apply has_other_true. exists kt, l. auto using zget_in.
    + apply N.eqb_eq in Hl. subst kt. unfold has_rrset. rewrite (recs_at_some _ _ _ Hg). now destruct l.
  - (* a key the RFC rule looks at would have been found by the scan *)
    destruct (N.eqb_spec t tCNAME) as [Et|Et].
    + destruct (has_other z n) eqn:Eo; [|reflexivity].
      apply has_other_true in Eo. destruct Eo as (t' & l & Hin & Ht' & _). apply in_zhas in Hin.
      elim Ht'. now apply (upsert_not_blocked _ _ _ _ Eb Hin Ht (has_exempt_false _ _ _ Hx Hin)).
    + destruct (has_rrset z (n, tCNAME)) eqn:Eh; [|reflexivity]. apply has_rrset_zhas in Eh.
      elim Et. now apply (upsert_not_blocked _ _ _ _ Eb Eh Ht eq_refl).
Qed.

Lemma map_replace_same (l : list (rdata * N)) d ttl :
  existsb (fun r => rdata_eqb (fst r) d && negb (snd r =? ttl)) l = false ->
  map (fun r => if rdata_eqb (fst r) d then (d, ttl) else r) l = l.
Proof.
  induction l as [|[d' t'] l IH]; cbn [existsb map fst snd]; [reflexivity|].
  intros H. apply orb_false_iff in H. destruct H as [H1 H2]. rewrite (IH H2). f_equal.
  destruct (rdata_eqb d' d) eqn:E; [|reflexivity]. cbn [andb] in H1. apply negb_false_iff, N.eqb_eq in H1.
  apply rdata_eqb_eq in E. now subst.
Qed.

Lemma class_in_is_rfc o z u z' b :
  apex_soa o z -> Known_rr o z u = false -> (rclass u =? cIN) = true ->
  apply_rr o z u = Some (z', b) -> same_records z' (rfc_rr o z u).
Proof.
  intros (zs & zr & zttl & Hg) Hk Hc. apply Known_rr_false in Hk.
  destruct Hk as (Hsna & He & Httl & Hex & Han & Hxa).
  unfold apply_rr, rfc_rr, upsert. rewrite Hc in Httl |- *. cbn [andb negb] in *.
  rewrite <- (blocked_iff_rfc_skip z _ _ He Hxa Hex).
  destruct (upsert_blocked z (rname u) (rtype u)); [now intros [= <- _]|].
  fold (recs_at z (rname u, rtype u)).
  unfold rs_insert. destruct (rtype u =? tSOA) eqn:Es.
  - (* SOA: the owner is the apex *)
    apply N.eqb_eq in Es, Hc. rewrite Es, (soa_not_apex_false _ _ Hsna Hc Es).
    rewrite (recs_at_some _ _ _ Hg).
    destruct (rdat u) as [| | |ns nr] eqn:Ed; try (now intros [= <- _]).
    rewrite <- soa_newer_serial_lt.
    destruct (soa_newer ns zs); now intros [= <- _].
  - rewrite Han, orb_false_r. destruct (rtype u =? tCNAME) eqn:Ec2; [now intros [= <- _]|].
    destruct (existsb (fun r : rdata * N => rdata_eqb (fst r) (rdat u)) (recs_at z (rname u, rtype u))) eqn:Ee;
      intros [= <- _].
    + rewrite map_replace_same by exact Httl. intros k. symmetry. now apply same_zset.
    + apply same_refl.
Qed.

Lemma class_any_is_rfc o z u z' b :
  (rclass u =? cIN) = false -> (rclass u =? cANY) = true ->
  apply_rr o z u = Some (z', b) -> same_records z' (rfc_rr o z u).
Proof.
  intros Hc Ha. unfold apply_rr, rfc_rr. rewrite Hc, Ha, (andb_comm _ (name_eqb (rname u) o)).
  destruct (N.eqb_spec (rtype u) tANY) as [Et|_].
  - (* delete all RRsets at a name: the two retain predicates agree *)
    rewrite Et. change ((tANY =? tSOA) || (tANY =? tNS)) with false. rewrite andb_false_r. intros [= <- _].
    unfold retain_any. erewrite filter_ext; [apply same_refl|]. intros [[kn kt] v].
    unfold retain_keep; cbn [fst snd]. destruct (name_eqb_spec kn (rname u)) as [->|]; [now rewrite andb_comm|reflexivity].
  - destruct (_ && _); [now intros [= <- _]|]. destruct (rdat u); try discriminate. now intros [= <- _].
Qed.

(* on a set with records, RecordSet::remove leaves the list RFC 2136 3.4.2.4 leaves *)
Lemma rs_remove_rfc (l : list rec) t d l' b :
  l <> [] -> rs_remove l t d = (l', b) ->
  l' = (if t =? tSOA then l
        else if (t =? tNS) && list_eqb rdata_eqb (map fst l) [d] then l
        else filter (fun r => negb (rdata_eqb (fst r) d)) l).
Proof.
  intros Hne. unfold rs_remove. destruct (t =? tSOA).
  { destruct (_ && _); now intros [= <- _]. }
  destruct (t =? tNS); cbn [andb]; [|now intros [= <- _]].
  destruct (length l <=? 1)%nat eqn:El.
  - (* one record: it stays, whether or not its RDATA is the one named *)
    intros [= <- _]. destruct l as [|[d' t'] [|]]; [contradiction| |discriminate El].
    cbn [map fst list_eqb filter]. rewrite andb_true_r. now destruct (rdata_eqb d' d).
  - replace (list_eqb rdata_eqb (map fst l) [d]) with false; [now intros [= <- _]|].
    destruct l as [|x [|y l]]; try discriminate El. cbn [map list_eqb]. now rewrite andb_false_r.
Qed.

Lemma class_none_is_rfc o z u z' b :
  has_empty_at z (rname u) = false -> (rclass u =? cIN) = false -> (rclass u =? cANY) = false ->
  (rclass u =? cNONE) = true ->
  apply_rr o z u = Some (z', b) -> same_records z' (rfc_rr o z u).
Proof.
  intros He Hc Ha Hn. unfold apply_rr, rfc_rr. rewrite Hc, Ha, Hn.
  destruct (zget z (rname u, rtype u)) as [l|] eqn:Eg.
  2:{ intros [= <- _]. destruct (rtype u =? tSOA); [|destruct (_ && _)]; apply same_refl. }
  pose proof (recs_at_some _ _ _ Eg) as Er. rewrite Er.
  destruct (rs_remove l (rtype u) (rdat u)) as [l' rb] eqn:E.
  pose proof (rs_remove_rfc _ _ _ _ _ (has_empty_false _ _ _ _ He Eg) E) as El.
  destruct rb; intros [= <- _].
  - subst l'. destruct (rtype u =? tSOA); [now apply same_zset|].
    destruct (_ && _); [now apply same_zset|apply same_refl].
  - (* nothing removed: what the RFC would store is what is there *)
    apply rs_remove_false in E. subst l'. destruct (rtype u =? tSOA); [apply same_refl|].
    destruct (_ && _); [apply same_refl|]. rewrite <- El. intros k. symmetry. now apply same_zset.
Qed.

Lemma apply_rr_is_rfc o z u z' b :
  apex_soa o z -> Known_rr o z u = false -> apply_rr o z u = Some (z', b) -> same_records z' (rfc_rr o z u).
Proof.
  intros Hs Hk Ha.
  destruct (rclass u =? cIN) eqn:Ec; [exact (class_in_is_rfc _ _ _ _ _ Hs Hk Ec Ha)|].
  destruct (rclass u =? cANY) eqn:Ea; [exact (class_any_is_rfc _ _ _ _ _ Ec Ea Ha)|].
  destruct (rclass u =? cNONE) eqn:En; [|unfold apply_rr in Ha; rewrite Ec, Ea, En in Ha; discriminate].
  apply Known_rr_false in Hk. exact (class_none_is_rfc _ _ _ _ _ (proj1 (proj2 Hk)) Ec Ea En Ha).
Qed.

Lemma section_is_rfc o us : forall z, apex_soa o z -> all_goodb o z us = true -> steps_rfc o z us.
Proof.
  induction us as [|u us IH]; intros z Hs Hg; cbn [all_goodb steps_rfc] in *; [exact I|].
  apply andb_true_iff in Hg. destruct Hg as [Hk Hg]. apply negb_true_iff in Hk.
  destruct (apply_rr o z u) as [[z' b]|] eqn:Ea; [|discriminate].
  split; [exact (apply_rr_is_rfc _ _ _ _ _ Hs Hk Ea)|]. apply IH; [exact (apply_rr_apex_soa _ _ _ _ _ Hs Ea)|exact Hg].
Qed.

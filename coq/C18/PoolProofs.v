(* C18 — proofs about the try_send model.  The lower layers of the model are given one case lemma
   each ([ns_plan_spec], [take_batch_spec], [process_ret] / [process_cont]).  [step_cases] puts them
   together: the five ways a round can go, said in the terms of the properties (queue, busy list, who
   was asked, who is requeued, time taken), so that nothing above it looks into a batch again.  Facts
   about whole lookups are invariants of [step_spec] carried through [loop_inv]. *)
From Coq Require Import Permutation.
From HV Require Import Lib.Base Lib.ListX C18.Model.
Open Scope N_scope.

Lemma loop_inv (J : st -> Prop) (P : result -> why -> st -> Prop) cfg o {fuel s r w s'} :
  (forall s, J s -> match step cfg o s with Ret r w s' => P r w s' | Cont s' => J s' end) ->
  J s -> loop fuel cfg o s = Done r w s' -> P r w s'.
Proof.
  intros ST. revert s. induction fuel as [|f IH]; intros s HI H; cbn [loop] in H; [discriminate|].
  specialize (ST s HI). destruct (step cfg o s) as [r0 w0 s0|s0].
  - inversion H; subst. exact ST.
  - exact (IH _ ST H).
Qed.

Lemma choose_none : forall c lv d, choose c lv d = None -> allowed c d = false.
Proof.
  intros c lv d. unfold choose, allowed.
  destruct (lv Udp && negb d); [easy|]. destruct (lv Tcp); [easy|].
  destruct (s_udp c && negb d); [easy|]. destruct (s_tcp c); easy.
Qed.

Lemma allowed_tcp : forall c d, s_tcp c = true -> allowed c d = true.
Proof. intros c d T. unfold allowed. rewrite T. apply orb_true_r. Qed.

Lemma allowed_mono : forall c d d',
  (d = true -> d' = true) -> allowed c d = false -> allowed c d' = false.
Proof.
  intros c d d' M A. unfold allowed in *.
  destruct (s_udp c), (s_tcp c), d, d'; cbn in *; try discriminate; auto.
  specialize (M eq_refl). discriminate.
Qed.

Lemma choose_dis {c lv d p} : choose c lv d = Some p -> d = true -> p = Tcp.
Proof.
  intros H ->. unfold choose in H. rewrite !andb_false_r in H.
  destruct (lv Tcp), (s_tcp c); congruence.
Qed.

Lemma choose_dis_tcp : forall c lv, s_tcp c = true -> choose c lv true = Some Tcp.
Proof.
  intros c lv H. unfold choose. rewrite !andb_false_r, H. destruct (lv Tcp); reflexivity.
Qed.

Inductive plan_spec (o : oracle) (c : srv) (i : N) (d : bool) : plan -> Prop :=
| plan_none : allowed c d = false -> plan_spec o c i d PNone
| plan_one p k : (d = true -> p = Tcp) ->
    plan_spec o c i d (POne p (fst (o i p k)) (snd (o i p k)))
| plan_two p k p2 k2 : (d = true -> p = Tcp) -> (d = true -> p2 = Tcp) ->
    plan_spec o c i d (PTwo p (snd (o i p k)) p2 (fst (o i p2 k2)) (snd (o i p2 k2))).

Lemma ns_plan_spec : forall o c i d e, plan_spec o c i d (ns_plan o c i d e).
Proof.
  intros o c i d e. unfold ns_plan.
  destruct (choose c (live e i) d) as [p|] eqn:C; [|apply plan_none, (choose_none _ _ _ C)].
  pose proof (choose_dis C) as T.
  rewrite (surjective_pairing (o i p (att e i p))). cbv beta iota.
  destruct (is_closed _ && live e i p); [|apply plan_one, T].
  match goal with |- context [choose c ?lv d] => destruct (choose c lv d) as [p2|] eqn:C2 end;
    [|apply plan_one, T].
  match goal with |- context [o i p2 ?k] => rewrite (surjective_pairing (o i p2 k)) end.
  apply plan_two; [exact T|exact (choose_dis C2)].
Qed.

(* what NameServer::send returns when the oracle decides exchange k with server i over p *)
Definition reply (o : oracle) (i : N) (p : proto) (k : N) : sres := fst (classify (fst (o i p k))).

Lemma plan_xch_nonempty : forall o c i d e cut,
  allowed c d = true -> exists p, In (0, (i, p)) (plan_xch (ns_plan o c i d e) i cut).
Proof.
  intros o c i d e cut A.
  destruct (ns_plan_spec o c i d e) as [NA| |p k]; [congruence| |]; exists p; cbn [plan_xch].
  - left; reflexivity.
  - destruct cut as [t|]; [destruct (t <=? _)|]; left; reflexivity.
Qed.

Lemma plan_dis_tcp : forall o c i e cut x,
  In x (plan_xch (ns_plan o c i true e) i cut) -> snd x = (i, Tcp).
Proof.
  intros o c i e cut x H.
  destruct (ns_plan_spec o c i true e) as [NA|p k C|p k p2 k2 C C2]; cbn [plan_xch] in H.
  - destruct H.
  - destruct H as [<-|[]]. now rewrite (C eq_refl).
  - rewrite (C eq_refl), (C2 eq_refl) in H.
    destruct cut as [t|]; [destruct (t <=? _)|]; cbn [In] in H;
      repeat destruct H as [<-|H]; try reflexivity; destruct H.
Qed.

Lemma plan_dis_some : forall o c i e,
  s_tcp c = true -> exists t, In (t, (i, Tcp)) (plan_xch (ns_plan o c i true e) i None).
Proof.
  intros o c i e T.
  destruct (plan_xch_nonempty o c i true e None (allowed_tcp c true T)) as (p & Hy).
  exists 0. apply plan_dis_tcp in Hy as E. injection E as ->. exact Hy.
Qed.

Lemma nslots_pos : forall cfg, nslots cfg <> O.
Proof. intros cfg. unfold nslots. lia. Qed.

Lemma take_batch_spec {cfg d n l b r} :
  take_batch cfg d n l = (b, r) ->
  exists l1, l = l1 ++ r /\ b = filter (fun i => allowed (server cfg i) d) l1 /\
             (r = [] \/ length b = n).
Proof.
  revert n b r. induction l as [|i l IH]; intros n b r H; cbn [take_batch] in H.
  - inversion H. exists []. auto.
  - destruct n as [|n']; [inversion H; exists []; auto|].
    destruct (allowed (server cfg i) d) eqn:A.
    + destruct (take_batch cfg d n' l) as [b' r'] eqn:T. inversion H; subst.
      destruct (IH _ _ _ T) as (l1 & -> & -> & C). exists (i :: l1). cbn [filter app length].
      rewrite A. destruct C as [C|C]; auto.
    + destruct (IH _ _ _ H) as (l1 & -> & -> & C). exists (i :: l1). cbn [filter app].
      rewrite A. auto.
Qed.

Lemma take_batch_allowed {cfg d n l b r i} :
  take_batch cfg d n l = (b, r) -> In i b -> allowed (server cfg i) d = true.
Proof.
  intros H Hi. destruct (take_batch_spec H) as (l1 & _ & -> & _). apply filter_In in Hi. apply Hi.
Qed.

Lemma take_batch_len {cfg d n l b r} :
  take_batch cfg d n l = (b, r) -> (length b + length r <= length l)%nat.
Proof.
  intros H. destruct (take_batch_spec H) as (l1 & -> & -> & _).
  rewrite app_length. pose proof (filter_length_le (fun i => allowed (server cfg i) d) l1). lia.
Qed.

Lemma take_batch_split {cfg d n l b r i} :
  take_batch cfg d n l = (b, r) -> In i l ->
  In i b \/ In i r \/ allowed (server cfg i) d = false.
Proof.
  intros H HI. destruct (take_batch_spec H) as (l1 & -> & -> & _).
  apply in_app_or in HI. destruct HI as [HI|HI]; [|auto].
  destruct (allowed (server cfg i) d) eqn:A; [left; apply filter_In|]; auto.
Qed.

Lemma take_batch_none {cfg d l r} :
  take_batch cfg d (nslots cfg) l = ([], r) ->
  r = [] /\ forall i, In i l -> allowed (server cfg i) d = false.
Proof.
  intros H.
  destruct (take_batch_spec H) as (_ & _ & _ & [->|C]); [|now destruct (nslots_pos cfg)].
  split; [reflexivity|]. intros i Hi.
  destruct (take_batch_split H Hi) as [[]|[[]|A]]. exact A.
Qed.

Lemma ins_by_lat_perm : forall x l, Permutation (ins_by_lat x l) (x :: l).
Proof.
  intros x l. induction l as [|y l IH]; cbn [ins_by_lat]; [reflexivity|].
  destruct (plan_lat (snd x) <=? plan_lat (snd y)); [reflexivity|]. rewrite IH. apply perm_swap.
Qed.

Lemma sort_by_lat_perm : forall l, Permutation (sort_by_lat l) l.
Proof.
  induction l as [|x l IH]; cbn [sort_by_lat]; [reflexivity|]. now rewrite ins_by_lat_perm, IH.
Qed.

Lemma ins_by_time_perm : forall x l, Permutation (ins_by_time x l) (x :: l).
Proof.
  intros x l. induction l as [|y l IH]; cbn [ins_by_time]; [reflexivity|].
  destruct (fst x <=? fst y); [reflexivity|]. rewrite IH. apply perm_swap.
Qed.

Lemma sort_by_time_perm : forall l, Permutation (sort_by_time l) l.
Proof.
  induction l as [|x l IH]; cbn [sort_by_time]; [reflexivity|]. now rewrite ins_by_time_perm, IH.
Qed.

(* what asking server i in state s is going to do; the members of a round with their plans, as
   [step] builds them *)
Definition asks (cfg : config) (o : oracle) (s : st) (i : N) : plan :=
  ns_plan o (server cfg i) i (dis s) (en s).
Definition plans (cfg : config) (o : oracle) (s : st) (b : list N) : list (N * plan) :=
  map (fun i => (i, asks cfg o s i)) b.

Lemma batch_reply {cfg} o {s n l b r i} :
  take_batch cfg (dis s) n l = (b, r) -> In i b ->
  exists p k, (dis s = true -> p = Tcp) /\ plan_res (asks cfg o s i) = reply o i p k.
Proof.
  intros H Hi. pose proof (take_batch_allowed H Hi) as A. unfold asks.
  destruct (ns_plan_spec o (server cfg i) i (dis s) (en s)) as [NA|p k C|p k p2 k2 C C2]; [congruence|..];
    cbn [plan_res]; [exists p, k|exists p2, k2]; (split; [assumption|reflexivity]).
Qed.

Lemma in_sorted_plans : forall cfg o s b i pl,
  In (i, pl) (sort_by_lat (plans cfg o s b)) <->
  In i b /\ pl = asks cfg o s i.
Proof.
  intros cfg o s b i pl. rewrite sort_by_lat_perm. unfold plans. rewrite in_map_iff. split.
  - intros (j & E & Hj). inversion E; subst. auto.
  - intros (Hi & ->). eauto.
Qed.

Lemma sorted_plans_length : forall cfg o s b, length (sort_by_lat (plans cfg o s b)) = length b.
Proof. intros. rewrite sort_by_lat_perm. apply map_length. Qed.

Definition final_class (c : srv) (e : err) : Prop :=
  e <> EIo /\ e <> ENoConn /\ e <> ETimeout /\ e <> EBusy /\ e <> ECase /\
  (e = ENx -> s_trust c = true).

Lemma action_final : forall c r, action_of c r = AFinal -> final_class c (res_err r).
Proof.
  intros c r H. unfold final_class.
  destruct r as [[|]|e]; cbn in H; try discriminate.
  destruct e; cbn in H; try discriminate; cbn [res_err];
    repeat split; try discriminate; intros _.
  destruct (s_trust c); [reflexivity|discriminate].
Qed.

Definition requeues (r : sres) : bool :=
  match r with SOk true => true | SErr ECase => true | _ => false end.

Lemma action_requeues : forall c r,
  requeues r = match action_of c r with ARequeue _ => true | _ => false end.
Proof. intros c [[|]|[]]; cbn; try reflexivity. destruct (s_trust c); reflexivity. Qed.

Lemma process_ret {cfg evs done s r w t dn dr} :
  process cfg evs done s = PRet r w t dn dr ->
  exists i pl, In (i, pl) evs /\ t = plan_lat pl /\
    (action_of (server cfg i) (plan_res pl) = AAnswer /\ r = ROk i /\ w = WAnswer i \/
     action_of (server cfg i) (plan_res pl) = AFinal /\
     r = RErr (res_err (plan_res pl)) /\ w = WFinal i (res_err (plan_res pl))).
Proof.
  revert done s. induction evs as [|[i pl] evs IH]; intros done s H; cbn [process] in H.
  - discriminate.
  - destruct (action_of (server cfg i) (plan_res pl)) as [[|]| | | |] eqn:A.
    1-4: destruct (IH _ _ H) as (j & pj & I & E); exists j, pj; split; [right; exact I|exact E].
    all: inversion H; subst; exists i, pl; split; [left; reflexivity|]; auto.
Qed.

Lemma process_cons {cfg i pl evs done s s'} :
  process cfg ((i, pl) :: evs) done s = PCont s' ->
  plan_res pl <> SOk false /\
  exists s1, process cfg evs (done ++ [(i, pl)]) s1 = PCont s' /\
    if requeues (plan_res pl)
    then iq s1 = i :: iq s /\ ibusy s1 = ibusy s /\ idis s1 = true
    else iq s1 = iq s /\ idis s1 = idis s /\
         (length (ibusy s) <= length (ibusy s1) <= S (length (ibusy s)))%nat.
Proof.
  cbn [process]. rewrite (action_requeues (server cfg i)). intros H.
  split; [intros E; rewrite E in H; discriminate|].
  destruct (action_of (server cfg i) (plan_res pl)) as [[|]| | | |]; try discriminate;
    eexists; (split; [exact H|]); cbn [iq ibusy idis]; repeat split; auto.
  all: rewrite app_length; cbn [length]; lia.
Qed.

(* each goes to the front of the queue: the last one requeued is asked first *)
Definition requeued (evs : list (N * plan)) : list N :=
  rev (map fst (filter (fun x => requeues (plan_res (snd x))) evs)).

Lemma in_requeued : forall evs i,
  In i (requeued evs) <-> exists pl, In (i, pl) evs /\ requeues (plan_res pl) = true.
Proof.
  intros evs i. unfold requeued. rewrite <- in_rev, in_map_iff. split.
  - intros ([j pl] & <- & H). apply filter_In in H. exists pl. exact H.
  - intros (pl & H). exists (i, pl). split; [reflexivity|apply filter_In, H].
Qed.

Lemma process_cont {cfg evs done s s'} :
  process cfg evs done s = PCont s' ->
  iq s' = requeued evs ++ iq s /\
  idis s' = match requeued evs with [] => idis s | _ => true end /\
  (length (ibusy s) <= length (ibusy s'))%nat /\
  (length (requeued evs) + length (ibusy s') <= length (ibusy s) + length evs)%nat /\
  Forall (fun x => plan_res (snd x) <> SOk false) evs.
Proof.
  revert done s. induction evs as [|[i pl] evs IH]; intros done s H.
  - inversion H; subst s'. repeat split; auto. cbn; lia.
  - destruct (process_cons H) as (NA & s1 & H1 & E).
    destruct (IH _ _ H1) as (Eq & Ed & Bge & Ble & NoAns).
    unfold requeued in *. cbn [filter snd]. destruct (requeues (plan_res pl)).
    + destruct E as (E1 & E2 & E3). rewrite E1 in Eq. rewrite E2 in Bge, Ble. rewrite E3 in Ed.
      cbn [map rev fst]. rewrite <- app_assoc, app_length. cbn [app length].
      repeat split; auto; [|lia]. destruct (rev _); exact Ed.
    + destruct E as (E1 & E2 & E3). rewrite E1 in Eq. rewrite E2 in Ed.
      cbn [length]. repeat split; auto; lia.
Qed.

Definition lat_bounds (o : oracle) (L : N) : Prop := forall i p k, 1 <= snd (o i p k) <= L.

Lemma lat_bounds_pos : forall o L, lat_bounds o L -> 1 <= L.
Proof. intros o L H. specialize (H 0 Udp 0). lia. Qed.

Lemma plan_lat_bounds : forall o L c i d e,
  lat_bounds o L -> allowed c d = true ->
  1 <= plan_lat (ns_plan o c i d e) <= 2 * L.
Proof.
  intros o L c i d e HL HA.
  destruct (ns_plan_spec o c i d e) as [NA|p k|p k p2 k2]; cbn [plan_lat].
  - congruence.
  - pose proof (HL i p k). lia.
  - pose proof (HL i p k). pose proof (HL i p2 k2). lia.
Qed.

Lemma max_lat_bounds : forall cfg o L s b,
  lat_bounds o L -> b <> [] ->
  (forall i, In i b -> allowed (server cfg i) (dis s) = true) ->
  1 <= max_lat (plans cfg o s b) <= 2 * L.
Proof.
  intros cfg o L s b HL NE HA. induction b as [|i b IH]; [congruence|].
  cbn [plans map max_lat snd]. fold (plans cfg o s b).
  pose proof (plan_lat_bounds o L (server cfg i) i (dis s) (en s) HL (HA i (or_introl eq_refl))) as B.
  fold (asks cfg o s i) in B. destruct b as [|j b'].
  - cbn [plans map max_lat]. lia.
  - assert (j :: b' <> []) as NE' by discriminate.
    specialize (IH NE' (fun k Hk => HA k (or_intror Hk))). lia.
Qed.

Lemma round_xch_in : forall t0 batch cut fin x,
  In x (round_xch t0 batch cut fin) <->
  exists ip y, In ip batch /\
    In y (plan_xch (snd ip) (fst ip) (if existsb (N.eqb (fst ip)) fin then None else cut)) /\
    x = (t0 + fst y, snd y).
Proof.
  intros t0 batch cut fin x. unfold round_xch. rewrite in_map_iff. split.
  - intros (y & E & I). rewrite sort_by_time_perm in I. apply in_flat_map in I.
    destruct I as (ip & I1 & I2). exists ip, y. auto.
  - intros (ip & y & I1 & I2 & E). exists y. split; [auto|].
    rewrite sort_by_time_perm. apply in_flat_map. eauto.
Qed.

Lemma plan_xch_server : forall pl i cut y, In y (plan_xch pl i cut) -> fst (snd y) = i.
Proof.
  intros pl i cut y H. destruct pl as [|p oc l|p l p2 oc2 l2]; cbn [plan_xch] in H.
  - destruct H.
  - destruct H as [<-|[]]. reflexivity.
  - destruct cut as [t|]; [destruct (t <=? l)|]; cbn [In] in H;
      repeat destruct H as [<-|H]; try reflexivity; destruct H.
Qed.

Definition asked (l : list (N * (N * proto))) (i : N) : Prop := exists t p, In (t, (i, p)) l.

Lemma asked_app : forall l1 l2 i, asked (l1 ++ l2) i <-> asked l1 i \/ asked l2 i.
Proof.
  intros l1 l2 i. unfold asked. split.
  - intros (t & p & H). apply in_app_or in H. destruct H; eauto.
  - intros [(t & p & H)|(t & p & H)]; exists t, p; apply in_or_app; auto.
Qed.

Lemma round_asked : forall cfg o s b t0 cut fin i,
  (forall i, In i b -> allowed (server cfg i) (dis s) = true) ->
  asked (round_xch t0 (plans cfg o s b) cut fin) i <-> In i b.
Proof.
  intros cfg o s b t0 cut fin i HA. split.
  - intros (t & p & H). apply round_xch_in in H. destruct H as (ip & y & B1 & B2 & E).
    apply in_map_iff in B1. destruct B1 as (k & <- & Hk). cbn [fst snd] in B2.
    apply plan_xch_server in B2. inversion E as [[E1 E2]]. rewrite <- E2 in B2. now subst k.
  - intros Hi.
    destruct (plan_xch_nonempty o (server cfg i) i (dis s) (en s)
                (if existsb (N.eqb i) fin then None else cut) (HA i Hi)) as (p & Hy).
    exists (t0 + 0), p. apply round_xch_in.
    exists (i, asks cfg o s i), (0, (i, p)).
    split; [apply in_map_iff; eauto|]. split; [exact Hy|reflexivity].
Qed.

(* One round of try_send, in the terms the properties are stated in.  A round that does not end
   the lookup asks the members of the batch (exchanges [xs'], taking [d] ms); those of them in [rq]
   come back truncated or case-mismatched and go to the front of the queue with UDP disabled, some
   go to the busy list, the others are dropped; none has answered.  Nothing is said of the pool
   state [en]: no property depends on it.  When nobody can be asked [take_batch] has emptied the
   queue ([take_batch_none]): what stays is the busy list. *)
Inductive step_spec (cfg : config) (o : oracle) (s : st) : step_res -> Prop :=
| SDeadline :
    timeout cfg <= now s ->
    step_spec cfg o s (Ret (RErr ETimeout) WDeadline s)
| SExhausted :
    now s < timeout cfg ->
    take_batch cfg (dis s) (nslots cfg) (q s) = ([], []) ->
    busy s = [] \/ 300 <= backoff s ->
    step_spec cfg o s (Ret (RErr (cerr s)) WExhausted s)
| SSleep :
    now s < timeout cfg ->
    take_batch cfg (dis s) (nslots cfg) (q s) = ([], []) ->
    busy s <> [] -> backoff s < 300 ->
    step_spec cfg o s
      (Cont (mkSt (filter (fun i => allowed (server cfg i) (dis s)) (busy s)) []
                  (backoff s * 2) (cerr s) (dis s)
                  (now s + N.min (backoff s) (timeout cfg - now s)) (en s) (xs s)
                  (slp s ++ [N.min (backoff s) (timeout cfg - now s)])))
| SRound b rest rq bz ce d en' xs' :
    now s < timeout cfg ->
    take_batch cfg (dis s) (nslots cfg) (q s) = (b, rest) -> b <> [] ->
    (forall i, In i rq <-> In i b /\ requeues (plan_res (asks cfg o s i)) = true) ->
    (forall i, In i b -> plan_res (asks cfg o s i) <> SOk false) ->
    (length (busy s) <= length bz)%nat ->
    (length rq + length bz <= length (busy s) + length b)%nat ->
    (forall L, lat_bounds o L -> 1 <= d <= 2 * L) ->
    (forall i, asked xs' i <-> In i b) ->
    step_spec cfg o s
      (Cont (mkSt (rq ++ rest) bz (backoff s) ce (match rq with [] => dis s | _ => true end)
                  (now s + d) en' (xs s ++ xs') (slp s)))
| SReturn b rest i r w t en' xs' :
    now s < timeout cfg ->
    take_batch cfg (dis s) (nslots cfg) (q s) = (b, rest) -> In i b ->
    action_of (server cfg i) (plan_res (asks cfg o s i)) = AAnswer /\ r = ROk i /\ w = WAnswer i \/
    action_of (server cfg i) (plan_res (asks cfg o s i)) = AFinal /\
      r = RErr (res_err (plan_res (asks cfg o s i))) /\
      w = WFinal i (res_err (plan_res (asks cfg o s i))) ->
    (forall L, lat_bounds o L -> t <= 2 * L) ->
    step_spec cfg o s
      (Ret r w (mkSt rest (busy s) (backoff s) (cerr s) (dis s) (now s + t) en' (xs s ++ xs') (slp s))).

Lemma step_cases : forall cfg o s, step_spec cfg o s (step cfg o s).
Proof.
  intros cfg o s. unfold step.
  destruct (N.leb_spec (timeout cfg) (now s)) as [D|D]; [apply SDeadline, D|].
  destruct (take_batch cfg (dis s) (nslots cfg) (q s)) as [[|i0 b0] rest] eqn:TB.
  - destruct (take_batch_none TB) as (-> & _).
    destruct (negb _ && (backoff s <? 300)) eqn:C.
    + apply andb_true_iff in C. destruct C as (C1 & C2). apply N.ltb_lt in C2.
      destruct (N.eqb_spec (timeout cfg - now s) 0); [lia|].
      apply SSleep; auto. intros E. rewrite E in C1. discriminate.
    + apply SExhausted; auto. apply andb_false_iff in C. destruct C as [C|C].
      * left. destruct (busy s); [reflexivity|discriminate].
      * right. apply N.ltb_ge, C.
  - change (map _ (i0 :: b0)) with (plans cfg o s (i0 :: b0)).
    set (b := i0 :: b0) in *. assert (b <> []) as NE by discriminate. clearbody b.
    pose proof (fun i => @take_batch_allowed _ _ _ _ _ _ i TB) as HA.
    set (evs := sort_by_lat (plans cfg o s b)).
    assert (forall i pl, In (i, pl) evs <-> In i b /\ pl = asks cfg o s i) as EV
      by apply in_sorted_plans.
    destruct (process _ _ _ _) as [[q' bz ce d']|r w t dn dr] eqn:P.
    + destruct (process_cont P) as (Eq & Ed & Bge & Ble & NoAns).
      cbn [iq ibusy idis] in Eq, Ed, Bge, Ble. subst q' d'.
      unfold evs in Ble at 2. rewrite sorted_plans_length in Ble.
      apply (SRound cfg o s b rest (requeued evs)); auto.
      * intros i. rewrite in_requeued. split.
        -- intros (pl & H & R). apply EV in H. destruct H as (H & ->). auto.
        -- intros (H & R). eexists. split; [apply EV; eauto|exact R].
      * intros i Hi. rewrite Forall_forall in NoAns. apply (NoAns (i, asks cfg o s i)), EV. auto.
      * intros L HL. apply max_lat_bounds; assumption.
      * intros i. apply round_asked, HA.
    + destruct (process_ret P) as (i & pl & I & -> & E). apply EV in I. destruct I as (I & ->).
      apply (SReturn cfg o s b rest i); auto.
      intros L HL. apply (plan_lat_bounds o L _ i _ _ HL (HA i I)).
Qed.

Definition ret_why (cfg : config) (o : oracle) (r : result) (w : why) (s : st) : Prop :=
  match w with
  | WDeadline => r = RErr ETimeout
  | WExhausted => r = RErr (cerr s)
  | WAnswer i => r = ROk i
  | WFinal i e =>
      r = RErr e /\
      exists p k, action_of (server cfg i) (reply o i p k) = AFinal /\ e = res_err (reply o i p k)
  end.

Lemma step_why : forall cfg o s,
  match step cfg o s with Ret r w s' => ret_why cfg o r w s' | Cont _ => True end.
Proof.
  intros cfg o s.
  destruct (step_cases cfg o s) as [| | | |b rest i r w t en' xs' _ TB Hi E _]; try exact I;
    try reflexivity.
  destruct E as [(_ & -> & ->)|(A & -> & ->)]; cbn [ret_why]; [reflexivity|].
  destruct (batch_reply o TB Hi) as (p & k & _ & E). rewrite E in *. eauto.
Qed.

Lemma loop_why {fuel cfg o s r w s'} :
  loop fuel cfg o s = Done r w s' -> ret_why cfg o r w s'.
Proof. apply (loop_inv (fun _ => True) (ret_why cfg o)); [|exact I]. intros s0 _. apply step_why. Qed.

Lemma step_ok_why : forall cfg o s i w s', step cfg o s = Ret (ROk i) w s' -> w = WAnswer i.
Proof.
  intros cfg o s i w s' H. pose proof (step_why cfg o s) as W. rewrite H in W.
  destruct w; cbn in W; try discriminate; [congruence|destruct W; discriminate].
Qed.

Definition time_inv (cfg : config) (L : N) (s : st) : Prop :=
  1 <= backoff s /\ now s <= timeout cfg + 2 * L - 1.

Lemma time_inv0 : forall cfg o L order e, lat_bounds o L -> time_inv cfg L (st0 order e).
Proof.
  intros cfg o L order e HL. pose proof (lat_bounds_pos o L HL). split; cbn [st0 backoff now]; lia.
Qed.

(* 2L - 1: a round starts before the deadline and takes at most 2L.  A sleep advances the clock
   because the backoff is positive. *)
Lemma step_time : forall cfg o L s,
  lat_bounds o L -> time_inv cfg L s ->
  match step cfg o s with
  | Ret _ _ s' => now s' <= timeout cfg + 2 * L - 1
  | Cont s' => time_inv cfg L s' /\ now s < timeout cfg /\ now s < now s'
  end.
Proof.
  intros cfg o L s HL (HB & HN). pose proof (lat_bounds_pos o L HL).
  destruct (step_cases cfg o s)
    as [| | |b rest rq bz ce d en' xs' D _ _ _ _ _ _ Hd _|b rest i r w t en' xs' D _ _ _ Hd];
    unfold time_inv; cbn [now backoff]; try specialize (Hd L HL); lia.
Qed.

Lemma loop_terminates : forall fuel cfg o L s,
  lat_bounds o L -> time_inv cfg L s ->
  (N.to_nat (timeout cfg - now s) + 1 <= fuel)%nat ->
  exists r w s', loop fuel cfg o s = Done r w s'.
Proof.
  induction fuel as [|f IH]; intros cfg o L s HL HI HF; [lia|].
  cbn [loop]. pose proof (step_time cfg o L s HL HI) as ST.
  destruct (step cfg o s) as [r w s'|s']; [eauto|]. destruct ST as (HI' & D & ADV).
  apply (IH cfg o L s' HL HI'). lia.
Qed.

Lemma step_truncated {cfg o s s' i} :
  step cfg o s = Cont s' ->
  In i (fst (take_batch cfg (dis s) (nslots cfg) (q s))) ->
  requeues (plan_res (ns_plan o (server cfg i) i (dis s) (en s))) = true ->
  dis s' = true /\ In i (q s').
Proof.
  intros H HI HR. pose proof (step_cases cfg o s) as C. rewrite H in C.
  inversion C as [| |D TB|b rest rq bz ce d en' xs' D TB NE Rq|]; subst s'; rewrite TB in HI;
    [destruct HI|].
  assert (In i rq) as Hi by (apply Rq; auto).
  cbn [dis q]. split; [destruct rq; [destruct Hi|reflexivity]|apply in_or_app; auto].
Qed.

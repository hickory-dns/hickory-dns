From HV Require Import Lib.Base C18.Model.
Open Scope N_scope.

Lemma upd1_eq {A} (f : N -> A) k v : upd1 f k v k = v.
Proof. unfold upd1. now rewrite N.eqb_refl. Qed.
Lemma upd1_neq {A} (f : N -> A) k v x : x <> k -> upd1 f k v x = f x.
Proof. intros H. unfold upd1. apply N.eqb_neq in H. now rewrite H. Qed.

Lemma upd1_inv {A} (f : N -> A) k v x y :
  upd1 f k v x = y -> x = k /\ v = y \/ x <> k /\ f x = y.
Proof.
  destruct (N.eq_dec x k) as [->|NE]; [rewrite upd1_eq|rewrite upd1_neq by exact NE]; auto.
Qed.

Lemma drun_snoc : forall evs e, drun (evs ++ [e]) = dstep (drun evs) e.
Proof. intros. unfold drun. now rewrite fold_left_app. Qed.

Lemma in_seqN : forall n a x, In x (seqN a n) <-> a <= x < a + N.of_nat n.
Proof.
  induction n as [|n IH]; intros a x; cbn [seqN In].
  - lia.
  - rewrite IH. lia.
Qed.

Lemma nodup_seqN : forall n a, NoDup (seqN a n).
Proof.
  induction n as [|n IH]; intros a; cbn [seqN]; constructor; [|apply IH].
  rewrite in_seqN. lia.
Qed.

(* [i_inc] is what bounds [inflight]; the other two make it inductive: they are what
   makes a creator's drop guard harmless ([dinv_leave]). *)
Record dinv (s : dst) : Prop := {
  i_inc : forall r, r < nruns s -> completed s r = false -> active s (run_key s r) = Some r;
  i_cre : forall c r, waiting s c = Some (r, true) ->
          r < nruns s /\ active s (run_key s r) = Some r;
  i_uniq : forall c c' r, waiting s c = Some (r, true) -> waiting s c' = Some (r, true) -> c = c';
}.

Lemma dinv0 : dinv dst0.
Proof. constructor; cbn; intros; try discriminate; lia. Qed.

Lemma dinv_waiter s c v ret :
  dinv s -> (forall r, v <> Some (r, true)) ->
  dinv (mkDst (active s) (nruns s) (run_key s) (completed s) (upd1 (waiting s) c v) ret).
Proof.
  intros I V.
  (* the invariant speaks of creators only *)
  assert (forall c' r, upd1 (waiting s) c v c' = Some (r, true) -> waiting s c' = Some (r, true)) as W.
  { intros c' r H. apply upd1_inv in H. destruct H as [[_ H]|[_ H]]; [elim (V r H)|exact H]. }
  constructor; cbn.
  - apply (i_inc s I).
  - intros c' r H. apply (i_cre s I c'), W, H.
  - intros c1 c2 r H1 H2. apply (i_uniq s I c1 c2 r); apply W; assumption.
Qed.

Lemma dinv_leave s c r cr ret :
  dinv s -> waiting s c = Some (r, cr) -> (cr = true -> completed s r = true) ->
  dinv (mkDst (cleanup s r cr) (nruns s) (run_key s) (completed s) (upd1 (waiting s) c None) ret).
Proof.
  intros I W C.
  pose proof (dinv_waiter s c None ret I ltac:(discriminate)) as I1.
  destruct cr; [|exact I1].
  (* the creator's drop guard removes the key of r whatever entry is there: harmless because r is
     still registered for it ([i_cre]), has completed, and has no second creator ([i_uniq]) *)
  destruct I1 as [INC CRE UNIQ]. cbn in *.
  destruct (i_cre s I c r W) as [_ A]. specialize (C eq_refl).
  assert (forall r', r' <> r -> active s (run_key s r') = Some r' ->
                     upd1 (active s) (run_key s r) None (run_key s r') = Some r') as KEEP.
  { intros r' NR A'. rewrite upd1_neq; [exact A'|]. congruence. }
  constructor; cbn.
  - intros r' L C'. apply KEEP; [congruence|]. apply INC; assumption.
  - intros c' r' H. destruct (CRE c' r' H) as [L A']. split; [exact L|].
    apply KEEP; [|exact A']. intros ->.
    apply upd1_inv in H. destruct H as [[_ H]|[NC H]]; [discriminate|].
    apply NC. exact (i_uniq s I c' c r H W).
  - exact UNIQ.
Qed.

Lemma dstep_inv s e :
  dinv s -> (forall c r, e = Cancel c -> waiting s c = Some (r, true) -> completed s r = true) ->
  dinv (dstep s e).
Proof.
  intros I SF. destruct e as [c k|r|c|c]; cbn [dstep].
  - destruct (waiting s c) as [[r0 b0]|] eqn:W; [exact I|].
    destruct (returned s c) eqn:R; [exact I|].
    destruct (active s k) as [r|] eqn:A.
    { apply dinv_waiter; [exact I|discriminate]. }
    (* a new run n for k: nothing in s mentions n, and no run of s has its key at k *)
    set (n := nruns s).
    assert (forall c', waiting s c' <> Some (n, true)) as FRESH.
    { intros c' H. apply (i_cre s I) in H. unfold n in H. lia. }
    assert (forall r', r' < n -> active s (run_key s r') = Some r' ->
              upd1 (active s) k (Some n) (upd1 (run_key s) n k r') = Some r') as KEEP.
    { intros r' L A'. rewrite (upd1_neq (run_key s)) by lia.
      rewrite upd1_neq; [exact A'|]. congruence. }
    constructor; cbn.
    + intros r' L C. destruct (N.eq_dec r' n) as [->|NR].
      * rewrite !upd1_eq. reflexivity.
      * apply KEEP; [lia|]. apply (i_inc s I); [lia|exact C].
    + intros c' r' H. apply upd1_inv in H. destruct H as [[_ H]|[_ H]].
      * injection H as <-. rewrite !upd1_eq. split; [lia|reflexivity].
      * destruct (i_cre s I c' r' H) as [L A']. split; [lia|]. apply KEEP; assumption.
    + intros c1 c2 r' H1 H2. apply upd1_inv in H1, H2.
      destruct H1 as [[-> H1]|[_ H1]], H2 as [[-> H2]|[_ H2]].
      * reflexivity.
      * injection H1 as <-. elim (FRESH c2 H2).
      * injection H2 as <-. elim (FRESH c1 H1).
      * exact (i_uniq s I c1 c2 r' H1 H2).
  - destruct ((r <? nruns s) && negb (completed s r)); [|exact I].
    constructor; cbn.
    + intros r' L C. apply (i_inc s I r' L).
      apply upd1_inv in C. destruct C as [[_ C]|[_ C]]; [discriminate|exact C].
    + apply (i_cre s I).
    + apply (i_uniq s I).
  - destruct (waiting s c) as [[r cr]|] eqn:W; [|exact I].
    destruct (completed s r) eqn:C; [|exact I].
    apply dinv_leave; auto.
  - destruct (waiting s c) as [[r cr]|] eqn:W; [|exact I].
    apply dinv_leave; [exact I|exact W|]. intros ->. exact (SF c r eq_refl W).
Qed.

Lemma safe_from_inv : forall evs s, dinv s -> safe_from s evs = true -> dinv (fold_left dstep evs s).
Proof.
  induction evs as [|e evs IH]; intros s I SF; cbn [fold_left]; [exact I|].
  cbn [safe_from] in SF. apply andb_true_iff in SF. destruct SF as [S1 S2].
  apply IH; [|exact S2]. apply dstep_inv; [exact I|].
  intros c r -> W. rewrite W in S1. exact S1.
Qed.

Lemma inflight_active s k r : dinv s -> In r (inflight s k) -> active s k = Some r.
Proof.
  intros I. unfold inflight.
  rewrite filter_In, in_seqN, andb_true_iff, N.eqb_eq, negb_true_iff.
  intros (L & <- & C). apply (i_inc s I); [lia|exact C].
Qed.

Lemma inflight_le1 : forall s k, dinv s -> (length (inflight s k) <= 1)%nat.
Proof.
  intros s k I.
  assert (incl (inflight s k) (match active s k with Some r => [r] | None => [] end)) as S.
  { intros r H. rewrite (inflight_active s k r I H). left. reflexivity. }
  apply NoDup_incl_length in S; [|apply NoDup_filter, nodup_seqN].
  destruct (active s k); cbn [length] in S; lia.
Qed.

(* in s, [Arrive c k] takes effect and gives c the run r: the one registered for k, or a new one *)
Definition arrives (s : dst) (c k r : N) : Prop :=
  (active s k = Some r \/ (active s k = None /\ r = nruns s)) /\
  waiting s c = None /\ returned s c = None.

Definition attached (evs : list dev) (c r : N) : Prop :=
  exists evs1 k evs2, evs = evs1 ++ Arrive c k :: evs2 /\ arrives (drun evs1) c k r.

Lemma attached_snoc evs e c r : attached evs c r -> attached (evs ++ [e]) c r.
Proof.
  intros (evs1 & k & evs2 & E & H). exists evs1, k, (evs2 ++ [e]).
  split; [|exact H]. rewrite E, <- app_assoc. reflexivity.
Qed.

Lemma dstep_returned s e c r :
  returned (dstep s e) c = Some r ->
  returned s c = Some r \/ exists b, waiting s c = Some (r, b).
Proof.
  intros H. destruct e as [c0 k|r0|c0|c0]; cbn [dstep] in H.
  - destruct (waiting s c0) as [[? ?]|], (returned s c0), (active s k); auto.
  - destruct ((r0 <? nruns s) && negb (completed s r0)); auto.
  - destruct (waiting s c0) as [[r1 cr]|] eqn:W; [|auto]. destruct (completed s r1); [|auto].
    apply upd1_inv in H. destruct H as [[-> H]|[_ H]]; [|auto].
    right. exists cr. congruence.
  - destruct (waiting s c0) as [[? ?]|]; auto.
Qed.

Lemma dstep_waiting s e c r b :
  waiting (dstep s e) c = Some (r, b) ->
  waiting s c = Some (r, b) \/ exists k, e = Arrive c k /\ arrives s c k r.
Proof.
  intros H. destruct e as [c0 k|r0|c0|c0]; cbn [dstep] in H.
  - destruct (waiting s c0) as [[? ?]|] eqn:W; [auto|]. destruct (returned s c0) eqn:R; [auto|].
    destruct (active s k) eqn:A; apply upd1_inv in H; destruct H as [[-> H]|[_ H]]; auto.
    all: injection H as <- <-; right; exists k; unfold arrives; auto.
  - destruct ((r0 <? nruns s) && negb (completed s r0)); auto.
  - destruct (waiting s c0) as [[r1 cr]|]; [|auto]. destruct (completed s r1); [|auto].
    apply upd1_inv in H. destruct H as [[_ H]|[_ H]]; [discriminate|auto].
  - destruct (waiting s c0) as [[r1 cr]|]; [|auto].
    apply upd1_inv in H. destruct H as [[_ H]|[_ H]]; [discriminate|auto].
Qed.

Lemma attach_inv : forall evs c r,
  (returned (drun evs) c = Some r \/ exists b, waiting (drun evs) c = Some (r, b)) ->
  attached evs c r.
Proof.
  intros evs. induction evs as [|e evs IH] using rev_ind; intros c r H.
  { destruct H as [H|[b H]]; discriminate. }
  rewrite drun_snoc in H. destruct H as [H|[b H]].
  - apply dstep_returned in H. apply attached_snoc, IH, H.
  - apply dstep_waiting in H. destruct H as [H'|(k & -> & H')].
    + apply attached_snoc, IH. eauto.
    + exists evs, k, []. auto.
Qed.

Lemma join_no_new_run : forall s c k r,
  active s k = Some r -> waiting s c = None -> returned s c = None ->
  nruns (dstep s (Arrive c k)) = nruns s /\
  waiting (dstep s (Arrive c k)) c = Some (r, false).
Proof.
  intros s c k r A W R. cbn [dstep]. rewrite W, R, A. cbn. now rewrite upd1_eq.
Qed.

Lemma nruns_step : forall s e,
  nruns (dstep s e) = nruns s \/
  (exists c k, e = Arrive c k /\ active s k = None /\ nruns (dstep s e) = nruns s + 1).
Proof.
  intros s e. destruct e as [c k|r|c|c]; cbn [dstep].
  - destruct (waiting s c) as [[? ?]|]; [auto|]. destruct (returned s c); [auto|].
    destruct (active s k) eqn:A; [auto|]. right. exists c, k. auto.
  - destruct ((r <? nruns s) && negb (completed s r)); auto.
  - destruct (waiting s c) as [[r cr]|]; [|auto]. destruct (completed s r); auto.
  - destruct (waiting s c) as [[r cr]|]; auto.
Qed.

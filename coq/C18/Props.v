(* C18 — property theorems.  [try_send cfg o order e] is the model of PoolState::try_send for an
   arbitrary ORACLE [o : server -> protocol -> n-th exchange -> (outcome, latency)], an
   arbitrary server order (whatever the ordering strategy produced) and an arbitrary pool
   state [e] (exchange counters, live connections).  A run ends with a result and the
   reason [why]: WDeadline, WExhausted, WAnswer i, WFinal i e.  The de-duplication
   semantics [drun] is over arbitrary schedules of Arrive / Complete / Return / Cancel.
   The predicates of the hypotheses stand with their lemmas: lat_bounds, requeues in
   PoolProofs.v, healthy, benign in SearchProofs.v, no_tcp_requeue in BudgetProofs.v. *)
From HV Require Import Lib.Base C18.Model C18.PoolProofs C18.SearchProofs C18.BudgetProofs C18.DedupProofs.
Open Scope N_scope.

(* A transport fault (io error, timeout, no connection, busy), a case mismatch, or an
   NXDOMAIN from a server that is not trusted for negative answers never ends the search:
   whenever one server's error is final, it is none of those. *)
Theorem C18_fault_or_untrusted_nx_never_ends_search : forall cfg o order e r i er s,
  try_send cfg o order e = Done r (WFinal i er) s ->
  r = RErr er /\
  er <> EIo /\ er <> ENoConn /\ er <> ETimeout /\ er <> EBusy /\ er <> ECase /\
  (er = ENx -> s_trust (server cfg i) = true).
Proof.
  intros cfg o order e r i er s H. destruct (loop_why H) as (R & p & k & A & ->).
  exact (conj R (action_final _ _ A)).
Qed.
Print Assumptions C18_fault_or_untrusted_nx_never_ends_search.

(* An answer is returned as such. *)
Theorem C18_answer_is_returned : forall cfg o order e r i s,
  try_send cfg o order e = Done r (WAnswer i) s -> r = ROk i.
Proof. intros cfg o order e r i s H. exact (loop_why H). Qed.
Print Assumptions C18_answer_is_returned.

(* For every oracle whose exchanges take at least 1 ms (and at most L), every order and
   every pool state, try_send returns within timeout + 6 rounds: the model never runs out
   of fuel. *)
Theorem C18_terminates : forall cfg o L order e,
  lat_bounds o L -> exists r w s, try_send cfg o order e = Done r w s.
Proof.
  intros cfg o L order e HL.
  apply (loop_terminates _ cfg o L _ HL (time_inv0 cfg o L order e HL)).
  (* timeout + 1 rounds would do: a round that goes on advances the clock by at least 1 ms *)
  unfold fuel_for. cbn [now st0]. lia.
Qed.
Print Assumptions C18_terminates.

(* Completion bound that does hold: strictly less than timeout + 2L, where L bounds one
   exchange (2L: NameServer::send_inner may reconnect and resend once). *)
Theorem C18_completion_bound : forall cfg o L order e r w s,
  lat_bounds o L -> try_send cfg o order e = Done r w s ->
  now s <= timeout cfg + 2 * L - 1.
Proof.
  intros cfg o L order e r w s HL.
  apply (loop_inv (time_inv cfg L) (fun _ _ s => now s <= timeout cfg + 2 * L - 1));
    [|exact (time_inv0 cfg o L order e HL)].
  intros s0 I0. pose proof (step_time cfg o L s0 HL I0) as T.
  destruct (step cfg o s0); [exact T|apply T].
Qed.
Print Assumptions C18_completion_bound.

(* The clause as stated ("no later than the configured timeout") does not hold: the
   deadline is only looked at when a round starts.  Witness (finding F8, replayed on the
   real code by the harness, index 0): server 0 fails after 400 ms, server 1 answers after
   300 ms, one request at a time, timeout 499 ms: the answer arrives at 700 ms. *)
Definition o_f8 : oracle := fun i _ _ => if i =? 0 then (OIo, 400) else (OAns, 300).
Definition cfg_f8 := mkCfg [mkSrv true true true; mkSrv true true true] 1 499.

Theorem C18_deadline_refuted :
  exists cfg o order e r w s,
    lat_bounds o 400 /\ try_send cfg o order e = Done r w s /\ timeout cfg < now s.
Proof.
  exists cfg_f8, o_f8, [0; 1], env0. eexists; eexists; eexists.
  split; [|split; [vm_compute; reflexivity|vm_compute; reflexivity]].
  intros i p k. unfold o_f8. destruct (i =? 0); cbn [snd]; lia.
Qed.
Print Assumptions C18_deadline_refuted.

(* One round: if a member of the batch comes back truncated (or with a case mismatch) and
   the round does not end the lookup, then UDP is disabled from then on, the server is
   back in the queue, and whatever the pool state, every later exchange with it uses TCP
   -- and there is one as soon as it is asked, if it has TCP configured.
   PARTIAL: that the requeued server is indeed asked again before the lookup gives up is
   C18_exhausted_means_all_tried below (it is in the queue, and the queue is drained). *)
Theorem C18_truncated_retries_tcp_partial : forall cfg o s s' i,
  step cfg o s = Cont s' ->
  In i (fst (take_batch cfg (dis s) (nslots cfg) (q s))) ->
  requeues (plan_res (ns_plan o (server cfg i) i (dis s) (en s))) = true ->
  dis s' = true /\ In i (q s') /\
  (forall e' cut x, In x (plan_xch (ns_plan o (server cfg i) i (dis s') e') i cut) -> snd x = (i, Tcp)) /\
  (s_tcp (server cfg i) = true ->
   forall e', exists t, In (t, (i, Tcp)) (plan_xch (ns_plan o (server cfg i) i (dis s') e') i None)).
Proof.
  intros cfg o s s' i H HI HR. destruct (step_truncated H HI HR) as (D & Q).
  rewrite D. repeat split; auto.
  - intros e' cut x. apply plan_dis_tcp.
  - intros T e'. apply plan_dis_some. exact T.
Qed.
Print Assumptions C18_truncated_retries_tcp_partial.

(* For every oracle, order and pool state: if the lookup gives up because no server is
   left (not by deadline, answer or a final error), then every server of the order that
   the policy in force at the end still allows has been asked.  In particular a server
   requeued after a truncated reply (it is allowed if it has TCP) was asked again -- over
   TCP by C18_truncated_retries_tcp_partial -- and an untrusted NXDOMAIN never made the
   pool stop while another server remained. *)
Theorem C18_exhausted_means_all_tried : forall cfg o order e r s i,
  try_send cfg o order e = Done r WExhausted s ->
  In i order -> allowed (server cfg i) (dis s) = true ->
  exists t p, In (t, (i, p)) (xs s).
Proof.
  intros cfg o order e r s i H. exact (proj1 (loop_search H) i).
Qed.
Print Assumptions C18_exhausted_means_all_tried.

(* A healthy server (answers on every protocol, every time) that has TCP configured, with
   no server producing an outcome that legitimately ends the search (SERVFAIL, no-data,
   trusted NXDOMAIN): whatever faults, truncations, busy signals and latencies the other
   servers show, in whatever order, the lookup returns an answer -- unless the deadline
   test fires first.
   GUARDED: Known class = the healthy server is UDP-only (see the _refuted theorem). *)
Theorem C18_healthy_server_wins_guarded : forall cfg o order e h r w s,
  healthy o h -> benign cfg o -> In h order -> s_tcp (server cfg h) = true ->
  try_send cfg o order e = Done r w s ->
  (exists i, r = ROk i /\ w = WAnswer i) \/ w = WDeadline.
Proof.
  intros cfg o order e h r w s HH B Hh T H. pose proof (loop_why H) as W.
  destruct w as [| |i|i er]; cbn [ret_why] in W; [auto|exfalso|eauto|exfalso].
  - (* the healthy server was asked and did not answer *)
    destruct (loop_search H) as (A & J).
    destruct (J h (A h Hh (allowed_tcp _ _ T))) as (p & k & X).
    exact (X (healthy_reply o h p k HH)).
  - destruct W as (_ & p & k & A & _). exact (benign_reply cfg o i p k B A).
Qed.
Print Assumptions C18_healthy_server_wins_guarded.

(* Without TCP on the healthy server it fails: a truncated reply of ANOTHER server
   disables UDP for the whole lookup and the healthy UDP-only server is dropped unasked
   (finding C18-udp-only-dropped-after-truncation; harness index 2 on the real code). *)
Definition cfg_uo := mkCfg [mkSrv true false true; mkSrv true false true] 1 899.

Definition o_t0 : oracle := fun i _ _ => if i =? 0 then (OTrunc, 100) else (OAns, 200).

Lemma o_t0_ok : forall cfg, healthy o_t0 1 /\ benign cfg o_t0 /\ lat_bounds o_t0 200.
Proof.
  intros cfg. split; [intros p k; reflexivity|].
  split; intros i p k; unfold o_t0; destruct (i =? 0); cbn; [repeat split; discriminate..|lia|lia].
Qed.

Theorem C18_healthy_server_wins_refuted_udp_only :
  exists cfg o order e h s,
    healthy o h /\ benign cfg o /\ In h order /\ lat_bounds o 200 /\
    try_send cfg o order e = Done (RErr ETruncMsg) WExhausted s /\
    now s < timeout cfg /\ ~ exists t p, In (t, (h, p)) (xs s).
Proof.
  destruct (o_t0_ok cfg_uo) as (HH & HB & HL).
  exists cfg_uo, o_t0, [0; 1], env0, 1. eexists.
  split; [exact HH|]. split; [exact HB|]. split; [right; left; reflexivity|]. split; [exact HL|].
  split; [vm_compute; reflexivity|]. split; [vm_compute; reflexivity|].
  intros (t & p & H). vm_compute in H. destruct H as [H|[]]. discriminate H.
Qed.
Print Assumptions C18_healthy_server_wins_refuted_udp_only.

(* "Unless the deadline fires first" hides a second defect: the deadline can be reached
   although the healthy server would have answered within a fraction of the budget.  A
   server that sets TC (or mismatches the case) over TCP as well is requeued at the front
   every round; with one request at a time nobody else is ever asked.  Timeout 1199 ms,
   two servers, 100 / 200 ms per exchange: 12 exchanges with server 0, none with the
   healthy server 1, Err(Timeout) (finding C18-tcp-truncation-loop; harness index 1). *)
Definition cfg_tl := mkCfg [mkSrv true true true; mkSrv true true true] 1 1199.

Theorem C18_within_budget_refuted_tcp_loop :
  exists cfg o order e h s,
    healthy o h /\ benign cfg o /\ In h order /\ s_tcp (server cfg h) = true /\ lat_bounds o 200 /\
    try_send cfg o order e = Done (RErr ETimeout) WDeadline s /\
    length (xs s) = 12%nat /\ ~ exists t p, In (t, (h, p)) (xs s).
Proof.
  destruct (o_t0_ok cfg_tl) as (HH & HB & HL).
  exists cfg_tl, o_t0, [0; 1], env0, 1. eexists.
  split; [exact HH|]. split; [exact HB|]. split; [right; left; reflexivity|]. split; [reflexivity|].
  split; [exact HL|]. split; [vm_compute; reflexivity|]. split; [vm_compute; reflexivity|].
  intros (t & p & H). vm_compute in H.
  repeat (destruct H as [H|H]; [discriminate H|]). destruct H.
Qed.
Print Assumptions C18_within_budget_refuted_tcp_loop.

(* The quantitative form, GUARDED by the class of the second defect: if no server ever
   answers truncated / case-mismatched over TCP, the number of rounds is bounded by the
   configuration alone (each server is asked at most 6 times: first try, once more after
   UDP was disabled, once after each of the 4 backoff sleeps), so a timeout above
   6 n * 2L + 300 ms is never reached and the healthy server's answer -- or an earlier
   one -- is returned, for every fault pattern of the other servers. *)
Theorem C18_healthy_within_budget_guarded : forall cfg o L order e h r w s,
  lat_bounds o L -> healthy o h -> benign cfg o -> no_tcp_requeue o ->
  In h order -> s_tcp (server cfg h) = true ->
  2 * L * (6 * N.of_nat (length order)) + 300 < timeout cfg ->
  try_send cfg o order e = Done r w s ->
  exists i, r = ROk i /\ w = WAnswer i.
Proof.
  intros cfg o L order e h r w s HL HH B G Hh T HB H.
  destruct (C18_healthy_server_wins_guarded cfg o order e h r w s HH B Hh T H) as [X|X]; [exact X|].
  exfalso. revert H X.
  eapply (loop_inv (budget_inv L _) (fun _ w _ => w <> WDeadline)); [|apply budget_inv0].
  intros s0 I0. apply step_budget; assumption.
Qed.
Print Assumptions C18_healthy_within_budget_guarded.

(* For every schedule that never cancels the creator of an unfinished run, at every
   moment there is at most one unfinished run (= one upstream try_send) per key. *)
Theorem C18_dedup_one_exchange_guarded : forall evs k,
  safe_sched evs = true -> (length (inflight (drun evs) k) <= 1)%nat.
Proof.
  intros evs k S. apply inflight_le1. unfold drun. apply safe_from_inv; [apply dinv0|exact S].
Qed.
Print Assumptions C18_dedup_one_exchange_guarded.

(* Without the guard it fails: the creator's drop guard removes the key although a waiter
   keeps the shared lookup running; the next caller starts a second, concurrent run
   (finding C18-dedup-creator-cancel, replayed on the real code by the harness, index 3). *)
Theorem C18_dedup_one_exchange_refuted :
  exists evs k, length (inflight (drun evs) k) = 2%nat.
Proof.
  exists [Arrive 0 0; Arrive 1 0; Cancel 0; Arrive 2 0], 0. vm_compute. reflexivity.
Qed.
Print Assumptions C18_dedup_one_exchange_refuted.

(* A caller that finds a run registered for its key joins it: no new run is started. *)
Theorem C18_dedup_join_starts_nothing : forall evs c k r,
  active (drun evs) k = Some r -> waiting (drun evs) c = None -> returned (drun evs) c = None ->
  nruns (drun (evs ++ [Arrive c k])) = nruns (drun evs) /\
  waiting (drun (evs ++ [Arrive c k])) c = Some (r, false).
Proof. intros evs c k r A W R. rewrite drun_snoc. apply join_no_new_run; assumption. Qed.
Print Assumptions C18_dedup_join_starts_nothing.

(* Whatever the schedule (cancellations included): the result a caller receives is the
   result of the run that was registered for its key when it arrived, or of the run it
   created then -- so all callers that joined a run receive that run's one result. *)
Theorem C18_dedup_same_result : forall evs c r,
  returned (drun evs) c = Some r ->
  exists evs1 k evs2,
    evs = evs1 ++ Arrive c k :: evs2 /\
    (active (drun evs1) k = Some r \/ (active (drun evs1) k = None /\ r = nruns (drun evs1))) /\
    waiting (drun evs1) c = None /\ returned (drun evs1) c = None.
Proof. intros evs c r H. apply attach_inv. left. exact H. Qed.
Print Assumptions C18_dedup_same_result.

(* an untrusted NXDOMAIN is passed over and the next server's answer returned; the same
   NXDOMAIN from a trusted server is final *)
Definition o_nx : oracle := fun i _ _ => if i =? 0 then (ONx, 100) else (OAns, 200).
Example C18_nx_example :
  (exists s, try_send (mkCfg [mkSrv true true false; mkSrv true true true] 1 899) o_nx [0; 1] env0
             = Done (ROk 1) (WAnswer 1) s /\ now s = 300) /\
  (exists s, try_send (mkCfg [mkSrv true true true; mkSrv true true true] 1 899) o_nx [0; 1] env0
             = Done (RErr ENx) (WFinal 0 ENx) s /\ now s = 100).
Proof. split; eexists; vm_compute; split; reflexivity. Qed.

(* a truncating server with TCP: one round continues with UDP disabled, second round TCP *)
Definition o_tc : oracle := fun _ p _ => match p with Udp => (OTrunc, 100) | Tcp => (OAns, 100) end.
Example C18_trunc_example :
  let cfg := mkCfg [mkSrv true true true] 2 899 in
  (exists s', step cfg o_tc (st0 [0] env0) = Cont s' /\ dis s' = true /\ q s' = [0]) /\
  In 0 (fst (take_batch cfg false (nslots cfg) [0])) /\
  requeues (plan_res (ns_plan o_tc (server cfg 0) 0 false env0)) = true /\
  exists s, try_send cfg o_tc [0] env0 = Done (ROk 0) (WAnswer 0) s /\
            map snd (xs s) = [(0, Udp); (0, Tcp)].
Proof.
  cbv zeta. repeat split.
  - eexists. vm_compute. repeat split.
  - vm_compute. auto.
  - eexists. vm_compute. split; reflexivity.
Qed.

(* hypotheses of C18_healthy_server_wins_guarded are satisfiable with faults around: server 0
   times out, server 1 is busy once then fails, server 2 is healthy *)
Definition o_h : oracle := fun i _ k =>
  if i =? 0 then (OTimeout, 300) else if i =? 1 then (if k =? 0 then (OBusy, 100) else (OIo, 100)) else (OAns, 200).
Example C18_healthy_example :
  let cfg := mkCfg [mkSrv true true true; mkSrv true true false; mkSrv true true true] 2 1199 in
  healthy o_h 2 /\ benign cfg o_h /\ In 2 [0; 1; 2] /\ s_tcp (server cfg 2) = true /\
  exists s, try_send cfg o_h [0; 1; 2] env0 = Done (ROk 2) (WAnswer 2) s /\ now s = 500.
Proof.
  cbv zeta. split; [intros p k; reflexivity|].
  split; [intros i p k; unfold o_h; destruct (i =? 0); [|destruct (i =? 1); [destruct (k =? 0)|]];
          cbn; repeat split; discriminate|].
  split; [cbn; auto|]. split; [reflexivity|]. eexists. vm_compute. split; reflexivity.
Qed.

(* ... and with a timeout above the budget of C18_healthy_within_budget_guarded (L = 300, 3 servers) *)
Example C18_budget_example :
  let cfg := mkCfg [mkSrv true true true; mkSrv true true false; mkSrv true true true] 1 12000 in
  lat_bounds o_h 300 /\ no_tcp_requeue o_h /\ 2 * 300 * (6 * 3) + 300 < timeout cfg /\
  exists s, try_send cfg o_h [0; 1; 2] env0 = Done (ROk 2) (WAnswer 2) s /\ now s = 600.
Proof.
  cbv zeta.
  split; [intros i p k; unfold o_h; destruct (i =? 0); [|destruct (i =? 1); [destruct (k =? 0)|]]; cbn [snd]; lia|].
  split; [intros i k; unfold o_h; destruct (i =? 0); [|destruct (i =? 1); [destruct (k =? 0)|]]; cbn; split; discriminate|].
  split; [reflexivity|]. eexists. vm_compute. repeat split.
Qed.

(* latencies of the examples are within bounds *)
Example C18_lat_example : lat_bounds o_nx 200 /\ lat_bounds o_tc 100.
Proof.
  split; intros i p k; unfold o_nx, o_tc; [destruct (i =? 0)|destruct p]; cbn [snd]; lia.
Qed.

(* a schedule satisfying the guard with two callers sharing one run and a later caller
   starting the next one *)
Example C18_dedup_example :
  let evs := [Arrive 0 7; Arrive 1 7; Complete 0; Return 1; Return 0; Arrive 2 7] in
  safe_sched evs = true /\ nruns (drun evs) = 2 /\
  returned (drun evs) 0 = Some 0 /\ returned (drun evs) 1 = Some 0 /\
  inflight (drun evs) 7 = [1].
Proof. cbv zeta. vm_compute. repeat split. Qed.

(* C18 — the time budget: with no truncated / case-mismatch replies over TCP, the number of
   rounds is bounded by the configuration alone (6 per server + 4 backoff sleeps), so a
   timeout above 6 * n * 2L + 300 ms is never reached. *)
From HV Require Import Lib.Base Lib.ListX C18.Model C18.PoolProofs.
Open Scope N_scope.

Definition no_tcp_requeue (o : oracle) : Prop :=
  forall i k, fst (o i Tcp k) <> OTrunc /\ fst (o i Tcp k) <> OCase.

(* The backoff starts at 20 ms and doubles at each sleep while below 300 (name_server_pool.rs):
   20 -> 40 -> 80 -> 160 -> 320, four sleeps, 300 ms in all.  From ceil(300 / 2^k) <= b on, k
   sleeps are to come, of total length b * (2^k - 1); these tables are right for b >= 19. *)
Definition sleeps_left (b : N) : N :=
  if 300 <=? b then 0 else if 150 <=? b then 1 else if 75 <=? b then 2 else if 38 <=? b then 3 else 4.
Definition sleep_sum (b : N) : N :=
  if 300 <=? b then 0 else if 150 <=? b then b else if 75 <=? b then 3 * b
  else if 38 <=? b then 7 * b else 15 * b.

(* The potential counts the rounds still possible.  A queued server may be asked now, once
   more after each backoff sleep to come, and once more if UDP is still enabled (it can come
   back to be asked over TCP): [w_queued].  A busy server is not asked now, only after a
   sleep: [w_busy], one less. *)
Definition udp_bonus (s : st) : N := if dis s then 0 else 1.
Definition w_queued (r n : N) : N := r + 1 + n.
Definition w_busy (r n : N) : N := r + n.

Definition rounds_left (s : st) : N :=
  w_queued (sleeps_left (backoff s)) (udp_bonus s) * N.of_nat (length (q s)) +
  w_busy (sleeps_left (backoff s)) (udp_bonus s) * N.of_nat (length (busy s)).

(* A round with lb members: each drops out, moves to the busy list (w_busy < w_queued) or
   returns to the queue with UDP now disabled (n' < n). *)
Lemma rounds_left_round : forall R n n' lq lrest lb lbusy lq' lbusy',
  n <= 1 -> n' <= n -> 1 <= lb -> lb + lrest <= lq ->
  lq' + lbusy' <= lrest + lbusy + lb -> (lrest < lq' -> n = 1 /\ n' = 0) ->
  w_queued R n' * lq' + w_busy R n' * lbusy' + 1 <= w_queued R n * lq + w_busy R n * lbusy.
Proof.
  intros R n n' lq lrest lb lbusy lq' lbusy' Hn Hn' Hb Hq Hs Hrq.
  (* the part of the weights that is R goes by monotonicity of the product; the rest is linear
     once n and n' are known *)
  assert (R * (lq' + lbusy') <= R * (lq + lbusy)) as M by (apply N.mul_le_mono_l; lia).
  rewrite !N.mul_add_distr_l in M.
  assert (n = 0 /\ n' = 0 \/ n = 1 /\ n' = 1 \/ n = 1 /\ n' = 0)
    as [(-> & ->)|[(-> & ->)|(-> & ->)]] by lia;
    unfold w_queued, w_busy; lia.
Qed.

Lemma w_queued_pred : forall R n, 1 <= R -> w_queued (R - 1) n = w_busy R n.
Proof. intros R n H. unfold w_queued, w_busy. lia. Qed.

Lemma sleeps_left_step : forall b, 19 <= b -> b < 300 ->
  1 <= sleeps_left b /\ sleeps_left (b * 2) = sleeps_left b - 1 /\
  sleep_sum b = b + sleep_sum (b * 2).
Proof.
  intros b H1 H2. unfold sleeps_left, sleep_sum.
  destruct (N.leb_spec 300 b); [lia|].
  destruct (N.leb_spec 150 b), (N.leb_spec 300 (b * 2)); try lia.
  destruct (N.leb_spec 75 b), (N.leb_spec 150 (b * 2)); try lia.
  destruct (N.leb_spec 38 b), (N.leb_spec 75 (b * 2)); try lia.
  destruct (N.leb_spec 38 (b * 2)); lia.
Qed.

Lemma no_requeue_tcp : forall o i k, no_tcp_requeue o -> requeues (reply o i Tcp k) = false.
Proof.
  intros o i k G. destruct (G i k) as (G1 & G2). unfold reply.
  destruct (fst (o i Tcp k)); cbn; congruence.
Qed.

Definition budget_inv (L B : N) (s : st) : Prop :=
  19 <= backoff s /\ now s + 2 * L * rounds_left s + sleep_sum (backoff s) <= B.

Lemma budget_inv_next : forall L B s s' k,
  budget_inv L B s -> 19 <= backoff s' -> rounds_left s' + k <= rounds_left s ->
  now s' + sleep_sum (backoff s') <= now s + sleep_sum (backoff s) + 2 * L * k ->
  budget_inv L B s'.
Proof.
  intros L B s s' k (HB & HJ) HB' HP HN. split; [exact HB'|].
  apply (N.mul_le_mono_l _ _ (2 * L)) in HP. rewrite N.mul_add_distr_l in HP. lia.
Qed.

Lemma step_budget : forall cfg o L B s,
  lat_bounds o L -> no_tcp_requeue o -> budget_inv L B s -> B < timeout cfg ->
  match step cfg o s with
  | Ret _ w _ => w <> WDeadline
  | Cont s' => budget_inv L B s'
  end.
Proof.
  intros cfg o L B s HL G I HT. pose proof I as (HB & HJ).
  destruct (step_cases cfg o s)
    as [D|D TB|D TB NB BK|b rest rq bz ce d en' xs' D TB NE Rq _ Bge Ble Hd _
        |b rest i r w t en' xs' _ _ _ E _].
  - (* SDeadline *) lia.
  - (* SExhausted *) discriminate.
  - (* SSleep *)
    destruct (sleeps_left_step (backoff s) HB BK) as (R1 & R2 & R3).
    apply (budget_inv_next L B s _ 0 I); cbn [backoff now]; [lia| |lia].
    unfold rounds_left, udp_bonus. cbn [backoff q busy dis length]. fold (udp_bonus s).
    rewrite R2, w_queued_pred by exact R1.
    assert (N.of_nat (length (filter (fun i => allowed (server cfg i) (dis s)) (busy s)))
            <= N.of_nat (length (busy s))) as FL by
      (pose proof (filter_length_le (fun i => allowed (server cfg i) (dis s)) (busy s)); lia).
    apply (N.mul_le_mono_l _ _ (w_busy (sleeps_left (backoff s)) (udp_bonus s))) in FL. lia.
  - (* SRound *)
    pose proof (take_batch_len TB) as TL. specialize (Hd L HL).
    assert (dis s = true -> rq = []) as NR.
    { intros DS. destruct rq as [|j rq]; [reflexivity|].
      destruct (proj1 (Rq j) (or_introl eq_refl)) as (Hj & R).
      destruct (batch_reply o TB Hj) as (p & k & Hp & E).
      rewrite E, (Hp DS), no_requeue_tcp in R by exact G. discriminate. }
    apply (budget_inv_next L B s _ 1 I); cbn [backoff now]; [exact HB| |lia].
    unfold rounds_left, udp_bonus. cbn [backoff q busy dis]. rewrite app_length.
    apply rounds_left_round with (R := sleeps_left (backoff s))
             (lrest := N.of_nat (length rest)) (lb := N.of_nat (length b)); try lia.
    + destruct (dis s); lia.
    + destruct rq, (dis s); lia.
    + destruct b; [contradiction|cbn [length]; lia].
    + destruct rq, (dis s); cbn [length]; try lia. discriminate (NR eq_refl).
  - (* SReturn *)
    destruct E as [(_ & _ & ->)|(_ & _ & ->)]; discriminate.
Qed.

Lemma budget_inv0 : forall L order e,
  budget_inv L (2 * L * (6 * N.of_nat (length order)) + 300) (st0 order e).
Proof.
  intros L order e. split; cbn [st0 backoff now]; [lia|].
  unfold rounds_left, udp_bonus, w_queued, w_busy. cbn [st0 backoff q busy dis length].
  change (sleeps_left 20) with 4. change (sleep_sum 20) with 300. lia.
Qed.

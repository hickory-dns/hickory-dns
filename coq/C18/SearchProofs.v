(* C18 — proofs about the search as a whole: the lookup gives up only after every
   server the policy allows has been asked, and none of those asked has answered. *)
From HV Require Import Lib.Base C18.Model C18.PoolProofs.
Open Scope N_scope.

(* no clause for the busy list: the busy ones were asked *)
Definition search_inv (cfg : config) (o : oracle) (order : list N) (s : st) : Prop :=
  (forall i, In i order -> In i (q s) \/ allowed (server cfg i) (dis s) = false \/ asked (xs s) i) /\
  (forall i, asked (xs s) i -> exists p k, reply o i p k <> SOk false).

Definition all_tried (cfg : config) (o : oracle) (order : list N) (s : st) : Prop :=
  (forall i, In i order -> allowed (server cfg i) (dis s) = true -> asked (xs s) i) /\
  (forall i, asked (xs s) i -> exists p k, reply o i p k <> SOk false).

Lemma step_search : forall cfg o order s,
  search_inv cfg o order s ->
  match step cfg o s with
  | Cont s' => search_inv cfg o order s'
  | Ret r w s' => w = WExhausted -> all_tried cfg o order s'
  end.
Proof.
  intros cfg o order s (I & J).
  destruct (step_cases cfg o s)
    as [|_ TB|_ TB|b rest rq bz ce d en' xs' _ TB _ _ NoAns _ _ _ As
        |b rest i r w t en' xs' _ _ _ E _].
  - (* SDeadline *) discriminate.
  - (* SExhausted *)
    intros _. split; [|exact J]. intros i Hi A. destruct (take_batch_none TB) as (_ & F).
    destruct (I i Hi) as [X|[X|X]]; [rewrite (F i X) in A; discriminate|congruence|exact X].
  - (* SSleep *)
    destruct (take_batch_none TB) as (_ & F).
    split; [|exact J]. intros i Hi. destruct (I i Hi) as [X|[X|X]]; auto.
  - (* SRound *)
    unfold search_inv. cbn [q dis xs]. setoid_rewrite asked_app. setoid_rewrite As.
    assert (forall i, allowed (server cfg i) (dis s) = false ->
                      allowed (server cfg i) (match rq with [] => dis s | _ => true end) = false) as M
      by (intros i; apply allowed_mono; destruct rq; auto).
    split; intros i Hi.
    + destruct (I i Hi) as [X|[X|X]]; auto.
      destruct (take_batch_split TB X) as [Y|[Y|Y]]; auto using in_or_app.
    + destruct Hi as [Hi|Hi]; [auto|].
      destruct (batch_reply o TB Hi) as (p & k & _ & E). exists p, k. rewrite <- E.
      exact (NoAns i Hi).
  - (* SReturn *)
    intros ->. destruct E as [(_ & _ & E)|(_ & _ & E)]; discriminate.
Qed.

Lemma loop_search {fuel cfg o order e r s} :
  loop fuel cfg o (st0 order e) = Done r WExhausted s -> all_tried cfg o order s.
Proof.
  intros H.
  refine (loop_inv (search_inv cfg o order) (fun _ w s => w = WExhausted -> all_tried cfg o order s)
            cfg o (step_search cfg o order) _ H eq_refl).
  split; [left; assumption|]. intros i (t & p & []).
Qed.

Definition healthy (o : oracle) (h : N) : Prop := forall p k, fst (o h p k) = OAns.

Definition benign (cfg : config) (o : oracle) : Prop :=
  forall i p k, fst (o i p k) <> ONoData /\ fst (o i p k) <> ORcode /\
                (fst (o i p k) = ONx -> s_trust (server cfg i) = false).

Lemma healthy_reply : forall o h p k, healthy o h -> reply o h p k = SOk false.
Proof. intros o h p k HH. unfold reply. rewrite HH. reflexivity. Qed.

Lemma benign_reply : forall cfg o i p k,
  benign cfg o -> action_of (server cfg i) (reply o i p k) <> AFinal.
Proof.
  intros cfg o i p k B. destruct (B i p k) as (B1 & B2 & B3). unfold reply.
  destruct (fst (o i p k)); cbn; try discriminate; try congruence.
  rewrite (B3 eq_refl). discriminate.
Qed.

(* C15 — proofs about the TTL arithmetic: clamping, the cache lifetime and its received-TTL
   reading, what an insertion writes under ordered bounds ([lifetime], [stored_res]), the
   countdown, negative_ttl, the boolean test [wf_cfgb]. *)
From HV Require Import Lib.Base C15.Model.
Open Scope N_scope.

Lemma option_map_ext_in {A B} (f g : A -> B) o :
  (forall x, o = Some x -> f x = g x) -> option_map f o = option_map g o.
Proof. destruct o as [x|]; cbn; [intros H; now rewrite (H x)|reflexivity]. Qed.

Lemma Forall2_map_same {A B} (R : B -> B -> Prop) (f g : A -> B) l :
  (forall x, R (f x) (g x)) -> Forall2 R (map f l) (map g l).
Proof. intros H. induction l; cbn [map]; constructor; auto. Qed.

Lemma assoc_in {A} k (l : list (N * A)) v : assoc k l = Some v -> In (k, v) l.
Proof.
  induction l as [|[k' v'] l IH]; cbn [assoc]; [discriminate|].
  destruct (N.eqb_spec k k') as [->|Hn]; [intros E; inversion E; now left|intros E; right; auto].
Qed.

Lemma clamp_ok lo hi x : lo <= hi -> clamp lo hi x = Some (clamp_spec lo hi x).
Proof.
  intros H. unfold clamp, clamp_spec.
  destruct (N.ltb_spec hi lo) as [H1|H1]; [lia|]. f_equal.
  destruct (N.ltb_spec x lo) as [H2|H2]; [lia|].
  destruct (N.ltb_spec hi x) as [H3|H3]; lia.
Qed.

Lemma clamp_panics lo hi x : hi < lo -> clamp lo hi x = None.
Proof. intros H. unfold clamp. destruct (N.ltb_spec hi lo); [reflexivity|lia]. Qed.

Lemma clamp_spec_range lo hi x : lo <= hi -> lo <= clamp_spec lo hi x <= hi.
Proof. unfold clamp_spec. lia. Qed.

Lemma clamp_spec_mono lo hi x y : x <= y -> clamp_spec lo hi x <= clamp_spec lo hi y.
Proof. unfold clamp_spec. lia. Qed.

Lemma clamp_spec_idem lo hi x : clamp_spec lo hi (clamp_spec lo hi x) = clamp_spec lo hi x.
Proof. unfold clamp_spec. lia. Qed.

Lemma u32_or_max_le s : u32_or_max s <= U32MAX /\ u32_or_max s <= s.
Proof. unfold u32_or_max, U32MAX, MAX_TTL. destruct (N.leb_spec s 4294967295); lia. Qed.

Lemma u32_or_max_id s : s <= U32MAX -> u32_or_max s = s.
Proof. intros H. unfold u32_or_max. destruct (N.leb_spec s U32MAX); [reflexivity|lia]. Qed.

(* whole seconds round down; with [NS] unfolded next to this fact, statements about [_ / NS] and
   [_ * NS] are linear *)
Lemma NS_floor x : x / NS * NS <= x < x / NS * NS + NS.
Proof.
  unfold NS. pose proof (N.mul_div_le x 1000000000). pose proof (N.mul_succ_div_gt x 1000000000). lia.
Qed.

Lemma pos_bounds_secs_eq c ty :
  pos_bounds_secs c ty = (u32_or_max (fst (pos_bounds c ty) / NS), u32_or_max (snd (pos_bounds c ty) / NS)).
Proof. unfold pos_bounds_secs. now destruct (pos_bounds c ty). Qed.

Lemma stored_ttl_le c r : wf_cfg c -> stored_ttl c r <= U32MAX.
Proof.
  intros Hc. destruct (Hc (rty r)) as (_ & _ & Ho). unfold stored_ttl.
  (* whatever was received: the upper bound in whole seconds is a u32 *)
  apply N.le_trans with (snd (pos_bounds_secs c (rty r))); [now apply clamp_spec_range|].
  rewrite pos_bounds_secs_eq. apply u32_or_max_le.
Qed.

Lemma clamp_rrs_ok c l : wf_cfg c -> clamp_rrs c l = Some (map (stored_rr c) l).
Proof.
  intros Hc. induction l as [|r l IH]; cbn [clamp_rrs map]; [reflexivity|].
  destruct (Hc (rty r)) as (_ & _ & Ho). unfold ordered in Ho.
  change (stored_rr c r) with (RR (rty r) (stored_ttl c r)). unfold stored_ttl.
  destruct (pos_bounds_secs c (rty r)) as [lo hi]. cbn [fst snd] in *.
  rewrite (clamp_ok lo hi (rttl r) Ho), IH. reflexivity.
Qed.

Lemma sections_stored c m : sections (stored_msg c m) = map (stored_rr c) (sections m).
Proof. unfold sections, stored_msg. cbn [ans auth addl]. now rewrite !map_app. Qed.

Lemma stored_msg_wf c m : wf_cfg c -> wf_msg (stored_msg c m).
Proof.
  intros Hc. unfold wf_msg. rewrite sections_stored. apply Forall_forall. intros r Hi.
  apply in_map_iff in Hi. destruct Hi as (r0 & <- & _). now apply stored_ttl_le.
Qed.

(* [f]: [stored_rr c], or the identity *)
Lemma min_ttl_map_spec qt (f : rr -> rr) l : (forall r, matches qt (f r) = matches qt r) ->
  match min_ttl qt (map f l) with
  | None => forall r, In r l -> matches qt r = false
  | Some m => exists r, In r l /\ matches qt r = true /\ rttl (f r) = m /\
                        (forall r', In r' l -> matches qt r' = true -> m <= rttl (f r'))
  end.
Proof.
  intros Hf. induction l as [|r l IH]; cbn [map min_ttl]; [easy|]. rewrite Hf.
  destruct (matches qt r) eqn:Em; destruct (min_ttl qt (map f l)) as [m'|].
  - destruct IH as (r0 & Hi & Hm & Ht & Hmin).
    destruct (N.min_spec (rttl (f r)) m') as [[Hlt ->]|[Hle ->]].
    + exists r. repeat split; [now left|exact Em|].
      intros r' [<-|Hi'] Hm'; [lia|]. specialize (Hmin r' Hi' Hm'). lia.
    + exists r0. repeat split; [now right|exact Hm|exact Ht|].
      intros r' [<-|Hi'] Hm'; [lia|now apply Hmin].
  - exists r. repeat split; [now left|exact Em|].
    intros r' [<-|Hi'] Hm'; [lia|]. rewrite (IH r' Hi') in Hm'. discriminate.
  - destruct IH as (r0 & Hi & Hm & Ht & Hmin). exists r0. repeat split; [now right|exact Hm|exact Ht|].
    intros r' [<-|Hi'] Hm'; [congruence|now apply Hmin].
  - intros r' [<-|Hi']; [exact Em|now apply IH].
Qed.

Lemma clamp_positive_ok c qt m : wf_cfg c ->
  clamp_positive c qt m = Some (raw_lifetime c qt (stored_msg c m), stored_msg c m).
Proof.
  intros Hc. unfold clamp_positive. rewrite !clamp_rrs_ok by exact Hc.
  fold (stored_msg c m). unfold raw_lifetime.
  destruct (Hc qt) as (Ho & _ & _). unfold ordered in Ho.
  destruct (pos_bounds c qt) as [lo hi]. cbn [fst snd] in *.
  rewrite (clamp_ok lo hi _ Ho). reflexivity.
Qed.

Lemma is_lifetime_iff c qt m L : wf_cfg c ->
  is_lifetime c qt m L <-> L = raw_lifetime c qt (stored_msg c m).
Proof.
  intros Hc. destruct (Hc qt) as (Ho & _ & _). unfold ordered in Ho.
  unfold is_lifetime, raw_lifetime. cbv zeta. rewrite sections_stored.
  set (lo := fst (pos_bounds c qt)) in *. set (hi := snd (pos_bounds c qt)) in *.
  pose proof (min_ttl_map_spec qt (stored_rr c) (sections m) (fun _ => eq_refl)) as Hsp.
  destruct (min_ttl qt (map (stored_rr c) (sections m))) as [s|].
  - destruct Hsp as (r0 & Hi0 & Hm1 & <- & Hmin0). cbn [rttl stored_rr] in *. split.
    + intros (_ & _ & Hx). destruct Hx as (r & Hi & Hm & Hminr & ->); [now exists r0|].
      pose proof (Hminr r0 Hi0 Hm1). pose proof (Hmin0 r Hi Hm).
      replace (stored_ttl c r) with (stored_ttl c r0) by lia. reflexivity.
    + intros ->. split; [now apply clamp_spec_range|]. split.
      * intros Hno. rewrite (Hno r0 Hi0) in Hm1. discriminate.
      * intros _. now exists r0.
  - replace (clamp_spec lo hi lo) with lo by (unfold clamp_spec; lia). split.
    + intros (_ & Hn & _). exact (Hn Hsp).
    + intros ->. split; [lia|]. split; [reflexivity|].
      intros (r & Hi & Hm). rewrite (Hsp r Hi) in Hm. discriminate.
Qed.

Lemma stored_le_raw c r :
  stored_ttl c r * NS <= clamp_spec (fst (pos_bounds c (rty r))) (snd (pos_bounds c (rty r))) (rttl r * NS).
Proof.
  unfold stored_ttl. rewrite pos_bounds_secs_eq. destruct (pos_bounds c (rty r)) as [lo hi]. cbn [fst snd].
  (* the bounds in seconds are rounded down (beyond u32::MAX, replaced by the smaller MAX_TTL) *)
  assert (Hb : forall b, u32_or_max (b / NS) * NS <= b).
  { intros b. apply N.le_trans with (b / NS * NS); [apply N.mul_le_mono_r, u32_or_max_le|apply NS_floor]. }
  (* scaling by NS commutes with clamping *)
  unfold clamp_spec. rewrite <- N.mul_max_distr_r, <- N.mul_min_distr_r.
  apply N.max_le_compat; [apply Hb|apply N.min_le_compat_r, Hb].
Qed.

Lemma lifetime_le_raw c qt m L : same_bounds c qt m -> is_lifetime c qt m L -> L <= raw_lifetime c qt m.
Proof.
  intros Hs (_ & Hn & Hx).
  unfold raw_lifetime. cbv zeta in *.
  set (lo := fst (pos_bounds c qt)) in *. set (hi := snd (pos_bounds c qt)) in *.
  pose proof (min_ttl_map_spec qt (fun r => r) (sections m) (fun _ => eq_refl)) as Hsp.
  rewrite map_id in Hsp. destruct (min_ttl qt (sections m)) as [s|].
  - (* r0: smallest received TTL s; r: smallest stored one; r0 is under [lo, hi]:
       L = clamp (stored r * NS) <= clamp (stored r0 * NS) <= clamp (clamp (s * NS)) = clamp (s * NS) *)
    destruct Hsp as (r0 & Hi0 & Hm0 & Ht0 & _).
    destruct (Hx (ex_intro _ r0 (conj Hi0 Hm0))) as (r & Hi & Hm & Hmin & ->).
    specialize (Hmin r0 Hi0 Hm0).
    pose proof (stored_le_raw c r0) as Hle. rewrite (Hs r0 Hi0 Hm0), Ht0 in Hle. fold lo hi in Hle.
    rewrite <- (clamp_spec_idem lo hi (s * NS)).
    apply clamp_spec_mono. unfold NS in *. lia.
  - rewrite (Hn Hsp). unfold clamp_spec. lia.
Qed.

(* L and the stored result as functions; a transient error is not stored, its 0 is arbitrary *)
Definition lifetime (c : cfg) (q : key) (r : result) : N :=
  match r with
  | ROk m => raw_lifetime c (qtype q) (stored_msg c m)
  | RNoRec n => neg_lifetime c (qtype q) n
  | RErr _ => 0
  end.

Lemma lifetime_of_iff c q r L : wf_cfg c ->
  lifetime_of c q r L <-> cacheable r = true /\ L = lifetime c q r.
Proof.
  intros Hc. destruct r as [m|n|k]; cbn [lifetime_of lifetime cacheable]; [|easy|easy].
  rewrite is_lifetime_iff by exact Hc. easy.
Qed.

Definition stored_res (c : cfg) (r : result) : result :=
  match r with ROk m => ROk (stored_msg c m) | _ => r end.

Lemma insert_ok c s q r t : wf_cfg c ->
  insert c s q r t =
  Done (if cacheable r then upsert q (E (stored_res c r) t (t + lifetime c q r)) s else s).
Proof.
  intros Hc. destruct r as [m|n|k]; cbn [insert cacheable stored_res lifetime]; [| |reflexivity].
  - now rewrite clamp_positive_ok.
  - destruct (Hc (qtype q)) as (_ & Ho & _). unfold neg_lifetime, ordered in *.
    destruct (neg_bounds c (qtype q)) as [lo hi]. cbn [fst snd] in *.
    destruct (nttl n) as [x|]; [now rewrite clamp_ok|reflexivity].
Qed.

(* [elapsed_secs] saturates at u32::MAX, [whole_secs] does not: no difference on u32 TTLs (wf_hist) *)
Lemma dec_sat e x : x <= U32MAX -> dec (N.min e U32MAX) x = dec e x.
Proof. unfold dec. lia. Qed.

Lemma map_dec_sat e l : u32_list l -> map (dec (N.min e U32MAX)) l = map (dec e) l.
Proof.
  unfold u32_list. rewrite Forall_forall. intros H. apply map_ext_in. intros x Hi. apply dec_sat. auto.
Qed.

Lemma map_dec_rr_sat e l : Forall wf_rr l ->
  map (dec_rr (N.min e U32MAX)) l = map (dec_rr e) l.
Proof.
  rewrite Forall_forall. intros H. apply map_ext_in. intros r Hi. unfold dec_rr. f_equal.
  apply dec_sat. exact (H r Hi).
Qed.

Lemma dec_msg_sat e m : wf_msg m -> dec_msg (N.min e U32MAX) m = dec_msg e m.
Proof.
  unfold wf_msg, sections. rewrite !Forall_app. intros (Ha & Hb & Hd).
  unfold dec_msg. now rewrite !map_dec_rr_sat.
Qed.

Lemma dec_neg_sat e n : wf_neg n -> dec_neg (N.min e U32MAX) n = dec_neg e n.
Proof.
  intros (Httl & Hsoa & Hauth & Hns). unfold dec_neg. f_equal; apply option_map_ext_in; intros x Hx.
  - apply dec_sat, Httl, Hx.
  - apply dec_sat, Hsoa, Hx.
  - apply map_dec_sat, Hauth, Hx.
  - apply map_ext_in. intros p Hi. specialize (Hns x Hx). rewrite Forall_forall in Hns.
    destruct (Hns p Hi). f_equal; [now apply dec_sat|now apply map_dec_sat].
Qed.

Lemma updated_countdown c r ti vu_ t : wf_cfg c -> wf_res r ->
  updated (E (stored_res c r) ti vu_) t = countdown c r (whole_secs ti t).
Proof.
  intros Hc Hw. unfold updated, elapsed_secs, whole_secs. cbn [t0 eres].
  destruct r as [m|n|k]; cbn [stored_res countdown wf_res] in *; f_equal.
  - apply dec_msg_sat. now apply stored_msg_wf.
  - now apply dec_neg_sat.
Qed.

Lemma elapsed_mono t0 t1 t2 : t1 <= t2 -> elapsed_secs t0 t1 <= elapsed_secs t0 t2.
Proof.
  intros H. unfold elapsed_secs. apply N.min_le_compat_r. apply N.div_le_mono; [unfold NS; lia|lia].
Qed.

Lemma dec_anti e1 e2 x : e1 <= e2 -> dec e2 x <= dec e1 x.
Proof. unfold dec. lia. Qed.

Lemma updated_mono e t1 t2 : cacheable (eres e) = true -> t1 <= t2 -> res_le (updated e t2) (updated e t1).
Proof.
  intros Hca Ht. pose proof (elapsed_mono (t0 e) t1 t2 Ht) as He. unfold updated.
  assert (Hd : forall x, dec (elapsed_secs (t0 e) t2) x <= dec (elapsed_secs (t0 e) t1) x)
    by (intros x; now apply dec_anti).
  destruct (eres e) as [m|n|k]; [| |discriminate]; cbn [res_le].
  - unfold msg_le, dec_msg. cbn [ans auth addl].
    repeat split; apply Forall2_map_same; intros r; (split; [reflexivity|apply Hd]).
  - unfold neg_le, dec_neg. cbn [nttl nsoa nauth nns]. repeat split.
    + destruct (nttl n); cbn; [apply Hd|exact I].
    + destruct (nsoa n); cbn; [apply Hd|exact I].
    + destruct (nauth n); cbn; [now apply Forall2_map_same|exact I].
    + destruct (nns n); cbn; [|exact I].
      apply Forall2_map_same. intros p. split; [apply Hd|now apply Forall2_map_same].
Qed.

Lemma negative_ttl_app l1 l2 :
  Forall (fun a => aminimum a = None) l1 -> negative_ttl (l1 ++ l2) = negative_ttl l2.
Proof. induction 1 as [|a l1 Ha _ IH]; cbn [app negative_ttl]; [reflexivity|now rewrite Ha]. Qed.

Lemma negative_ttl_cases l :
  match negative_ttl l with
  | Some x => exists l1 r l2 m, l = l1 ++ r :: l2 /\ Forall (fun a => aminimum a = None) l1 /\
                                aminimum r = Some m /\ x = N.min (attl r) m
  | None => Forall (fun a => aminimum a = None) l
  end.
Proof.
  induction l as [|a l IH]; cbn [negative_ttl]; [constructor|].
  destruct (aminimum a) as [m|] eqn:Em; [now exists [], a, l, m|].
  destruct (negative_ttl l) as [x|]; [|now constructor].
  destruct IH as (l1 & r & l2 & m & -> & Hf & Hm & ->). exists (a :: l1), r, l2, m. auto.
Qed.

Definition bounds_okb (b : bounds) : bool :=
  let plo := odflt (pmin b) 0 in let phi := odflt (pmax b) (MAX_TTL * NS) in
  let nlo := odflt (nmin b) 0 in let nhi := odflt (nmax b) (MAX_TTL * NS) in
  (plo <=? phi) && (nlo <=? nhi) && (u32_or_max (plo / NS) <=? u32_or_max (phi / NS)).

(* implies wf_cfg; not conversely: shadowed entries of [by_type] are tested too *)
Definition wf_cfgb (c : cfg) : bool := bounds_okb (dflt c) && forallb (fun p => bounds_okb (snd p)) (by_type c).

Lemma wf_cfgb_sound c : wf_cfgb c = true -> wf_cfg c.
Proof.
  unfold wf_cfgb. rewrite andb_true_iff, forallb_forall. intros [Hd Hl] ty.
  assert (Hb : bounds_okb (bounds_for c ty) = true).
  { unfold bounds_for. destruct (assoc ty (by_type c)) as [b|] eqn:Ea; [|exact Hd].
    apply assoc_in in Ea. exact (Hl _ Ea). }
  unfold bounds_okb in Hb. cbv zeta in Hb. rewrite !andb_true_iff, !N.leb_le in Hb.
  destruct Hb as [[H1 H2] H3].
  unfold ordered. rewrite pos_bounds_secs_eq. unfold pos_bounds, neg_bounds. cbn [fst snd].
  repeat split; assumption.
Qed.

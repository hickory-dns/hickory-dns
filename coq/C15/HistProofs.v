(* C15 — whole histories: under ordered bounds the store holds for a query exactly what the last
   cacheable insertion nothing touched since wrote, with its lifetime; between refreshes TTLs
   only count down. *)
From HV Require Import Lib.Base C15.Model C15.CacheProofs C15.TtlProofs.
Open Scope N_scope.

Lemma lookup_last_insert c h0 q r t0 h1 : wf_cfg c -> cacheable r = true -> untouched q h1 ->
  lookup q (after c (h0 ++ OIns q r t0 :: h1)) = Some (E (stored_res c r) t0 (t0 + lifetime c q r)).
Proof.
  intros Hc Hca Hu. rewrite lookup_last_touch by exact Hu. cbn [step].
  rewrite insert_ok, Hca by exact Hc. cbn [fst]. now rewrite lookup_upsert, key_eqb_refl.
Qed.

Lemma lookup_after_inv c h q e : wf_cfg c -> lookup q (after c h) = Some e ->
  exists h0 r t0 h1, h = h0 ++ OIns q r t0 :: h1 /\ untouched q h1 /\ cacheable r = true /\
                     e = E (stored_res c r) t0 (t0 + lifetime c q r).
Proof.
  intros Hc Hl. destruct (last_touch q h) as [Hu|(h0 & o & h1 & -> & Ht & Hu)].
  - unfold after in Hl. rewrite lookup_run_untouched in Hl by exact Hu. discriminate.
  - destruct o as [q' r t0|q' t| |q']; cbn [touches] in Ht; try discriminate.
    + apply andb_true_iff in Ht. destruct Ht as [Hk Hca]. apply key_eqb_eq in Hk. subst q'.
      rewrite lookup_last_insert in Hl by assumption. inversion Hl. now exists h0, r, t0, h1.
    + rewrite lookup_last_touch in Hl by exact Hu. discriminate.
    + rewrite lookup_last_touch in Hl by exact Hu. cbn [step fst] in Hl.
      rewrite lookup_remove, Ht in Hl. discriminate.
Qed.

Lemma monotone c h h' q t1 t2 r1 r2 : untouched q h' -> t1 <= t2 ->
  get (after c h) q t1 = Some r1 -> get (after c (h ++ h')) q t2 = Some r2 -> res_le r2 r1.
Proof.
  intros Hu Ht H1 H2. apply get_some in H1, H2.
  destruct H1 as (e1 & Hl1 & _ & ->). destruct H2 as (e2 & Hl2 & _ & ->).
  rewrite after_app, lookup_run_untouched, Hl1 in Hl2 by exact Hu. inversion Hl2; subst e2.
  apply updated_mono; [|exact Ht]. eapply lookup_after_cacheable, Hl1.
Qed.

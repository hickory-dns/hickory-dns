(* C15 — property theorems.  A history [h] is any list of insert / get / clear / drop operations
   (drop = clear_query, or moka evicting the entry on its own) with ARBITRARY instants (they need
   not even be non-decreasing); [after c h] is the cache after [h] from the empty cache.
   [wf_cfg c], every configured-or-default (min, max) pair ordered, delimits the configurations
   of the statement.  The vocabulary is the specification part of Model.v. *)
From HV Require Import Lib.Base C15.Model C15.CacheProofs C15.TtlProofs C15.HistProofs.
Open Scope N_scope.

(* wf_hist / wf_msg of concrete values: bounds [k <= U32MAX] decided by evaluation, those of
   wf_neg after inverting their premise [Some k = Some x] *)
Ltac wf_tac :=
  repeat first
    [ constructor
    | let E := fresh in intros ? E; inversion E; subst
    | vm_compute; discriminate ].

(* Expiry + TTL formula, positive and negative: whatever the history, a hit comes from the last
   cacheable insertion for that query that nothing touched since, at most L after it, and every
   TTL it reports is the stored (per-type clamped) TTL minus the whole seconds elapsed. *)
Theorem C15_hit_sound : forall c h q t r, wf_cfg c -> wf_hist h ->
  get (after c h) q t = Some r ->
  exists h0 res t0 h1 L,
    h = h0 ++ OIns q res t0 :: h1 /\ untouched q h1 /\ cacheable res = true /\
    lifetime_of c q res L /\ t <= t0 + L /\ r = countdown c res (whole_secs t0 t).
Proof.
  intros c h q t r Hc Hw Hg. apply get_some in Hg. destruct Hg as (e & Hl & Hle & ->).
  destruct (lookup_after_inv c h q e Hc Hl) as (h0 & res & t0 & h1 & -> & Hu & Hca & ->).
  exists h0, res, t0, h1, (lifetime c q res). repeat split; try assumption.
  - now apply lifetime_of_iff.
  - apply updated_countdown; [exact Hc|exact (Forall_elt _ _ _ Hw)].
Qed.
Print Assumptions C15_hit_sound.

(* The converse (the model has no eviction of its own: that is the operation ODrop): an
   insertion nothing touched is served at every instant up to and including t0 + L ... *)
Theorem C15_hit_complete : forall c h0 q res t0 h1 t L,
  wf_cfg c -> wf_res res -> cacheable res = true -> untouched q h1 ->
  lifetime_of c q res L -> t <= t0 + L ->
  get (after c (h0 ++ OIns q res t0 :: h1)) q t = Some (countdown c res (whole_secs t0 t)).
Proof.
  intros c h0 q res t0 h1 t L Hc Hw Hca Hu HL Hle. apply lifetime_of_iff in HL; [|exact Hc].
  destruct HL as [_ ->]. apply get_some. eexists. split; [now apply lookup_last_insert|].
  split; [exact Hle|]. symmetry. now apply updated_countdown.
Qed.
Print Assumptions C15_hit_complete.

(* ... and at no later instant. *)
Theorem C15_miss_after_expiry : forall c h0 q res t0 h1 t L,
  wf_cfg c -> cacheable res = true -> untouched q h1 ->
  lifetime_of c q res L -> t0 + L < t ->
  get (after c (h0 ++ OIns q res t0 :: h1)) q t = None.
Proof.
  intros c h0 q res t0 h1 t L Hc Hca Hu HL Hlt. apply lifetime_of_iff in HL; [|exact Hc].
  destruct HL as [_ ->]. unfold get. rewrite lookup_last_insert by assumption. cbn [vu].
  destruct (N.leb_spec t (t0 + lifetime c q res)); [lia|reflexivity].
Qed.
Print Assumptions C15_miss_after_expiry.

(* Between refreshes TTLs never increase: two hits for a query with nothing touching it in
   between, the later one reports pointwise smaller-or-equal TTLs (every configuration). *)
Theorem C15_monotone : forall c h h' q t1 t2 r1 r2,
  untouched q h' -> t1 <= t2 ->
  get (after c h) q t1 = Some r1 -> get (after c (h ++ h')) q t2 = Some r2 -> res_le r2 r1.
Proof. exact monotone. Qed.
Print Assumptions C15_monotone.

(* Transient errors are never cached: inserting one changes nothing, no get ever returns one,
   and a query for which the history holds no cacheable insertion is a miss (every
   configuration, every history). *)
Theorem C15_transient_not_cached : forall c,
  (forall s q k t, insert c s q (RErr k) t = Done s) /\
  (forall h q t k, get (after c h) q t <> Some (RErr k)) /\
  (forall h q t, untouched q h -> get (after c h) q t = None).
Proof.
  intros c. split; [reflexivity|]. split.
  - intros h q t k Hg. apply get_some in Hg. destruct Hg as (e & Hl & _ & Hr).
    apply lookup_after_cacheable in Hl. unfold updated in Hr. destruct (eres e); discriminate.
  - intros h q t Hu. unfold get, after. now rewrite lookup_run_untouched.
Qed.
Print Assumptions C15_transient_not_cached.

(* insert never panics — refuted: a minimum of two days with the maximum left at its default
   (one day) makes u32::clamp panic on the first record (DESIGN §10 F10) ... *)
Theorem C15_no_panic_refuted :
  exists c h, wf_hist h /\ In VPanic (snd (run c [] h)).
Proof.
  exists two_day_min, [OIns (0, 1) (ROk (Msg [RR 1 60] [] [])) 0]. split.
  - wf_tac.
  - vm_compute. now left.
Qed.
Print Assumptions C15_no_panic_refuted.

(* ... and even bounds that are ordered as Durations can panic, because whole seconds above
   u32::MAX are replaced by MAX_TTL before the record clamp. *)
Theorem C15_no_panic_duration_ordered_refuted :
  exists c h, dur_ordered c /\ wf_hist h /\ In VPanic (snd (run c [] h)).
Proof.
  exists beyond_u32, [OIns (0, 1) (ROk (Msg [RR 1 60] [] [])) 0]. split; [|split].
  - intros ty. unfold ordered, pos_bounds, neg_bounds, bounds_for. cbn [by_type beyond_u32 assoc dflt].
    vm_compute. split; discriminate.
  - wf_tac.
  - vm_compute. now left.
Qed.
Print Assumptions C15_no_panic_duration_ordered_refuted.

(* Guarded: with every (min, max) pair ordered — as Durations and as the whole seconds the
   record clamp uses — no operation of any history panics. *)
Theorem C15_no_panic_guarded : forall c h s, wf_cfg c -> ~ In VPanic (snd (run c s h)).
Proof.
  intros c h s Hc. revert s. induction h as [|o h IH]; intros s; cbn [run]; [intros []|].
  destruct (step c s o) as [s1 v] eqn:Es. specialize (IH s1). destruct (run c s1 h) as [s2 vs].
  cbn [snd] in *. intros [->|Hi]; [|contradiction].
  destruct o as [q r t|q t| |q]; cbn [step] in Es; try discriminate.
  (* OIns, the one operation that can observe VPanic: under wf_cfg it is Done *)
  rewrite insert_ok in Es by exact Hc. discriminate.
Qed.
Print Assumptions C15_no_panic_guarded.

(* The negative TTL a hit REPORTS is the received one minus the elapsed seconds; unlike the
   record TTLs of positive answers it is not clamped to the negative bounds.  "A reported
   negative TTL never points beyond the entry's own expiry" is therefore refuted
   (negative_max_ttl = 5 s, received negative TTL 10: reported 10 at the instant of insertion) *)
Theorem C15_negative_reported_ttl_refuted :
  exists c h q t n x t0 L,
    wf_cfg c /\ wf_hist h /\ h = [OIns q (RNoRec n) t0] /\ lifetime_of c q (RNoRec n) L /\
    get (after c h) q t = Some (RNoRec (dec_neg (whole_secs t0 t) n)) /\
    nttl (dec_neg (whole_secs t0 t) n) = Some x /\ t0 + L + NS <= t + x * NS.
Proof.
  exists neg_max_5, [OIns (0, 1) (RNoRec (Neg (Some 10) None None None)) 0], (0, 1), 0,
         (Neg (Some 10) None None None), 10, 0, (5 * NS).
  split; [apply wf_cfgb_sound; reflexivity|].
  split; [wf_tac|].
  do 4 (split; [reflexivity|]).
  vm_compute. discriminate.
Qed.
Print Assumptions C15_negative_reported_ttl_refuted.

(* Guarded: when the received negative TTL lies within the configured negative bounds, the
   reported negative TTL of every hit ends less than one second after the entry's expiry. *)
Theorem C15_negative_reported_ttl_guarded : forall c q n t0 t x0,
  nttl n = Some x0 ->
  fst (neg_bounds c (qtype q)) <= x0 * NS <= snd (neg_bounds c (qtype q)) ->
  t0 <= t <= t0 + neg_lifetime c (qtype q) n ->
  forall x, nttl (dec_neg (whole_secs t0 t) n) = Some x ->
  t + x * NS < t0 + neg_lifetime c (qtype q) n + NS.
Proof.
  intros c q n t0 t x0 Hn [Hlo Hhi] Hle x Hx. revert Hle. unfold neg_lifetime. rewrite Hn.
  unfold dec_neg in Hx. cbn [nttl] in Hx. rewrite Hn in Hx. cbn in Hx. inversion Hx; subst x; clear Hx.
  unfold clamp_spec, dec, whole_secs. pose proof (NS_floor (t - t0)). unfold NS in *. lia.
Qed.
Print Assumptions C15_negative_reported_ttl_guarded.

(* The other reading of L — the smallest RECEIVED TTL of the query type / CNAME clamped to the
   query type's bounds — is refuted: records are first clamped by the bounds of their own type,
   so a CNAME with its own minimum of 100 s keeps an A answer alive for 100 s although the
   received CNAME TTL was 5 s and the A bounds would leave it at 5 s. *)
Theorem C15_raw_ttl_reading_refuted :
  exists c q m t, wf_cfg c /\ wf_msg m /\
    raw_lifetime c (qtype q) m < t /\ get (after c [OIns q (ROk m) 0]) q t <> None.
Proof.
  exists cname_min_100, (0, 1), (Msg [RR 5 5] [] []), (100 * NS).
  split; [apply wf_cfgb_sound; reflexivity|]. split; [wf_tac|].
  split; [vm_compute; reflexivity|vm_compute; discriminate].
Qed.
Print Assumptions C15_raw_ttl_reading_refuted.

(* Guarded: when the records that determine L fall under the same bounds as the query type
   (e.g. no per-type override for CNAME) and the maximum is below 2^32 s, no answer is served
   later than the received-TTL reading allows (it may expire earlier, by less than a second,
   when the maximum is not a whole number of seconds). *)
Theorem C15_raw_ttl_reading_guarded : forall c h0 q m t0 h1 t r,
  wf_cfg c -> same_bounds c (qtype q) m -> snd (pos_bounds c (qtype q)) / NS <= U32MAX ->
  untouched q h1 ->
  get (after c (h0 ++ OIns q (ROk m) t0 :: h1)) q t = Some r -> t <= t0 + raw_lifetime c (qtype q) m.
Proof.
  intros c h0 q m t0 h1 t r Hc Hs _ Hun Hg.
  pose proof (proj2 (is_lifetime_iff c (qtype q) m _ Hc) eq_refl) as HL.
  pose proof (lifetime_le_raw c (qtype q) m _ Hs HL) as Hle.
  (* later than that is later than t0 + L, where C15_miss_after_expiry has a miss *)
  apply N.le_ngt. intros Hlt.
  rewrite (C15_miss_after_expiry c h0 q (ROk m) t0 h1 t _ Hc eq_refl Hun HL) in Hg by lia. discriminate.
Qed.
Print Assumptions C15_raw_ttl_reading_guarded.

(* DnsResponse::negative_ttl: the negative TTL of a response is min(TTL, MINIMUM) of the first
   SOA of the authority section, absent iff there is no SOA. *)
Theorem C15_negative_ttl_derivation : forall l,
  (forall x, negative_ttl l = Some x <->
     exists l1 r l2 m, l = l1 ++ r :: l2 /\ Forall (fun a => aminimum a = None) l1 /\
                       aminimum r = Some m /\ x = N.min (attl r) m) /\
  (negative_ttl l = None <-> Forall (fun a => aminimum a = None) l).
Proof.
  intros l. pose proof (negative_ttl_cases l) as Hc. split; [intros x|]; split.
  - intros E. now rewrite E in Hc.
  - intros (l1 & r & l2 & m & -> & Hf & Hm & ->).
    rewrite negative_ttl_app by exact Hf. cbn [negative_ttl]. now rewrite Hm.
  - intros E. now rewrite E in Hc.
  - intros Hf. rewrite <- (app_nil_r l). now apply negative_ttl_app.
Qed.
Print Assumptions C15_negative_ttl_derivation.

(* CachingClient::lookup (shapes of Model.v: A query, A answers of the query name, NS/SOA
   authority): a failed upstream call or an error response code (FormErr, ServFail, NotImp,
   Refused, YX/NX-RRSet..., BADSIG...) is returned without touching the cache; what is inserted is
   either the positive answer, or the NoRecords of a non-truncated NoError/NXDomain response
   without answers, carrying the negative TTL of C15_negative_ttl_derivation. *)
Theorem C15_caching_client_inserts : forall u,
  (uerr u = true \/ rcode_is_error (urc u) = true -> cc_lookup u = (RErr 99, None)) /\
  (forall r, snd (cc_lookup u) = Some r ->
     uerr u = false /\ rcode_is_error (urc u) = false /\ cacheable r = true /\
     ((exists n, r = RNoRec n /\ nttl n = negative_ttl (uauth u) /\ uans u = [] /\ utc u = false /\
                 (urc u = 0 \/ urc u = 3)) \/
      (exists m, r = ROk m /\ uans u <> [] /\ ans m = map (RR 1) (uans u)))).
Proof.
  intros u. unfold cc_lookup, from_response. split.
  - intros [H|H]; rewrite H; [reflexivity|now destruct (uerr u)].
  - intros r. destruct (uerr u); [discriminate|].
    destruct (rcode_is_error (urc u)); [discriminate|].
    destruct (uans u) as [|a l] eqn:Ea; cbn [negb andb].
    + destruct ((urc u =? 0) || (urc u =? 3)) eqn:Erc; cbn [andb]; [|discriminate].
      destruct (utc u); cbn [negb snd]; [discriminate|].
      intros E; inversion E; subst r; clear E. repeat split. left. eexists. repeat split.
      apply orb_true_iff in Erc. destruct Erc as [H|H]; apply N.eqb_eq in H; auto.
    + rewrite !andb_false_r. cbn [snd]. intros E; inversion E; subst r; clear E.
      repeat split. right. eexists. repeat split. discriminate.
Qed.
Print Assumptions C15_caching_client_inserts.

(* per-type bounds (CNAME minimum 100 s, A maximum 50 s, sub-second default minimum), mixed
   sections, a re-insert while live, a transient error, another query, a drop of another query *)
Definition ex_cfg : cfg :=
  Cfg (B (Some (2 * NS + 500000000)) (Some (3 * NS)) None (Some (60 * NS)))
      [(5, B (Some (100 * NS)) None None None); (1, B None None (Some (50 * NS)) None)].
Definition ex_msg : msg := Msg [RR 5 5; RR 1 70] [RR 2 7] [RR 1 90; RR 28 1].
Definition ex_hist : list op :=
  [OIns (0, 1) (ROk (Msg [RR 1 10] [] [])) 0; OGet (0, 1) NS;
   OIns (0, 1) (ROk ex_msg) (4 * NS);
   OIns (0, 1) (RErr 2) (5 * NS); OIns (1, 28) (RNoRec (Neg (Some 1) (Some 9) (Some [9; 4]) (Some [(8, [7])]))) (5 * NS);
   ODrop (1, 1); OGet (1, 28) (6 * NS)].

(* what the history leaves: the negative entry (valid for 3 s from 5 s) and the re-inserted
   answer with its TTLs clamped per type (valid for 50 s from 4 s) *)
Lemma ex_after : after ex_cfg ex_hist =
  [((1, 28), E (RNoRec (Neg (Some 1) (Some 9) (Some [9; 4]) (Some [(8, [7])]))) (5 * NS) (8 * NS));
   ((0, 1), E (ROk (Msg [RR 5 100; RR 1 50] [RR 2 7] [RR 1 50; RR 28 2])) (4 * NS) (54 * NS))].
Proof. vm_compute. reflexivity. Qed.

Example C15_ex_wf : wf_cfg ex_cfg /\ wf_hist ex_hist.
Proof.
  split; [apply wf_cfgb_sound; reflexivity|].
  wf_tac.
Qed.

(* the stored answer: CNAME 5 -> 100 (own minimum), A 70 -> 50 (own maximum), NS 7 -> 7;
   L = min(100, 50, 50) s clamped to A's [0, 50 s] = 50 s; the hit at exactly t0 + L *)
Example C15_ex_hit :
  untouched (0, 1) (skipn 3 ex_hist) /\
  lifetime_of ex_cfg (0, 1) (ROk ex_msg) (50 * NS) /\
  get (after ex_cfg ex_hist) (0, 1) (54 * NS) =
    Some (ROk (Msg [RR 5 50; RR 1 0] [RR 2 0] [RR 1 0; RR 28 0])) /\
  get (after ex_cfg ex_hist) (0, 1) (54 * NS + 1) = None /\
  get (after ex_cfg ex_hist) (0, 1) (10 * NS + 999999999) =
    Some (ROk (Msg [RR 5 94; RR 1 44] [RR 2 1] [RR 1 44; RR 28 0])).
Proof.
  split; [repeat constructor|]. split; [|rewrite ex_after; repeat split; reflexivity].
  apply (lifetime_of_iff _ _ _ _ (proj1 C15_ex_wf)). split; reflexivity.
Qed.

(* negative entry: negative TTL 1 s raised to the negative minimum 3 s; reported TTLs count
   down from the received values *)
Example C15_ex_negative :
  lifetime_of ex_cfg (1, 28) (RNoRec (Neg (Some 1) (Some 9) (Some [9; 4]) (Some [(8, [7])]))) (3 * NS) /\
  get (after ex_cfg ex_hist) (1, 28) (8 * NS) =
    Some (RNoRec (Neg (Some 0) (Some 6) (Some [6; 1]) (Some [(5, [4])]))) /\
  get (after ex_cfg ex_hist) (1, 1) (8 * NS + 1) = None.
Proof. rewrite ex_after. repeat split; reflexivity. Qed.

(* monotone: two hits with a transient insert and foreign operations in between *)
Example C15_ex_monotone :
  let h := firstn 3 ex_hist in let h' := skipn 3 ex_hist in
  untouched (0, 1) h' /\
  exists r1 r2, get (after ex_cfg h) (0, 1) (5 * NS) = Some r1 /\
                get (after ex_cfg (h ++ h')) (0, 1) (20 * NS) = Some r2 /\ r1 <> r2.
Proof.
  cbv zeta. split; [repeat constructor|].
  vm_compute. do 2 eexists. repeat split. discriminate.
Qed.

(* the guard of C15_negative_reported_ttl_guarded is met (negative TTL 10 within [3 s, 60 s]) *)
Example C15_ex_negative_guard :
  let n := Neg (Some 10) None None None in
  nttl n = Some 10 /\
  fst (neg_bounds ex_cfg 28) <= 10 * NS <= snd (neg_bounds ex_cfg 28) /\
  7 * NS <= 11 * NS + 5 <= 7 * NS + neg_lifetime ex_cfg 28 n /\
  nttl (dec_neg (whole_secs (7 * NS) (11 * NS + 5)) n) = Some 6.
Proof.
  cbv zeta. split; [reflexivity|]. split; [|split; [|reflexivity]].
  all: vm_compute; split; discriminate.
Qed.

Example C15_ex_negative_ttl :
  negative_ttl [AR 30 None; AR 300 (Some 60); AR 5 (Some 1)] = Some 60 /\
  negative_ttl [AR 30 None] = None.
Proof. split; reflexivity. Qed.

(* the guard of C15_raw_ttl_reading_guarded is met by a per-type configuration: AAAA query,
   AAAA records only (default bounds for both), sub-second default minimum *)
Example C15_ex_raw_guard :
  let m := Msg [RR 28 1; RR 28 9] [RR 2 3] [] in
  same_bounds ex_cfg 28 m /\ snd (pos_bounds ex_cfg 28) / NS <= U32MAX /\
  raw_lifetime ex_cfg 28 m = 2 * NS + 500000000 /\
  get (after ex_cfg [OIns (0, 28) (ROk m) 0]) (0, 28) (2 * NS + 500000000) <> None.
Proof.
  cbv zeta. split; [|split; [|split]].
  - (* the AAAA records have the default bounds, like the query type; NS does not match *)
    intros r Hi Hm. cbn [sections ans auth addl app] in Hi.
    destruct Hi as [<-|[<-|[<-|[]]]]; [reflexivity|reflexivity|discriminate].
  - vm_compute. discriminate.
  - reflexivity.
  - vm_compute. discriminate.
Qed.

(* caching client: ServFail is returned uncached; an NXDomain with an SOA is cached for
   min(TTL, MINIMUM) = 60 s and served again within the same second without a second upstream
   call; an answer with TTL 100000 comes back clamped to MAX_TTL *)
Example C15_ex_caching_client :
  cc_two (Up 2 false [300] [AR 600 (Some 60)] false) = (RErr 99, 2, RErr 99) /\
  snd (cc_lookup (Up 3 false [] [AR 30 None; AR 600 (Some 60)] false)) =
    Some (RNoRec (Neg (Some 60) (Some 600) (Some [30; 600]) (Some [(30, [])]))) /\
  snd (fst (cc_two (Up 3 false [] [AR 30 None; AR 600 (Some 60)] false))) = 1 /\
  cc_two (Up 0 false [100000; 7] [] false) =
    (ROk (Msg [RR 1 86400; RR 1 7] [] []), 1, ROk (Msg [RR 1 86400; RR 1 7] [] [])).
Proof. repeat split; reflexivity. Qed.

(* C15 — proofs about the store: the association-list cache refines "the last operation
   that touched the query decides", for every history. *)
From HV Require Import Lib.Base C15.Model.
Open Scope N_scope.

Lemma key_eqb_eq a b : key_eqb a b = true <-> a = b.
Proof.
  destruct a as [a1 a2], b as [b1 b2]. unfold key_eqb. cbn [fst snd].
  rewrite andb_true_iff, !N.eqb_eq. split; [intros [-> ->]; reflexivity|intros E; inversion E; auto].
Qed.

Lemma key_eqb_refl a : key_eqb a a = true.
Proof. now apply key_eqb_eq. Qed.

Lemma key_eqb_neq a b : key_eqb a b = false <-> a <> b.
Proof.
  split.
  - intros H E. apply key_eqb_eq in E. congruence.
  - intros H. destruct (key_eqb a b) eqn:E; [apply key_eqb_eq in E; contradiction|reflexivity].
Qed.

Lemma lookup_remove q q' s :
  lookup q (remove q' s) = if key_eqb q q' then None else lookup q s.
Proof.
  induction s as [|[k e] s IH]; cbn [remove lookup].
  - now destruct (key_eqb q q').
  - destruct (key_eqb q' k) eqn:E1.
    + apply key_eqb_eq in E1. subst k. rewrite IH. now destruct (key_eqb q q').
    + cbn [lookup]. rewrite IH. destruct (key_eqb q q') eqn:E2; [|reflexivity].
      apply key_eqb_eq in E2. subst q'. now rewrite E1.
Qed.

Lemma lookup_upsert q q' e s :
  lookup q (upsert q' e s) = if key_eqb q q' then Some e else lookup q s.
Proof.
  unfold upsert. cbn [lookup]. destruct (key_eqb q q') eqn:E; [reflexivity|].
  rewrite lookup_remove. now rewrite E.
Qed.

Lemma insert_cases c s q r t :
  insert c s q r t = Panic \/
  (cacheable r = false /\ insert c s q r t = Done s) \/
  (exists e, cacheable r = true /\ cacheable (eres e) = true /\ insert c s q r t = Done (upsert q e s)).
Proof.
  unfold insert. destruct r as [m|n|k]; [| |now right; left].
  - destruct (clamp_positive c (qtype q) m) as [[L m']|]; [|now left]. right; right. now eexists.
  - destruct (neg_bounds c (qtype q)) as [lo hi]. destruct (nttl n) as [x|].
    + destruct (clamp lo hi (x * NS)); [|now left]. right; right. now eexists.
    + right; right. now eexists.
Qed.

Lemma lookup_step_cases c s o q :
  lookup q (fst (step c s o)) = lookup q s \/
  (touches q o = true /\ forall e, lookup q (fst (step c s o)) = Some e -> cacheable (eres e) = true).
Proof.
  destruct o as [q' r t|q' t| |q']; cbn [step touches].
  - destruct (insert_cases c s q' r t) as [->|[[Hca ->]|(e & Hca & He & ->)]]; cbn [fst]; try (now left).
    rewrite lookup_upsert, Hca. destruct (key_eqb q q'); [right|now left].
    split; [reflexivity|]. intros e' [= <-]. exact He.
  - now left.
  - now right.
  - cbn [fst]. rewrite lookup_remove. destruct (key_eqb q q'); [now right|now left].
Qed.

Lemma run_fst_cons c s o h : fst (run c s (o :: h)) = fst (run c (fst (step c s o)) h).
Proof. cbn [run]. destruct (step c s o) as [s1 v]. cbn [fst]. now destruct (run c s1 h). Qed.

Lemma after_app c h1 h2 : after c (h1 ++ h2) = fst (run c (after c h1) h2).
Proof.
  unfold after. generalize (@nil (key * entry)). induction h1 as [|o h1 IH]; intros s; [reflexivity|].
  cbn [app]. now rewrite !run_fst_cons, IH.
Qed.

Lemma lookup_run_untouched c q h : untouched q h -> forall s, lookup q (fst (run c s h)) = lookup q s.
Proof.
  induction 1 as [|o h Ho _ IH]; intros s; [reflexivity|]. rewrite run_fst_cons, IH.
  destruct (lookup_step_cases c s o q) as [E|[Ht _]]; [exact E|congruence].
Qed.

Lemma last_touch q h :
  untouched q h \/ exists h0 o h1, h = h0 ++ o :: h1 /\ touches q o = true /\ untouched q h1.
Proof.
  induction h as [|o h [Hu|(h0 & o' & h1 & -> & Ht & Hu)]].
  - left. constructor.
  - destruct (touches q o) eqn:Ht; [right; exists [], o, h; auto|left; constructor; assumption].
  - right. exists (o :: h0), o', h1. auto.
Qed.

Lemma lookup_last_touch c q h0 o h1 : untouched q h1 ->
  lookup q (after c (h0 ++ o :: h1)) = lookup q (fst (step c (after c h0) o)).
Proof. intros Hu. now rewrite after_app, run_fst_cons, lookup_run_untouched. Qed.

Lemma get_some s q t r :
  get s q t = Some r <-> exists e, lookup q s = Some e /\ t <= vu e /\ r = updated e t.
Proof.
  unfold get. destruct (lookup q s) as [e|].
  - destruct (N.leb_spec t (vu e)) as [H|H].
    + split; [intros E; inversion E; eauto|intros (e' & E1 & _ & ->); inversion E1; reflexivity].
    + split; [discriminate|intros (e' & E1 & Hle & _); inversion E1; subst; lia].
  - split; [discriminate|intros (e' & E1 & _); discriminate].
Qed.

Lemma lookup_run_cacheable c q e h : forall s,
  lookup q (fst (run c s h)) = Some e -> lookup q s = Some e \/ cacheable (eres e) = true.
Proof.
  induction h as [|o h IH]; intros s Hl; [now left|].
  rewrite run_fst_cons in Hl. destruct (IH _ Hl) as [Hl'|Hca]; [|now right].
  destruct (lookup_step_cases c s o q) as [E|[_ Hca]]; [left; congruence|right; auto].
Qed.

Lemma lookup_after_cacheable c h q e : lookup q (after c h) = Some e -> cacheable (eres e) = true.
Proof. intros Hl. apply lookup_run_cacheable in Hl. now destruct Hl. Qed.

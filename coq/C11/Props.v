(* C11 — property theorems.
   [front_door c v6 a buf bd] is the model of ServerContext::handle_request +
   Catalog::handle_request for configuration [c] (zones with scripted handler chains, ACL, NSID),
   source address [(v6, a)], request bytes [buf]; [bd] is the verdict of the record parser on the
   bytes after the question (not modelled here: property C01), universally quantified.
   All theorems quantify over every configuration, source, byte string and parser verdict. *)
From HV Require Import Lib.Base C11.Model C11.NameProofs C11.AclProofs C11.CatalogProofs C11.FrontProofs.
Open Scope N_scope.

(* No request content makes the handler panic: the model has an explicit Panic outcome wherever
   the Rust indexes a buffer (decoder.clone(location), fuel exhaustion of the name loop), and it
   is never produced. *)
Theorem C11_no_panic : forall c v6 a buf bd, exists rs, front_door c v6 a buf bd = Replies rs.
Proof. intros. destruct (front_door_cases c v6 a buf bd) as [[_ H]|(_ & hd & _ & r & H & _)]; eauto. Qed.
Print Assumptions C11_no_panic.

(* Exactly one reply to an accepted request (>= 12 bytes, QR clear); nothing at all to runts and
   to messages that are themselves responses. *)
Theorem C11_one_reply_iff_accepted : forall c v6 a buf bd,
  exists rs, front_door c v6 a buf bd = Replies rs /\
    (accepted buf -> length rs = 1%nat) /\ (~ accepted buf -> rs = []).
Proof.
  intros. destruct (front_door_cases c v6 a buf bd) as [[Hn H]|(Ha & hd & _ & r & H & _)].
  - exists []. split; [exact H|]. split; [intros Ha; now destruct Hn|reflexivity].
  - exists [r]. split; [exact H|]. split; [reflexivity|intros Hn; now destruct Hn].
Qed.
Print Assumptions C11_one_reply_iff_accepted.

(* Every reply, as encoded on the wire, starts with the request's ID, has QR set and the
   request's opcode. *)
Theorem C11_id_qr_opcode_echo : forall c v6 a buf bd rs r, bytes_ok buf ->
  front_door c v6 a buf bd = Replies rs -> In r rs ->
  firstn 2 (encode r) = req_id buf /\
  N.testbit (nth 2 (encode r) 0) 7 = true /\
  req_opcode (encode r) = req_opcode buf.
Proof.
  intros c v6 a buf bd rs r Hok H Hin.
  destruct (front_door_reply H Hin) as (hd & Hh & Hid & Hop & _).
  pose proof (parse_header_spec buf) as Hs. rewrite Hh in Hs. destruct Hs as (Hlen & Hid' & _ & Hop' & _).
  rewrite Hid' in Hid. rewrite Hop' in Hop.
  destruct (encode_header r _ _ Hid (bytes_ok_nth _ _ Hok) (bytes_ok_nth _ _ Hok)) as (E1 & E2 & E3).
  { rewrite Hop. apply opcode_lt_16. }
  rewrite E1, E3. repeat split; auto.
  unfold req_id. do 2 (destruct buf as [|? buf]; [cbn [length] in Hlen; lia|]). reflexivity.
Qed.
Print Assumptions C11_id_qr_opcode_echo.

(* The question is echoed byte for byte: every reply either has an empty question section — and
   then it is the NOTIMP for an unsupported opcode or the FORMERR for an unreadable question —
   or its bytes from offset 12 are exactly the request's question bytes. *)
Theorem C11_question_echo_bytes : forall c v6 a buf bd rs r,
  front_door c v6 a buf bd = Replies rs -> In r rs ->
  exists hd, parse_header buf = Some hd /\
   ((nth 4 (encode r) 0 = 0 /\ nth 5 (encode r) 0 = 0 /\
     ((opcode_known (h_opcode hd) = false /\ r_rcode r = 4) \/
      (read_question buf (h_qd hd) = QErr /\ r_rcode r = 1)))
    \/
    (exists q tail, read_question buf (h_qd hd) = QOk q /\ (12 < q_end q <= length buf)%nat /\
       encode r = firstn 12 (encode r) ++ firstn (q_end q - 12) (skipn 12 buf) ++ tail)).
Proof.
  intros c v6 a buf bd rs r H Hin.
  destruct (front_door_reply H Hin) as (hd & Hh & _ & _ & [(Hq & Hg)|(q & Hq & Hr)]);
    exists hd; (split; [exact Hh|]).
  - left. destruct (encode_no_question r Hq). auto.
  - right. destruct (read_question_raw _ _ _ Hq) as (Hraw & Hb & _).
    destruct (encode_split r _ Hr) as (tail & Henc & _).
    exists q, tail. rewrite <- Hraw. auto.
Qed.
Print Assumptions C11_question_echo_bytes.

(* The gate order of the statement.  [sole o P]: the outcome is exactly one reply satisfying P.
   Premises of later rows include the negations of earlier ones, so the rows are exclusive. *)
Theorem C11_gate_table : forall c v6 a buf bd hd,
  parse_header buf = Some hd -> h_qr hd = false ->
  (* unsupported opcode: NOTIMP, no question *)
  (opcode_known (h_opcode hd) = false ->
     sole (front_door c v6 a buf bd)
          (fun r => r_rcode r = 4 /\ r_question r = None /\ r_edns r = None /\ reply_markers r = [])) /\
  (* question does not parse (or QDCOUNT <> 1): FORMERR, no question *)
  (opcode_known (h_opcode hd) = true -> read_question buf (h_qd hd) = QErr ->
     sole (front_door c v6 a buf bd)
          (fun r => r_rcode r = 1 /\ r_question r = None /\ r_edns r = None /\ reply_markers r = [])) /\
  forall q, opcode_known (h_opcode hd) = true -> read_question buf (h_qd hd) = QOk q ->
  (* source denied: REFUSED with the question *)
  (~ acl_spec (c_acl c) v6 a ->
     sole (front_door c v6 a buf bd)
          (fun r => r_rcode r = 5 /\ r_question r = Some (q_raw q) /\ r_edns r = None /\ reply_markers r = [])) /\
  (acl_spec (c_acl c) v6 a ->
   (* the rest of the message does not parse: FORMERR with the question *)
   ((forall ed, bd <> BOk ed) ->
     sole (front_door c v6 a buf bd)
          (fun r => r_rcode r = 1 /\ r_question r = Some (q_raw q) /\ r_edns r = None /\ reply_markers r = [])) /\
   forall ed, bd = BOk ed ->
   (* EDNS version above 0: BADVERS (extended rcode 16) carried by an OPT record *)
   (forall ei, ed = Some ei -> 0 < ei_version ei ->
     sole (front_door c v6 a buf bd)
          (fun r => r_rcode r = 16 /\ r_question r = Some (q_raw q) /\ reply_markers r = [] /\
                    exists eo, r_edns r = Some eo /\ eo_nsid eo = None)) /\
   ((forall ei, ed = Some ei -> ei_version ei = 0) ->
    (* STATUS / NOTIFY: NOTIMP *)
    (h_opcode hd = 2 \/ h_opcode hd = 4 ->
      sole (front_door c v6 a buf bd)
           (fun r => r_rcode r = 4 /\ r_question r = Some (q_raw q) /\ reply_markers r = [])) /\
    (* QUERY outside every configured zone: REFUSED *)
    (h_opcode hd = 0 -> no_zone (c_zones c) (q_name q) ->
      sole (front_door c v6 a buf bd)
           (fun r => r_rcode r = 5 /\ r_question r = Some (q_raw q) /\ reply_markers r = [])) /\
    (* QUERY inside: every record of the reply comes from the zone whose origin is the longest
       suffix of the query name *)
    (forall i ch, h_opcode hd = 0 -> longest_zone (c_zones c) (q_name q) i ch ->
      sole (front_door c v6 a buf bd)
           (fun r => r_question r = Some (q_raw q) /\ Forall (fun m => mk_z m = i) (reply_markers r))) /\
    (* UPDATE: one reply with the zone section echoed, no records *)
    (h_opcode hd = 5 ->
      sole (front_door c v6 a buf bd) (fun r => r_question r = Some (q_raw q) /\ reply_markers r = [])))).
Proof.
  intros c v6 a buf bd hd Hh Hqr.
  split; [intros Ho; rewrite (gate_opcode c v6 a buf hd Hh Hqr bd Ho); now apply sole_one|].
  split; [intros Ho Hq; rewrite (gate_question c v6 a buf hd Hh Hqr Ho bd Hq); now apply sole_one|].
  intros q Ho Hq.
  rewrite <- acl_allow_spec, not_true_iff_false.
  split; [intros Ha; rewrite (gate_acl c v6 a buf hd Hh Hqr Ho q Hq bd Ha); now apply sole_one|].
  intros Ha.
  split; [intros Hb; rewrite (gate_body c v6 a buf hd Hh Hqr Ho q Hq Ha bd Hb); now apply sole_one|].
  intros ed ->. rewrite (gate_catalog c v6 a buf hd Hh Hqr Ho q Hq Ha ed).
  split.
  { intros ei -> Hv. rewrite (catalog_badvers c hd q Hv). apply sole_one. repeat split. eexists. now split. }
  intros Hver.
  split; [intros Hop; rewrite (catalog_notimp c hd q ed Hver) by lia; now apply sole_one|].
  split; [intros Hop Hz; apply find_no_zone in Hz; rewrite (catalog_no_zone c hd q ed Hver Hop Hz); now apply sole_one|].
  split.
  { intros i ch Hop Hz. apply find_longest_zone in Hz. destruct (catalog_zone c hd q ed Hver i ch Hop Hz) as (r & -> & He & Hm).
    apply sole_one. split; [apply He|exact Hm]. }
  intros Hop. destruct (catalog_update c hd q ed Hver Hop) as (r & -> & He & Hm).
  apply sole_one. split; [apply He|exact Hm].
Qed.
Print Assumptions C11_gate_table.

(* "EDNS versions above 0 get BADVERS", read off the request bytes for the plainest EDNS request
   (no answer/authority records, one additional record: an option-less OPT owned by the root):
   the version is the 7th byte of that record; the reply is the echoed header and question
   followed by exactly one OPT record carrying extended rcode 1 (BADVERS = 16), version 0, the
   DO bit of the request and a payload size of at least 512. *)
Theorem C11_badvers_from_bytes : forall c v6 a buf hd q p0 p1 ext ver f0 f1 rest,
  parse_header buf = Some hd -> h_qr hd = false -> opcode_known (h_opcode hd) = true ->
  read_question buf (h_qd hd) = QOk q -> acl_spec (c_acl c) v6 a ->
  h_an hd = 0 -> h_ns hd = 0 -> h_ar hd = 1 ->
  skipn (q_end q) buf = 0 :: 0 :: 41 :: p0 :: p1 :: ext :: ver :: f0 :: f1 :: 0 :: 0 :: rest ->
  0 < ver ->
  exists bd, simple_tail buf = Some bd /\
    front_door c v6 a buf bd =
      Replies [error_msg hd (Some (q_raw q))
                 (Some (EdnsOut (N.max (N.max (be16 p0 p1) 512) 512) (N.testbit f0 7) None)) 16] /\
    forall r, front_door c v6 a buf bd = Replies [r] ->
      r_rcode r mod 16 = 0 /\
      exists pre, encode r = pre ++ [0; 0; 41] ++ enc16 (N.max (N.max (be16 p0 p1) 512) 512)
                                 ++ [1; 0; (if N.testbit f0 7 then 128 else 0); 0; 0; 0].
Proof.
  intros c v6 a buf hd q p0 p1 ext ver f0 f1 rest Hh Hqr Ho Hq Ha Han Hns Har Hs Hv. apply acl_allow_spec in Ha.
  eexists. split; [eapply simple_tail_plain_opt; eassumption|].
  rewrite (gate_catalog c v6 a buf hd Hh Hqr Ho q Hq Ha), catalog_badvers by exact Hv.
  split; [reflexivity|]. intros r [= <-]. split; [reflexivity|].
  exact (encode_opt_last (error_msg hd _ _ 16) _ eq_refl).
Qed.
Print Assumptions C11_badvers_from_bytes.

(* AccessControl::allow is the documented rule (on the canonicalised address, per family):
   a matching deny entry is overridden only by a strictly more specific matching allow entry;
   with no matching deny entry the source is admitted if an allow entry matches, or deny entries
   exist, or there are no allow entries. *)
Theorem C11_acl_rule : forall c v6 a, acl_allow c v6 a = true <-> acl_spec c v6 a.
Proof. exact acl_allow_spec. Qed.
Print Assumptions C11_acl_rule.

(* Catalog::find returns the (first-inserted) zone whose origin is the longest suffix of the
   name, and nothing iff no configured origin is a suffix; that zone is unique. *)
Theorem C11_longest_suffix : forall zs n,
  (forall i ch, find zs n = Some (i, ch) <-> longest_zone zs n i ch) /\
  (find zs n = None <-> no_zone zs n).
Proof.
  intros zs n. split; [intros i ch; apply find_longest_zone|apply find_no_zone].
Qed.
Print Assumptions C11_longest_suffix.

(* The echoed question also MEANS the same to the client — provided the query name was not
   reached through a compression pointer: decoding the question of the encoded reply gives the
   same labels, type and class. *)
Theorem C11_question_meaning_guarded : forall c v6 a buf bd rs r hd q,
  front_door c v6 a buf bd = Replies rs -> In r rs ->
  parse_header buf = Some hd -> opcode_known (h_opcode hd) = true ->
  read_question buf (h_qd hd) = QOk q ->
  q_ptr q = false ->
  exists q', decoded_question (encode r) = QOk q' /\ same_question q q' /\ q_raw q' = q_raw q.
Proof.
  intros c v6 a buf bd rs r hd q H Hin Hh Ho Hq Hp.
  destruct (front_door_reply H Hin) as (hd' & Hh' & _ & _ & Hcase).
  rewrite Hh in Hh'. injection Hh' as <-.
  destruct Hcase as [(_ & [[Hk _]|[Hk _]])|(q' & Hq' & Hr)]; try congruence.
  rewrite Hq in Hq'. injection Hq' as <-.
  exists q. split; [eapply echoed_question_decodes; eassumption|]. repeat split.
Qed.
Print Assumptions C11_question_meaning_guarded.

(* ... and without that proviso it is false (finding C11-F9-question-pointer): a question name
   that is a pointer into the header (the only place a pointer in the first name can go) is
   echoed raw under a different header.  Request id 0x0163, QNAME = pointer to offset 0, i.e. the
   bytes 01 'c' 00 = "c."; in the reply byte 2 is 0x80, a reserved label code: the reply's question
   does not decode at all. *)
Definition f9_request : list byte := [1; 99; 0; 0; 0; 1; 0; 0; 0; 0; 0; 0; 192; 0; 0; 1; 0; 1].
Theorem C11_question_meaning_refuted :
  exists c v6 a bd hd q r,
    parse_header f9_request = Some hd /\ opcode_known (h_opcode hd) = true /\
    read_question f9_request (h_qd hd) = QOk q /\ q_ptr q = true /\ q_orig q = [[99]] /\
    front_door c v6 a f9_request bd = Replies [r] /\
    r_question r = Some (q_raw q) /\
    decoded_question (encode r) = QErr.
Proof.
  exists (Config [] (Acl [] []) None), false, 0, (BOk None).
  eexists. eexists. eexists.
  split; [reflexivity|]. split; [reflexivity|].
  split; [vm_compute; reflexivity|].
  split; [reflexivity|]. split; [reflexivity|].
  split; [vm_compute; reflexivity|].
  split; [reflexivity|]. vm_compute. reflexivity.
Qed.
Print Assumptions C11_question_meaning_refuted.

(* Non-vacuity: concrete values meeting the hypotheses of each theorem *)

(* zones: "." (0), "com." (1), "example.com." (2, chain of two), "a.example.com." (3) *)
Definition ex_com := [99; 111; 109].
Definition ex_example := [101; 120; 97; 109; 112; 108; 101].
Definition ex_h (s : flow) (cs : option flow) := HS 0 s cs (FBreak (ROk 1)) 0 0.
Definition ex_cfg : config :=
  Config [ ([], [ex_h (FBreak (ROk 1)) None]);
           ([ex_com], [ex_h (FBreak (RErr 3)) None]);
           ([ex_example; ex_com], [ex_h FSkip (Some (FBreak (ROk 2))); ex_h (FCont (RErr 0)) None]);
           ([[97]; ex_example; ex_com], [ex_h (FBreak (ROk 2)) None]) ]
         (Acl [Net false 167772160 8] [Net false 167838208 24])       (* deny 10/8, allow 10.1.2/24 *)
         (Some [7]).
(* query id 0x1234, RD, "WWW.Example.COM." A IN, no EDNS *)
Definition ex_query : list byte :=
  [18; 52; 1; 0; 0; 1; 0; 0; 0; 0; 0; 0;
   3; 87; 87; 87; 7; 69; 120; 97; 109; 112; 108; 101; 3; 67; 79; 77; 0; 0; 1; 0; 1].

Example C11_ex_accepted_and_answered_from_longest_zone :
  accepted ex_query /\ bytes_ok ex_query /\
  acl_spec (c_acl ex_cfg) false 167838211 /\                  (* 10.1.2.3: denied /8, allowed /24 *)
  ~ acl_spec (c_acl ex_cfg) false 167772161 /\                (* 10.0.0.1: denied *)
  exists hd q ch, parse_header ex_query = Some hd /\ h_qr hd = false /\ opcode_known (h_opcode hd) = true /\
    h_opcode hd = 0 /\ read_question ex_query (h_qd hd) = QOk q /\ q_ptr q = false /\
    longest_zone (c_zones ex_cfg) (q_name q) 2 ch /\
    (* the first handler skips, the second says Continue(Err NameExists), the first one's consult
       overrides with two records: both come from zone 2, consulted handler 0 *)
    front_door ex_cfg false 167838211 ex_query (BOk None) =
      Replies [Reply 4660 0 true true false false 0 (Some (q_raw q)) [Mk 2 0 1 0; Mk 2 0 1 1] [] None] /\
    front_door ex_cfg false 167772161 ex_query (BOk None) =
      Replies [error_msg hd (Some (q_raw q)) None 5].
Proof.
  split; [split; [cbn; lia|reflexivity]|].
  split; [repeat constructor|].
  split; [apply acl_allow_spec; vm_compute; reflexivity|].
  split; [intros H; apply acl_allow_spec in H; vm_compute in H; discriminate|].
  eexists. eexists. eexists.
  split; [reflexivity|]. split; [reflexivity|]. split; [reflexivity|]. split; [reflexivity|].
  split; [vm_compute; reflexivity|]. split; [reflexivity|].
  split; [apply find_longest_zone; vm_compute; reflexivity|].
  split; vm_compute; reflexivity.
Qed.

(* rows of the table that need other inputs: unsupported opcode 3; QDCOUNT 2; reserved label
   code; body error; EDNS version 1; STATUS; a name outside every zone of a root-less catalog;
   UPDATE whose question is not SOA (FORMERR); a runt and a response (no reply) *)
Definition ex_cfg2 : config := Config [([ex_com], [ex_h (FBreak (ROk 1)) None])] (Acl [] []) None.
Example C11_ex_rows :
  let rc o := match o with Replies [r] => Some (r_rcode r, r_question r) | _ => None end in
  let q := firstn 21 (skipn 12 ex_query) in
  let org := [18; 52; 1; 0; 0; 1; 0; 0; 0; 0; 0; 0; 3; 111; 114; 103; 0; 0; 1; 0; 1] in
  rc (front_door ex_cfg false 1 (18 :: 52 :: 25 :: skipn 3 ex_query) (BOk None)) = Some (4, None) /\
  rc (front_door ex_cfg false 1 (firstn 5 ex_query ++ 2 :: skipn 6 ex_query) (BOk None)) = Some (1, None) /\
  rc (front_door ex_cfg false 1 (firstn 12 ex_query ++ [64; 0; 0; 1; 0; 1]) (BOk None)) = Some (1, None) /\
  rc (front_door ex_cfg false 1 ex_query BErr) = Some (1, Some q) /\
  rc (front_door ex_cfg false 1 ex_query (BOk (Some (EdnsIn 1 4096 true true)))) = Some (16, Some q) /\
  rc (front_door ex_cfg false 1 (18 :: 52 :: 16 :: skipn 3 ex_query) (BOk None)) = Some (4, Some q) /\
  rc (front_door ex_cfg2 false 1 org (BOk None)) = Some (5, Some (skipn 12 org)) /\
  no_zone (c_zones ex_cfg2) [[111; 114; 103]] /\
  rc (front_door ex_cfg false 1 (18 :: 52 :: 40 :: skipn 3 ex_query) (BOk None)) = Some (1, Some q) /\
  front_door ex_cfg false 1 (firstn 11 ex_query) BNone = Replies [] /\
  front_door ex_cfg false 1 (18 :: 52 :: 129 :: skipn 3 ex_query) (BOk None) = Replies [].
Proof.
  cbv zeta. repeat split.
  (* the equations hold by evaluation; what is left is the one that is not an equation *)
  apply find_no_zone. vm_compute. reflexivity.
Qed.

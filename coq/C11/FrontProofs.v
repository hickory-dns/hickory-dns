(* C11 — the front door: its gates and the one reply behind each (front_door_cases), header and
   question section of an encoded reply, meaning of the echoed question, BADVERS read off the bytes. *)
From HV Require Import Lib.Base Lib.ListX C11.Model C11.NameProofs C11.CatalogProofs.
Open Scope N_scope.

Lemma parse_header_spec buf :
  match parse_header buf with
  | None => (length buf < 12)%nat
  | Some hd =>
      (12 <= length buf)%nat /\
      h_id hd = be16 (nth 0 buf 0) (nth 1 buf 0) /\
      h_qr hd = N.testbit (nth 2 buf 0) 7 /\
      h_opcode hd = req_opcode buf /\
      h_rd hd = N.testbit (nth 2 buf 0) 0 /\
      h_cd hd = N.testbit (nth 3 buf 0) 4 /\
      h_qd hd = be16 (nth 4 buf 0) (nth 5 buf 0)
  end.
Proof.
  unfold parse_header, req_opcode. do 12 (destruct buf as [|? buf]; [cbn; lia|]).
  cbn. repeat split. lia.
Qed.

Lemma accepted_header buf : accepted buf <-> exists hd, parse_header buf = Some hd /\ h_qr hd = false.
Proof.
  unfold accepted. pose proof (parse_header_spec buf) as H. destruct (parse_header buf) as [hd|].
  - destruct H as (Hlen & _ & <- & _). split; [intros []; eauto|intros (? & [= <-] & ?); auto].
  - split; [lia|intros (? & [=] & _)].
Qed.

Lemma opcode_lt_16 buf : req_opcode buf < 16.
Proof.
  unfold req_opcode. change 15 with (N.ones 4). rewrite N.land_ones.
  apply N.mod_lt. discriminate.
Qed.

Inductive question_read (buf : list byte) (qd : N) : qres -> Prop :=
| QR_err : question_read buf qd QErr
| QR_ok labels e p t0 t1 c0 c1 rest : qd = 1 ->
    read_name_at buf 12 = NOk labels e p -> skipn e buf = t0 :: t1 :: c0 :: c1 :: rest ->
    question_read buf qd (QOk (Question (lower_name labels) labels (be16 t0 t1) (be16 c0 c1)
                                        (firstn (e + 4 - 12) (skipn 12 buf)) (e + 4) p)).

Lemma read_question_view buf qd : question_read buf qd (read_question buf qd).
Proof.
  unfold read_question. destruct (N.eqb_spec qd 1) as [Hqd|]; cbn [negb]; [|constructor].
  destruct (read_name_at_settled buf 12) as [Hp Hf].
  destruct (read_name_at buf 12) as [labels e p| | |] eqn:Hn; try congruence; [|constructor].
  destruct (skipn e buf) as [|t0 [|t1 [|c0 [|c1 rest]]]] eqn:Hs; [constructor..|now apply QR_ok with rest].
Qed.

Lemma read_question_no_panic buf qd : read_question buf qd <> QPanic.
Proof. destruct (read_question_view buf qd); discriminate. Qed.

Lemma read_question_qd buf qd q : read_question buf qd = QOk q -> qd = 1.
Proof. destruct (read_question_view buf qd); [discriminate|auto]. Qed.

Lemma read_question_raw buf qd q : read_question buf qd = QOk q ->
  q_raw q = firstn (q_end q - 12) (skipn 12 buf) /\ (12 < q_end q <= length buf)%nat /\
  length (q_raw q) = (q_end q - 12)%nat.
Proof.
  destruct (read_question_view buf qd) as [|labels e p t0 t1 c0 c1 rest Hqd Hn Hs]; [discriminate|].
  (* injection would compute [skipn 12 buf] *)
  set (s12 := skipn 12 buf). intros [= <-]. cbn [q_raw q_end]. apply read_name_end in Hn. cbn match in Hn.
  apply (f_equal (@length _)) in Hs. rewrite skipn_length in Hs. cbn [length] in Hs.
  split; [reflexivity|]. split; [lia|]. subst s12. rewrite firstn_length, skipn_length. lia.
Qed.

Lemma read_question_ext buf buf' qd q :
  read_question buf qd = QOk q -> q_ptr q = false ->
  (forall i, (12 <= i < q_end q)%nat -> nth_error buf' i = nth_error buf i) ->
  read_question buf' qd = QOk q.
Proof.
  destruct (read_question_view buf qd) as [|labels e p t0 t1 c0 c1 rest Hqd Hn Hs]; intros [= <-].
  cbn [q_ptr q_end]. intros -> Hext. subst qd.
  pose proof Hn as Hb. apply read_name_end in Hb. cbn match in Hb.
  unfold read_question. rewrite (read_name_at_ext _ buf' _ _ _ Hn) by (intros; apply Hext; lia).
  assert (E4 : firstn 4 (skipn e buf') = [t0; t1; c0; c1]).
  { rewrite (firstn_skipn_ext 4 buf), Hs; [reflexivity|intros; apply Hext; lia]. }
  destruct (skipn e buf') as [|? [|? [|? [|? ?]]]]; try discriminate. injection E4 as -> -> -> ->.
  rewrite (firstn_skipn_ext _ buf); [reflexivity|intros; apply Hext; lia].
Qed.

Definition sole (o : outcome) (P : reply -> Prop) : Prop := exists r, o = Replies [r] /\ P r.

Lemma sole_one r (P : reply -> Prop) : P r -> sole (Replies [r]) P.
Proof. exists r. auto. Qed.

Definition reply_to (buf : list byte) (hd : header) (r : reply) : Prop :=
  r_id r = h_id hd /\ r_opcode r = h_opcode hd /\
  ((r_question r = None /\
    ((opcode_known (h_opcode hd) = false /\ r_rcode r = 4) \/
     (read_question buf (h_qd hd) = QErr /\ r_rcode r = 1)))
   \/ exists q, read_question buf (h_qd hd) = QOk q /\ r_question r = Some (q_raw q)).

Section Accepted.
  Variables (c : config) (v6 : bool) (a : N) (buf : list byte) (hd : header).
  Hypothesis Hh : parse_header buf = Some hd.
  Hypothesis Hqr : h_qr hd = false.

  Lemma gate_opcode bd : opcode_known (h_opcode hd) = false ->
    front_door c v6 a buf bd = Replies [error_msg hd None None 4].
  Proof. intros Ho. unfold front_door. now rewrite Hh, Hqr, Ho. Qed.

  Section Known.
    Hypothesis Ho : opcode_known (h_opcode hd) = true.

    Lemma gate_question bd : read_question buf (h_qd hd) = QErr ->
      front_door c v6 a buf bd = Replies [error_msg hd None None 1].
    Proof. intros Hq. unfold front_door. now rewrite Hh, Hqr, Ho, Hq. Qed.

    Variable q : question.
    Hypothesis Hq : read_question buf (h_qd hd) = QOk q.

    Lemma gate_acl bd : acl_allow (c_acl c) v6 a = false ->
      front_door c v6 a buf bd = Replies [error_msg hd (Some (q_raw q)) None 5].
    Proof. intros Ha. unfold front_door. now rewrite Hh, Hqr, Ho, Hq, Ha. Qed.

    Hypothesis Ha : acl_allow (c_acl c) v6 a = true.

    Lemma gate_body bd : (forall ed, bd <> BOk ed) ->
      front_door c v6 a buf bd = Replies [error_msg hd (Some (q_raw q)) None 1].
    Proof.
      intros Hb. unfold front_door. rewrite Hh, Hqr, Ho, Hq, Ha.
      destruct bd as [| |ed]; [reflexivity|reflexivity|now destruct (Hb ed)].
    Qed.

    Lemma gate_catalog ed : front_door c v6 a buf (BOk ed) = Replies (catalog c hd q ed).
    Proof. unfold front_door. now rewrite Hh, Hqr, Ho, Hq, Ha. Qed.
  End Known.

  Lemma front_door_accepted bd : sole (front_door c v6 a buf bd) (reply_to buf hd).
  Proof.
    (* the gates are exhaustive, and behind each stands one reply *)
    destruct (opcode_known (h_opcode hd)) eqn:Ho.
    2:{ rewrite (gate_opcode bd Ho). apply sole_one. do 2 (split; [reflexivity|]).
        left. split; [reflexivity|]. left. now split. }
    destruct (read_question buf (h_qd hd)) as [q| |] eqn:Hq.
    3: now destruct (read_question_no_panic buf (h_qd hd)).
    2:{ rewrite (gate_question Ho bd Hq). apply sole_one. do 2 (split; [reflexivity|]).
        left. split; [reflexivity|]. right. now split. }
    assert (Hecho : forall e r, echo hd q e r -> reply_to buf hd r).
    { intros e r (Hid & Hop & Hrq & _). split; [exact Hid|]. split; [exact Hop|]. right. exists q. now split. }
    destruct (acl_allow (c_acl c) v6 a) eqn:Ha.
    2:{ rewrite (gate_acl Ho q Hq bd Ha). eapply sole_one, Hecho, error_msg_echo. }
    destruct bd as [| |ed].
    1,2: rewrite (gate_body Ho q Hq Ha) by discriminate; eapply sole_one, Hecho, error_msg_echo.
    rewrite (gate_catalog Ho q Hq Ha ed).
    destruct (catalog_one c hd q ed) as (r & e & -> & He). eapply sole_one, Hecho, He.
  Qed.
End Accepted.

Theorem front_door_cases c v6 a buf bd :
  (~ accepted buf /\ front_door c v6 a buf bd = Replies []) \/
  (accepted buf /\ exists hd, parse_header buf = Some hd /\ sole (front_door c v6 a buf bd) (reply_to buf hd)).
Proof.
  rewrite accepted_header. destruct (parse_header buf) as [hd|] eqn:Hh; [destruct (h_qr hd) eqn:Hqr|].
  - left. split; [intros (hd' & [= <-] & Hqr'); congruence|]. unfold front_door. now rewrite Hh, Hqr.
  - right. split; [eauto|]. exists hd. split; [reflexivity|]. now apply front_door_accepted.
  - left. split; [intros (hd' & [=] & _)|]. unfold front_door. now rewrite Hh.
Qed.

Lemma front_door_reply {c v6 a buf bd rs r} : front_door c v6 a buf bd = Replies rs -> In r rs ->
  exists hd, parse_header buf = Some hd /\ reply_to buf hd r.
Proof.
  intros H Hin. destruct (front_door_cases c v6 a buf bd) as [[_ H']|(_ & hd & Hh & r' & H' & Hr)];
    rewrite H' in H; injection H as <-; [destruct Hin|].
  destruct Hin as [<-|[]]. eauto.
Qed.

Lemma enc16_be16 hi lo : hi < 256 -> lo < 256 -> enc16 (be16 hi lo) = [hi; lo].
Proof.
  intros Hhi Hlo. unfold enc16, be16. f_equal; [|f_equal].
  - rewrite N.div_add_l by discriminate. rewrite (N.div_small lo 256 Hlo), N.add_0_r.
    now apply N.mod_small.
  - rewrite N.add_comm, N.mod_add by discriminate. now apply N.mod_small.
Qed.

Lemma flags_byte (op : N) (aa rd : bool) : op < 16 ->
  N.testbit (128 + 8 * op + 4 * b2n aa + b2n rd) 7 = true /\
  N.land (N.shiftr (128 + 8 * op + 4 * b2n aa + b2n rd) 3) 15 = op.
Proof.
  intros H. assert (L : 4 * b2n aa + b2n rd < 8) by (destruct aa, rd; cbn; lia).
  set (lo := 4 * b2n aa + b2n rd) in *.
  replace (128 + 8 * op + 4 * b2n aa + b2n rd) with (8 * (16 + op) + lo) by (subst lo; lia).
  split.
  - apply N.testbit_true. change (2 ^ 7) with 128.
    rewrite <- (N.div_unique (8 * (16 + op) + lo) 128 1 (8 * op + lo)) by lia. reflexivity.
  - rewrite N.shiftr_div_pow2. change 15 with (N.ones 4). rewrite N.land_ones.
    change (2 ^ 3) with 8. change (2 ^ 4) with 16.
    rewrite <- (N.div_unique (8 * (16 + op) + lo) 8 (16 + op) lo) by lia.
    symmetry. apply (N.mod_unique _ _ 1); lia.
Qed.

(* Header::emit: the first three bytes of an encoded reply *)
Lemma encode_header r hi lo : r_id r = be16 hi lo -> hi < 256 -> lo < 256 -> r_opcode r < 16 ->
  firstn 2 (encode r) = [hi; lo] /\
  N.testbit (nth 2 (encode r) 0) 7 = true /\
  req_opcode (encode r) = r_opcode r.
Proof.
  intros Hid Hhi Hlo Hop. unfold req_opcode, encode. rewrite Hid, enc16_be16 by assumption.
  cbn [app firstn nth]. split; [reflexivity|]. now apply flags_byte.
Qed.

Lemma encode_split r raw : r_question r = Some raw ->
  exists tail, encode r = firstn 12 (encode r) ++ raw ++ tail /\ length (firstn 12 (encode r)) = 12%nat.
Proof.
  intros Hq. unfold encode. rewrite Hq. unfold enc16. cbn [app firstn length].
  eexists. split; reflexivity.
Qed.

Lemma encode_no_question r : r_question r = None -> nth 4 (encode r) 0 = 0 /\ nth 5 (encode r) 0 = 0.
Proof. intros Hq. unfold encode. rewrite Hq. unfold enc16. cbn [app nth]. split; reflexivity. Qed.

(* emit_message_parts: the OPT record goes last *)
Lemma encode_opt_last r e : r_edns r = Some e -> exists pre, encode r = pre ++ enc_opt (r_rcode r) e.
Proof. intros He. unfold encode. rewrite He, !app_assoc. eexists. reflexivity. Qed.

Lemma nth_error_mid {A} (h h' m t t' : list A) i :
  length h = length h' -> (length h <= i < length h + length m)%nat ->
  nth_error (h ++ m ++ t) i = nth_error (h' ++ m ++ t') i.
Proof.
  intros E Hi. rewrite (nth_error_app2 h), (nth_error_app2 h'), !nth_error_app1, E by lia. reflexivity.
Qed.

Theorem echoed_question_decodes buf qd q r :
  read_question buf qd = QOk q -> q_ptr q = false -> r_question r = Some (q_raw q) ->
  decoded_question (encode r) = QOk q.
Proof.
  intros Hq Hptr Hr. unfold decoded_question.
  pose proof (read_question_qd _ _ _ Hq) as ->.
  (* the reply holds the same bytes at the same offsets, and without a pointer nothing else is looked at *)
  apply (read_question_ext buf); [exact Hq|exact Hptr|]. intros i Hi.
  destruct (read_question_raw _ _ _ Hq) as (Hraw & Hend & Hrl).
  destruct (encode_split r _ Hr) as (tail & Henc & HH).
  rewrite Henc, <- (firstn_skipn 12 buf), <- (firstn_skipn (q_end q - 12) (skipn 12 buf)), <- Hraw.
  apply nth_error_mid; rewrite HH; [rewrite firstn_length|]; lia.
Qed.

(* BADVERS read off the bytes: a lone, option-less OPT record *)
Lemma simple_tail_plain_opt buf hd q p0 p1 ext ver f0 f1 rest :
  parse_header buf = Some hd -> read_question buf (h_qd hd) = QOk q ->
  h_an hd = 0 -> h_ns hd = 0 -> h_ar hd = 1 ->
  skipn (q_end q) buf = 0 :: 0 :: 41 :: p0 :: p1 :: ext :: ver :: f0 :: f1 :: 0 :: 0 :: rest ->
  simple_tail buf = Some (BOk (Some (EdnsIn ver (N.max (be16 p0 p1) 512) (N.testbit f0 7) false))).
Proof.
  intros Hh Hq Han Hns Har Hs. unfold simple_tail. rewrite Hh, Hq, Han, Hns, Har, Hs.
  cbv beta iota zeta. change (be16 0 0) with 0.
  rewrite (proj2 (N.ltb_ge _ 0)) by lia. reflexivity.
Qed.

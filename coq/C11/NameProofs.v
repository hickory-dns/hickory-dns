(* C11 — lemmas about the name reader (read_inner): it never runs out of fuel, never indexes out
   of bounds, stays inside the buffer, and a name read without following a pointer depends only
   on the bytes it spans. *)
From HV Require Import Lib.Base Lib.ListX C11.Model.
Open Scope N_scope.

(* What one turn of the loop does, and what is then known of the position.  clone(location)
   slices buffer[location..] with location < [start]: it can panic only if [start] itself lies
   beyond the buffer. *)
Section Turn.
  Variables (fuel : nat) (buf : list byte) (pos start : nat) (pmax : option nat)
            (acc : list (list byte)) (alen : nat) (send : option nat).

  Inductive turn : nres -> Prop :=
  | T_err : turn NErr
  | T_panic : (pos < length buf < start)%nat -> turn NPanic
  | T_end : nth_error buf pos = Some 0 -> (pos < length buf)%nat ->
      turn (NOk (rev acc) (match send with Some e => e | None => S pos end)
                (match send with Some _ => true | None => false end))
  | T_jump loc : (loc < start)%nat -> (loc <= length buf)%nat -> (S pos < length buf)%nat ->
      turn (read_name fuel buf loc loc (Some start) acc alen
                      (match send with Some e => Some e | None => Some (S (S pos)) end))
  | T_label c : nth_error buf pos = Some c -> c <> 0 -> N.land c 192 = 0 ->
      (alen + N.to_nat c + 1 <= 255)%nat -> (pos + N.to_nat c < length buf)%nat ->
      turn (read_name fuel buf (S pos + N.to_nat c) start pmax
                      (firstn (N.to_nat c) (skipn (S pos) buf) :: acc) (alen + N.to_nat c + 1) send).

  Lemma read_name_turn : turn (read_name (S fuel) buf pos start pmax acc alen send).
  Proof.
    cbn [read_name].
    destruct (match pmax with Some m => (m <=? pos)%nat | None => false end); [constructor|].
    destruct (nth_error buf pos) as [c|] eqn:Hc; [|constructor].
    assert (Hpos : (pos < length buf)%nat) by (apply nth_error_Some; congruence).
    destruct (N.eqb_spec c 0) as [->|Hc0]; [now constructor|].
    destruct (N.land c 192 =? 192).
    - destruct (nth_error buf (S pos)) as [lo|] eqn:Hlo; [|constructor].
      assert (Hpos1 : (S pos < length buf)%nat) by (apply nth_error_Some; congruence). cbv zeta.
      destruct (Nat.ltb_spec (N.to_nat (N.land (be16 c lo) 16383)) start); [|constructor].
      destruct (Nat.leb_spec (N.to_nat (N.land (be16 c lo) 16383)) (length buf)); constructor; lia.
    - destruct (N.eqb_spec (N.land c 192) 0) as [H0|]; [|constructor]. cbv zeta.
      destruct (Nat.ltb_spec (length (firstn (N.to_nat c) (skipn (S pos) buf))) (N.to_nat c)) as [|Hl]; [constructor|].
      destruct (Nat.ltb_spec 255 (alen + N.to_nat c + 1)); [constructor|].
      rewrite firstn_length, skipn_length in Hl. apply (T_label c); auto; lia.
  Qed.
End Turn.

Lemma read_name_zero fuel (buf : list byte) pos start acc alen send : nth_error buf pos = Some 0 ->
  read_name (S fuel) buf pos start None acc alen send =
    NOk (rev acc) (match send with Some e => e | None => S pos end)
        (match send with Some _ => true | None => false end).
Proof. intros H. cbn [read_name]. now rewrite H. Qed.

Lemma read_name_label c fuel (buf : list byte) pos start acc alen send :
  nth_error buf pos = Some c -> c <> 0 -> N.land c 192 = 0 ->
  (alen + N.to_nat c + 1 <= 255)%nat -> (pos + N.to_nat c < length buf)%nat ->
  read_name (S fuel) buf pos start None acc alen send =
    read_name fuel buf (S pos + N.to_nat c) start None
              (firstn (N.to_nat c) (skipn (S pos) buf) :: acc) (alen + N.to_nat c + 1) send.
Proof.
  intros Hc Hc0 H0 Ha Hl. cbn [read_name]. rewrite Hc, (proj2 (N.eqb_neq c 0) Hc0), H0.
  cbv zeta. rewrite firstn_length, skipn_length.
  now rewrite (proj2 (Nat.ltb_ge _ _)), (proj2 (Nat.ltb_ge _ _)) by lia.
Qed.

Definition settled (r : nres) : Prop := r <> NPanic /\ r <> NFuel.

Lemma settled_NErr : settled NErr. Proof. split; discriminate. Qed.
Lemma settled_NOk l e p : settled (NOk l e p). Proof. split; discriminate. Qed.

Lemma read_name_settled : forall fuel buf pos start pmax acc alen send,
  (start <= pos)%nat -> (Nat.min start (length buf + 1) + (256 - alen) < fuel)%nat ->
  settled (read_name fuel buf pos start pmax acc alen send).
Proof.
  induction fuel as [|fuel IH]; intros buf pos start pmax acc alen send Hsp Hf; [lia|].
  destruct (read_name_turn fuel buf pos start pmax acc alen send).
  - apply settled_NErr.
  - (* a panic needs length buf < start, but start <= pos < length buf *) exfalso; lia.
  - apply settled_NOk.
  - (* a jump lowers [start], and lands inside the buffer or on its end *) apply IH; lia.
  - (* a label raises [alen] towards 255 *) apply IH; lia.
Qed.

Lemma read_name_at_settled buf pos : settled (read_name_at buf pos).
Proof. apply read_name_settled; unfold name_fuel; lia. Qed.

Lemma read_name_end : forall fuel buf pos start pmax acc alen send labels e p,
  read_name fuel buf pos start pmax acc alen send = NOk labels e p ->
  match send with
  | Some e0 => e = e0 /\ p = true
  | None => (pos < e <= length buf)%nat
  end.
Proof.
  induction fuel as [|fuel IH]; intros buf pos start pmax acc alen send labels e p; [discriminate|].
  destruct (read_name_turn fuel buf pos start pmax acc alen send); try discriminate; intros Hr.
  - injection Hr as _ <- <-. destruct send; [auto|lia].
  - apply IH in Hr. destruct send; [exact Hr|]. destruct Hr as [-> _]. lia.
  - apply IH in Hr. destruct send; [exact Hr|]. lia.
Qed.

(* one turn per label, each raises [alen]: any fuel above 256 - alen does *)
Lemma read_name_ext : forall fuel fuel' buf buf' pos start acc alen labels e,
  read_name fuel buf pos start None acc alen None = NOk labels e false ->
  (forall i, (pos <= i < e)%nat -> nth_error buf' i = nth_error buf i) ->
  (256 - alen < fuel')%nat ->
  read_name fuel' buf' pos start None acc alen None = NOk labels e false.
Proof.
  induction fuel as [|fuel IH]; intros [|fuel'] buf buf' pos start acc alen labels e H Hext Hf;
    [discriminate|discriminate|lia|].
  pose proof H as Hb. apply read_name_end in Hb. cbn match in Hb.
  pose proof (Hext pos ltac:(lia)) as Hp. revert H.
  destruct (read_name_turn fuel buf pos start None acc alen None) as [| |Hc _|loc|c Hc Hc0 H0 Ha Hl];
    try discriminate; intros Hr.
  - rewrite <- Hr. apply read_name_zero. congruence.
  - (* a pointer: the result would be flagged *)
    apply read_name_end in Hr. now destruct Hr.
  - pose proof Hr as Hb2. apply read_name_end in Hb2. cbn match in Hb2.
    rewrite (read_name_label c); [|congruence|assumption..|].
    + rewrite (firstn_skipn_ext _ buf) by (intros; apply Hext; lia).
      eapply IH; [exact Hr| |lia]. intros i Hi. apply Hext. lia.
    + (* the label's last byte is among those that agree, so it exists in [buf'] as well *)
      apply nth_error_Some. rewrite Hext by lia. apply nth_error_Some. lia.
Qed.

Lemma read_name_at_ext buf buf' pos labels e :
  read_name_at buf pos = NOk labels e false ->
  (forall i, (pos <= i < e)%nat -> nth_error buf' i = nth_error buf i) ->
  read_name_at buf' pos = NOk labels e false.
Proof. intros H Hext. eapply read_name_ext; [exact H|exact Hext|unfold name_fuel; lia]. Qed.

(* C11 — AccessControl::allow computes the documented rule. *)
From HV Require Import Lib.Base Lib.ListX C11.Model.
Open Scope N_scope.

Lemma net_match_covers v6 a n : net_match v6 a n = true <-> covers v6 a n.
Proof.
  unfold net_match, covers. rewrite andb_true_iff, Bool.eqb_true_iff, N.eqb_eq.
  rewrite !N.shiftr_div_pow2. reflexivity.
Qed.

Lemma net_match_false v6 a n : net_match v6 a n = false <-> ~ covers v6 a n.
Proof. rewrite <- net_match_covers. destruct (net_match v6 a n); split; congruence. Qed.

Lemma lpm_spec v6 a l :
  match lpm v6 a l with
  | None => ~ exists n, In n l /\ covers v6 a n
  | Some m => (exists n, In n l /\ covers v6 a n /\ n_len n = m) /\
              (forall n, In n l -> covers v6 a n -> n_len n <= m)
  end.
Proof.
  induction l as [|n l IH]; cbn [lpm In]; [intros (n & [] & _)|].
  destruct (net_match v6 a n) eqn:Hm; [apply net_match_covers in Hm|apply net_match_false in Hm];
    destruct (lpm v6 a l) as [m'|].
  - destruct IH as [(n0 & Hin & Hc & Hlen) Hmax]. split.
    + destruct (N.max_spec (n_len n) m') as [[Hlt ->]|[Hle ->]]; [exists n0|exists n]; cbn [In]; auto.
    + intros n' [<-|Hin'] Hc'; [lia|]. specialize (Hmax n' Hin' Hc'). lia.
  - split; [eauto|]. intros n' [<-|Hin'] Hc'; [lia|]. destruct IH; eauto.
  - destruct IH as [(n0 & Hin & Hc & Hlen) Hmax]. split; [exists n0; cbn [In]; auto|].
    intros n' [<-|Hin'] Hc'; [contradiction|auto].
  - intros (n' & [<-|Hin'] & Hc'); [contradiction|]. apply IH; eauto.
Qed.

Lemma fam_nonempty_spec v6 l : fam_nonempty v6 l = true <-> exists n, In n l /\ n_v6 n = v6.
Proof. apply existsb_iff. intros n. apply Bool.eqb_true_iff. Qed.

Lemma fam_nonempty_false v6 l : fam_nonempty v6 l = false <-> forall n, In n l -> n_v6 n <> v6.
Proof.
  rewrite <- not_true_iff_false, fam_nonempty_spec. split.
  - intros H n Hin Hv. apply H. eauto.
  - intros H (n & Hin & Hv). exact (H n Hin Hv).
Qed.

Theorem acl_allow_spec c v6 a : acl_allow c v6 a = true <-> acl_spec c v6 a.
Proof.
  unfold acl_allow, acl_spec. destruct (canonical v6 a) as [w b]. cbn [fst snd].
  generalize (lpm_spec w b (a_deny c)) (lpm_spec w b (a_allow c)).
  destruct (lpm w b (a_deny c)) as [d|], (lpm w b (a_allow c)) as [al|]; intros Hd Ha.
  - destruct Hd as [(nd & Hdin & Hdc & Hdl) Hdmax], Ha as [(na & Hain & Hac & Hal) Hamax].
    rewrite N.ltb_lt. split.
    + intros Hlt. left. split; [eauto|].
      exists na. split; [exact Hain|]. split; [exact Hac|].
      intros d' Hin' Hc'. specialize (Hdmax d' Hin' Hc'). lia.
    + intros [[_ (al0 & Hin0 & Hc0 & Hall)]|[[] _]]; [|eauto].
      specialize (Hall nd Hdin Hdc). specialize (Hamax al0 Hin0 Hc0). lia.
  - destruct Hd as [(nd & Hdin & Hdc & Hdl) Hdmax]. split; [discriminate|].
    intros [[_ (al0 & Hin0 & Hc0 & _)]|[[] _]]; [|eauto]. destruct Ha; eauto.
  - destruct Ha as [(na & Hain & Hac & Hal) Hamax].
    split; [|reflexivity]. intros _. right. split; [exact Hd|eauto].
  - destruct (fam_nonempty w (a_deny c)) eqn:Hfd.
    + split; [|reflexivity]. intros _. right. split; [exact Hd|].
      right. left. now apply fam_nonempty_spec.
    + destruct (fam_nonempty w (a_allow c)) eqn:Hfa.
      * split; [discriminate|].
        intros [[H _]|[_ [H|[Hex|Hall]]]]; [now destruct Hd|now destruct Ha| |].
        -- apply fam_nonempty_spec in Hex. congruence.
        -- apply fam_nonempty_false in Hall. congruence.
      * split; [|reflexivity]. intros _. right. split; [exact Hd|].
        right. right. now apply fam_nonempty_false.
Qed.

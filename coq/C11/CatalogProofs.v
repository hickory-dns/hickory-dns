(* C11 — Catalog::find is the longest-suffix search; every path through the catalog sends exactly
   one reply that echoes id, opcode and question; query data comes from the selected zone only. *)
From HV Require Import Lib.Base Lib.ListX C11.Model.
Open Scope N_scope.

Lemma label_eqb_eq a b : label_eqb a b = true <-> a = b.
Proof. apply list_eqb_eq. intros; apply N.eqb_eq. Qed.
Lemma name_eqb_eq a b : name_eqb a b = true <-> a = b.
Proof. apply list_eqb_eq. apply label_eqb_eq. Qed.
Lemma name_eqb_neq a b : name_eqb a b = false <-> a <> b.
Proof. rewrite <- name_eqb_eq. destruct (name_eqb a b); split; congruence. Qed.

Lemma zone_get_spec zs n :
  match zone_get zs n with
  | Some (i, ch) =>
      nth_error zs (N.to_nat i) = Some (n, ch) /\
      forall j o' ch', (j < N.to_nat i)%nat -> nth_error zs j = Some (o', ch') -> o' <> n
  | None => forall o ch, In (o, ch) zs -> o <> n
  end.
Proof.
  induction zs as [|[o c] zs IH]; cbn [zone_get]; [intros o ch []|].
  destruct (name_eqb o n) eqn:E.
  - apply name_eqb_eq in E. subst. split; [reflexivity|]. intros j o' ch' Hj. cbn in Hj. lia.
  - apply name_eqb_neq in E. destruct (zone_get zs n) as [[i c']|].
    + destruct IH as [Hn Hlt]. rewrite N2Nat.inj_succ. split; [exact Hn|].
      intros [|j] o' ch' Hj Hnth; cbn in Hnth; [injection Hnth as <- _; exact E|].
      apply (Hlt j o' ch'); [lia|exact Hnth].
    + intros o' ch' [[= <- _]|Hin]; [exact E|exact (IH o' ch' Hin)].
Qed.

Lemma zone_get_none zs n : zone_get zs n = None -> forall o ch, In (o, ch) zs -> o <> n.
Proof. intros G. pose proof (zone_get_spec zs n) as H. now rewrite G in H. Qed.

Lemma is_suffix_refl {A} (n : list A) : is_suffix n n.
Proof. exists []. reflexivity. Qed.
Lemma is_suffix_cons {A} (o n : list A) x : is_suffix o n -> is_suffix o (x :: n).
Proof. intros [p ->]. exists (x :: p). reflexivity. Qed.
Lemma is_suffix_cons_inv {A} (o n : list A) x : is_suffix o (x :: n) -> o = x :: n \/ is_suffix o n.
Proof.
  intros [[|y p] H]; cbn in H.
  - left. congruence.
  - right. inversion H. exists p. reflexivity.
Qed.
Lemma is_suffix_length {A} (o n : list A) : is_suffix o n -> (length o <= length n)%nat.
Proof. intros [p ->]. rewrite app_length. lia. Qed.
Lemma is_suffix_nil_inv {A} (o : list A) : is_suffix o [] -> o = [].
Proof. intros [p H]. symmetry in H. apply app_eq_nil in H. tauto. Qed.

(* [find] recurses on [n] but looks at it only after [zone_get]: one unfolding, with no case split on [n] *)
Lemma find_eq zs n : find zs n =
  match zone_get zs n with
  | Some r => Some r
  | None => match n with [] => None | _ :: n' => find zs n' end
  end.
Proof. destruct n; reflexivity. Qed.

Lemma zone_get_longest {zs n i ch} : zone_get zs n = Some (i, ch) -> longest_zone zs n i ch.
Proof.
  intros G. pose proof (zone_get_spec zs n) as H. rewrite G in H. destruct H as [Hn Hlt].
  exists n. repeat split; auto using is_suffix_refl.
  intros o' ch' _ Hs. now apply is_suffix_length.
Qed.

Lemma longest_zone_not_no_zone {zs n i ch} : longest_zone zs n i ch -> ~ no_zone zs n.
Proof. intros (o & Hn & Hs & _) H. exact (H o ch (nth_error_In _ _ Hn) Hs). Qed.

Lemma find_spec : forall n zs,
  match find zs n with
  | Some (i, ch) => longest_zone zs n i ch
  | None => no_zone zs n
  end.
Proof.
  induction n as [|x n IH]; intros zs; rewrite find_eq;
    destruct (zone_get zs _) as [[i ch]|] eqn:G; try exact (zone_get_longest G).
  - intros o ch Hin Hs. apply is_suffix_nil_inv in Hs. subst. exact (zone_get_none zs [] G _ _ Hin eq_refl).
  - (* no zone is called x :: n, so the origins that are suffixes of x :: n are those of n *)
    assert (Hx : forall o ch, In (o, ch) zs -> is_suffix o (x :: n) -> is_suffix o n).
    { intros o ch Hin Hs. apply is_suffix_cons_inv in Hs. destruct Hs as [->|Hs]; [|exact Hs].
      destruct (zone_get_none zs (x :: n) G _ _ Hin eq_refl). }
    specialize (IH zs). destruct (find zs n) as [[i ch]|].
    + destruct IH as (o & Hn & Hs & Hmax & Hfirst). exists o. repeat split; eauto using is_suffix_cons.
    + intros o ch Hin Hs. exact (IH o ch Hin (Hx o ch Hin Hs)).
Qed.

Lemma longest_zone_unique {zs n i ch i' ch'} :
  longest_zone zs n i ch -> longest_zone zs n i' ch' -> i = i' /\ ch = ch'.
Proof.
  intros (o & Hn & Hs & Hmax & Hfirst) (o' & Hn' & Hs' & Hmax' & Hfirst').
  assert (Ho : o = o').
  { pose proof (Hmax o' ch' (nth_error_In _ _ Hn') Hs') as L1.
    pose proof (Hmax' o ch (nth_error_In _ _ Hn) Hs) as L2.
    destruct Hs as [p Hp], Hs' as [p' Hp']. rewrite Hp in Hp'.
    apply app_inj_length in Hp' as [_ Hp']; [exact Hp'|].
    apply (f_equal (@length _)) in Hp'. rewrite !app_length in Hp'. lia. }
  subst o'.
  assert (Hi : N.to_nat i = N.to_nat i').
  { destruct (Nat.lt_trichotomy (N.to_nat i) (N.to_nat i')) as [L|[E|L]]; [|exact E|].
    - exfalso. exact (Hfirst' _ _ _ L Hn eq_refl).
    - exfalso. exact (Hfirst _ _ _ L Hn' eq_refl). }
  apply N2Nat.inj in Hi. subst i'. rewrite Hn in Hn'. inversion Hn'. auto.
Qed.

Lemma find_longest_zone zs n i ch : find zs n = Some (i, ch) <-> longest_zone zs n i ch.
Proof.
  pose proof (find_spec n zs) as H. split.
  - intros E. now rewrite E in H.
  - intros Hz. destruct (find zs n) as [[i' ch']|].
    + now destruct (longest_zone_unique H Hz) as [-> ->].
    + destruct (longest_zone_not_no_zone Hz H).
Qed.

Theorem find_no_zone zs n : find zs n = None <-> no_zone zs n.
Proof.
  pose proof (find_spec n zs) as H. split.
  - intros E. now rewrite E in H.
  - intros Hz. destruct (find zs n) as [[i ch]|]; [|reflexivity]. destruct (longest_zone_not_no_zone H Hz).
Qed.

Definition all_z (z : N) (ms : list marker) : Prop := Forall (fun m => mk_z m = z) ms.

Lemma markers_from_z z h role k j : all_z z (markers_from z h role k j).
Proof. revert j; induction k as [|k IHk]; intros j; cbn; constructor; auto. apply IHk. Qed.

Definition lres_z (z : N) (r : lres) : Prop := match r with LOk ms => all_z z ms | LErr _ => True end.
Definition lflow_z (z : N) (f : lflow) : Prop :=
  match f with LSkip => True | LCont r => lres_z z r | LBreak r => lres_z z r end.

Lemma run_flow_z z h role f : lflow_z z (run_flow z h role f).
Proof. destruct f as [|[k|e]|[k|e]]; cbn; auto using markers_from_z. Qed.

Lemma consult_all_z z : forall chain i skip cur, lflow_z z cur -> lflow_z z (consult_all z chain i skip cur).
Proof.
  induction chain as [|hs chain IH]; intros i skip cur H; cbn [consult_all]; [exact H|].
  apply IH. destruct (i =? skip); [exact H|]. destruct (hs_consult hs); [apply run_flow_z|exact H].
Qed.

Lemma aux_records_z z h hs : all_z z (aux_records z h hs).
Proof.
  unfold aux_records. pose proof (run_flow_z z h 2 (hs_aux hs)) as H.
  destruct (run_flow z h 2 (hs_aux hs)) as [|[ms|e]|[ms|e]]; cbn in *; auto; constructor.
Qed.

Definition echo (hd : header) (q : question) (e : option edns_out) (r : reply) : Prop :=
  r_id r = h_id hd /\ r_opcode r = h_opcode hd /\ r_question r = Some (q_raw q) /\ r_edns r = e.

Lemma error_msg_echo hd q e rc : echo hd q e (error_msg hd (Some (q_raw q)) e rc).
Proof. repeat split. Qed.

Lemma build_response_shape hd q e z h hs r : exists aa ra rc an au,
  build_response hd q e z h hs r =
    Reply (h_id hd) (h_opcode hd) aa (h_rd hd) ra (h_cd hd) rc (Some (q_raw q)) an au e /\
  (an = [] \/ r = LOk an) /\ (au = [] \/ au = aux_records z h hs).
Proof.
  (* build_response matches LErr 1, 2, 3 literally: [r] is split down to those positives *)
  unfold build_response. destruct (hs_type hs =? 2).
  - destruct (negb (h_rd hd)); [|destruct r as [ms|[|[[p|p|]|[p|p|]|]]]];
      do 5 eexists; (split; [reflexivity|auto]).
  - destruct r as [ms|[|[[p|p|]|[p|p|]|]]]; [destruct (q_type q =? 6)|..];
      do 5 eexists; (split; [reflexivity|auto]).
Qed.

Lemma build_response_ok hd q e z h hs r : lres_z z r ->
  echo hd q e (build_response hd q e z h hs r) /\ all_z z (reply_markers (build_response hd q e z h hs r)).
Proof.
  intros Hz. destruct (build_response_shape hd q e z h hs r) as (aa & ra & rc & an & au & -> & Han & Hau).
  split; [repeat split|]. apply Forall_app. split.
  - destruct Han as [->| ->]; [constructor|exact Hz].
  - destruct Hau as [->| ->]; [constructor|apply aux_records_z].
Qed.

Lemma lookup_chain_one hd q e z all : forall rest i,
  exists r, lookup_chain hd q e z all rest i = [r] /\ echo hd q e r /\ all_z z (reply_markers r).
Proof.
  induction rest as [|hs rest IH]; intros i; cbn [lookup_chain].
  - eexists; repeat split; constructor.
  - pose proof (run_flow_z z i 0 (hs_search hs)) as Hz.
    destruct (run_flow z i 0 (hs_search hs)) as [|r|r]; cbn [lflow_z] in Hz.
    + apply IH.
    + pose proof (consult_all_z z all 0 i (LCont r) Hz) as Hc.
      destruct (consult_all z all 0 i (LCont r)) as [|r'|r']; cbn [map_result lflow_z] in *.
      * eexists; repeat split; constructor.
      * eexists; split; [reflexivity|]. now apply build_response_ok.
      * eexists; split; [reflexivity|]. now apply build_response_ok.
    + eexists; split; [reflexivity|]. now apply build_response_ok.
Qed.

Lemma xfer_chain_one hd q e : forall rest,
  exists r, xfer_chain hd q e rest = [r] /\ echo hd q e r /\ reply_markers r = [].
Proof.
  induction rest as [|hs rest IH]; cbn [xfer_chain]; [|destruct (hs_xfer hs =? 0); [exact IH|]];
    eexists; repeat split.
Qed.

Lemma update_reply_one hd q e zs : h_opcode hd = 5 ->
  exists r, update_reply hd q e zs = [r] /\ echo hd q e r /\ reply_markers r = [].
Proof.
  intros Hop. unfold update_reply.
  destruct (negb (q_type q =? 6)); [|destruct (find zs (q_name q)) as [[z [|hs ch]]|]];
    eexists; repeat split.
  (* the one reply not made by error_msg sets the opcode itself *)
  symmetry. exact Hop.
Qed.

(* the OPT record of every reply except BADVERS *)
Definition edns_reply (c : config) (ed : option edns_in) : option edns_out :=
  option_map (fun ei => EdnsOut (N.max (ei_payload ei) 512) (ei_do ei) (if ei_nsid ei then c_nsid c else None)) ed.

Lemma catalog_badvers c hd q {ei} : 0 < ei_version ei ->
  catalog c hd q (Some ei) =
    [error_msg hd (Some (q_raw q)) (Some (EdnsOut (N.max (ei_payload ei) 512) (ei_do ei) None)) 16].
Proof. intros Hv. apply N.ltb_lt in Hv. unfold catalog. now rewrite Hv. Qed.

Section Version0.
  Variables (c : config) (hd : header) (q : question) (ed : option edns_in).
  Hypothesis Hver : forall ei, ed = Some ei -> ei_version ei = 0.

  Lemma version_gate_open : match ed with Some ei => 0 <? ei_version ei | None => false end = false.
  Proof. destruct ed as [ei|]; [|reflexivity]. now rewrite (Hver ei eq_refl). Qed.

  Lemma catalog_notimp : h_opcode hd <> 0 -> h_opcode hd <> 5 ->
    catalog c hd q ed = [error_msg hd (Some (q_raw q)) (edns_reply c ed) 4].
  Proof. intros H0 H5. apply N.eqb_neq in H0, H5. unfold catalog. now rewrite version_gate_open, H0, H5. Qed.

  Lemma catalog_no_zone : h_opcode hd = 0 -> find (c_zones c) (q_name q) = None ->
    catalog c hd q ed = [error_msg hd (Some (q_raw q)) (edns_reply c ed) 5].
  Proof. intros H0 Hf. unfold catalog. now rewrite version_gate_open, H0, Hf. Qed.

  Lemma catalog_zone i ch : h_opcode hd = 0 -> find (c_zones c) (q_name q) = Some (i, ch) ->
    exists r, catalog c hd q ed = [r] /\ echo hd q (edns_reply c ed) r /\ all_z i (reply_markers r).
  Proof.
    intros H0 Hf. unfold catalog. rewrite version_gate_open, H0, N.eqb_refl, Hf.
    destruct (q_type q =? 252); [|apply lookup_chain_one].
    destruct (xfer_chain_one hd q (edns_reply c ed) ch) as (r & Hr & He & Hm).
    exists r. split; [exact Hr|]. split; [exact He|]. rewrite Hm. constructor.
  Qed.

  Lemma catalog_update : h_opcode hd = 5 ->
    exists r, catalog c hd q ed = [r] /\ echo hd q (edns_reply c ed) r /\ reply_markers r = [].
  Proof.
    intros H5. unfold catalog. rewrite version_gate_open, H5. exact (update_reply_one hd q _ (c_zones c) H5).
  Qed.
End Version0.

Lemma catalog_one c hd q ed : exists r e, catalog c hd q ed = [r] /\ echo hd q e r.
Proof.
  destruct (match ed with Some ei => 0 <? ei_version ei | None => false end) eqn:Hv.
  { destruct ed as [ei|]; [|discriminate]. apply N.ltb_lt in Hv. rewrite (catalog_badvers c hd q Hv).
    eexists _, _. split; [reflexivity|apply error_msg_echo]. }
  assert (Hver : forall ei, ed = Some ei -> ei_version ei = 0).
  { intros ei ->. apply N.ltb_ge in Hv. lia. }
  destruct (N.eq_dec (h_opcode hd) 0) as [H0|H0]; [|destruct (N.eq_dec (h_opcode hd) 5) as [H5|H5]].
  - destruct (find (c_zones c) (q_name q)) as [[z ch]|] eqn:Hf.
    + destruct (catalog_zone c hd q ed Hver z ch H0 Hf) as (r & Hr & He & _). eauto.
    + rewrite (catalog_no_zone c hd q ed Hver H0 Hf). eexists _, _. split; [reflexivity|apply error_msg_echo].
  - destruct (catalog_update c hd q ed Hver H5) as (r & Hr & He & _). eauto.
  - rewrite (catalog_notimp c hd q ed Hver H0 H5). eexists _, _. split; [reflexivity|apply error_msg_echo].
Qed.

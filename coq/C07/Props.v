(* C07 — property theorems.  [validate U anchors now maxd nsecv nsec3v sched q] is the model of
   DnssecDnsHandle::send on a fresh handle: U is the wrapped handle (the network, i.e. the
   adversary: ANY function from queries to replies), nsecv / nsec3v are the NSEC / NSEC3 decision
   procedures (C08 / C09; arbitrary here), sched the order in which select_ok sees finished
   verifications (any sub-order).  Cryptography is symbolic (see Model.v).
   Suffixes: _refuted = the faithful model (and the real code, see known_findings.json) violates
   the statement, witness included; _guarded = what holds outside the named class;
   _partial = a weaker statement than the property asks for, the missing part is said in the comment. *)
From HV Require Import Lib.Base C07.Model C07.ServerProofs C07.ModelFacts C07.Layer C07.ChainProofs
  C07.GenuineProofs C07.InsecureProofs C07.WitnessProofs.
Open Scope N_scope.

(* 1. Secure implies a chain from a trust anchor (every upstream) *)

(* Every non-signature record that comes back Secure, in an accepted message or in the message
   carried by an NSEC error, is authenticated: it is a trust-anchor key, or a key vouched for by
   an authenticated DS record (digest, algorithm, tag, zone flag), or a member of an RRset that
   was delivered whole together with a signature over exactly that RRset which verifies, inside
   its validity window, under an authenticated, unrevoked zone key whose owner is the signer name
   and is the owner of the RRset or an ancestor of it (3.; checked since the fix of finding C07-K3).
   NOTE what the chain does NOT contain, because the code does not check it: a DNSKEY may be
   accepted through the DS clause alone (4.). *)
Theorem C07_secure_implies_chain :
  forall U anchors now maxd nsecv nsec3v sched,
  (forall l x, In x (sched l) -> In x l) ->
  forall q rc a au r,
  (validate U anchors now maxd nsecv nsec3v sched q = VOk rc a au \/
   exists p, validate U anchors now maxd nsecv nsec3v sched q = VNsec p rc a au) ->
  In (r, Secure) (a ++ au) -> is_sig r = false ->
  Auth U anchors now r.
Proof. intros. eapply validate_sound; eauto. Qed.
Print Assumptions C07_secure_implies_chain.

(* 2. Dolev-Yao authenticity *)

(* If no key below the anchors is the adversary's — anchors are honest, honest operators put
   only honest keys into the DNSKEY RRsets they sign and only digests of honest keys into DS
   RRsets, and a signature value of an honest key exists only over data its operator signed —
   then a Secure record that is not a DNSKEY lies in an RRset that its operator signed WHOLE
   under that name and type (nothing altered, removed, injected, or taken from elsewhere), and
   a Secure DNSKEY is an honest key.
   Guarded: the world must contain no adversary-owned delegated zone (every key below the anchors
   is honest; with 3. an adversary-owned zone can only speak for names at or below its own apex, but
   that refinement of the hypothesis is not stated here), and for DNSKEY records only honesty of
   the key, not completeness of the RRset, is obtained (see 4.). *)
Theorem C07_secure_implies_genuine_guarded :
  forall U anchors now maxd nsecv nsec3v sched (Honest : N -> Prop) (Genuine : tbs -> Prop),
  (forall l x, In x (sched l) -> In x l) ->
  (forall sec s tc alg labels ottl exp inc tag signer pk t,
     Delivered U sec -> In s sec ->
     rbody s = BSig tc alg labels ottl exp inc tag signer (SGen pk t) -> Honest pk -> Genuine t) ->
  (forall pk, In pk anchors -> Honest pk) ->
  (forall t kr sec, Genuine t -> t_type t = T_DNSKEY -> Delivered U sec -> In kr sec -> is_key kr = true ->
     In (rid kr) (t_rids t) -> Honest (key_pk kr)) ->
  (forall t d kr sec, Genuine t -> t_type t = T_DS -> Delivered U sec -> In d sec -> In (rid d) (t_rids t) ->
     DsVouches d kr -> Honest (key_pk kr)) ->
  forall q rc a au r,
  (validate U anchors now maxd nsecv nsec3v sched q = VOk rc a au \/
   exists p, validate U anchors now maxd nsecv nsec3v sched q = VNsec p rc a au) ->
  In (r, Secure) (a ++ au) -> is_sig r = false ->
  (is_key r = true -> Honest (key_pk r)) /\ (is_key r = false -> GenuineSet U Genuine r).
Proof.
  intros U anchors now maxd nsecv nsec3v sched Honest Genuine Hs Hunforge Hanchors Hkeys Hds q rc a au r Hv Hin Hsig.
  eapply auth_genuine; eauto. eapply validate_sound; eauto.
Qed.
Print Assumptions C07_secure_implies_genuine_guarded.

(* 3. The signer is the zone of the record *)

(* RFC 4035 5.3.1: "the RRSIG RR's Signer's Name field MUST be the name of the zone that contains
   the RRset".  verify_default_rrset relates the signer name to the owner (the fix of finding
   C07-K3-signer-not-ancestor: before it, forged www.leaf.tld A signed by the key of the properly
   delegated sibling evil.tld was Secure), so the statements below hold for EVERY upstream, without
   any hypothesis on what is delivered. *)

(* Every Secure record that is not a DNSKEY was delivered in an RRset, whole, together with a
   signature record that verifies over exactly that RRset under an authenticated zone key, the
   owner of that key is the signature's signer name, and that name is the record's owner or an
   ancestor of it: the signature is made by a key of an ancestor-or-equal zone of the owner. *)
Theorem C07_signer_is_ancestor :
  forall U anchors now maxd nsecv nsec3v sched,
  (forall l x, In x (sched l) -> In x l) ->
  forall q rc a au r,
  (validate U anchors now maxd nsecv nsec3v sched q = VOk rc a au \/
   exists p, validate U anchors now maxd nsecv nsec3v sched q = VNsec p rc a au) ->
  In (r, Secure) (a ++ au) -> is_sig r = false -> is_key r = false ->
  exists sec k s kr,
    Delivered U sec /\ In r (recs_of k sec) /\ In s (sigs_of k sec) /\
    SigOk now k (recs_of k sec) kr s /\ Auth U anchors now kr /\
    sig_signer s = owner kr /\ zone_of (owner kr) (owner r) = true.
Proof.
  intros U anchors now maxd nsecv nsec3v sched Hs q rc a au r Hv Hin Hsig Hk.
  eapply auth_zone_signed; eauto. eapply validate_sound; eauto.
Qed.
Print Assumptions C07_signer_is_ancestor.

(* A Secure record was delivered with a signature of its RRset whose signer is its owner or an
   ancestor of its owner; nothing is assumed about the signer names the upstream delivers. *)
Theorem C07_secure_signed_by_own_zone :
  forall U anchors now maxd nsecv nsec3v sched,
  (forall l x, In x (sched l) -> In x l) ->
  forall q rc a au r,
  (validate U anchors now maxd nsecv nsec3v sched q = VOk rc a au \/
   exists p, validate U anchors now maxd nsecv nsec3v sched q = VNsec p rc a au) ->
  In (r, Secure) (a ++ au) -> is_sig r = false -> is_key r = false ->
  HomeSigned U r.
Proof.
  intros U anchors now maxd nsecv nsec3v sched Hs q rc a au r Hv Hin Hsig Hk.
  eapply auth_home_signed; eauto. eapply validate_sound; eauto.
Qed.
Print Assumptions C07_secure_signed_by_own_zone.

(* The attack of finding C07-K3 (forged www.leaf.tld A with a genuine signature of evil.tld's
   key, signer name evil.tld; the forged record is not HomeSigned) is rejected: the forged record
   comes back Bogus and nothing in the response is Secure. *)
Theorem C07_foreign_signer_rejected :
  exists rc a au,
    run_tbl w3_tbl [1] 1700000000 ([6; 2; 1], 1) = VOk rc a au /\ In (w3_forged, Bogus) a /\
    (forall r, ~ In (r, Secure) (a ++ au)) /\ ~ HomeSigned (table_upstream w3_tbl) w3_forged.
Proof.
  destruct w3_rejected as (rc & a & au & Hv & Hin & Hno).
  exists rc, a, au. repeat split; auto. exact w3_not_home_signed.
Qed.
Print Assumptions C07_foreign_signer_rejected.

(* 4. DNSKEY RRsets accepted key by key *)

(* "A Secure record belongs to an RRset covered by a verifying signature" is false for DNSKEY:
   with the ZSK and every valid RRSIG stripped, the remaining DS-matched KSK is Secure
   (confirmed on the real code: finding C07-K4-dnskey-set-accepted-without-signature). *)
Theorem C07_secure_set_is_signed_refuted :
  exists tbl anchors now q rc a au r,
    run_tbl tbl anchors now q = VOk rc a au /\ In (r, Secure) a /\ is_sig r = false /\
    ~ SetSigned (table_upstream tbl) now r.
Proof.
  destruct w4_secure as (rc & a & au & Hv & Hin).
  exists w4_tbl, [1], 1700000000, ([2; 1], T_DNSKEY), rc, a, au, w4_key.
  repeat split; auto. exact w4_not_set_signed.
Qed.
Print Assumptions C07_secure_set_is_signed_refuted.

(* For every record type other than DNSKEY it holds, for every upstream. *)
Theorem C07_secure_set_is_signed_guarded :
  forall U anchors now maxd nsecv nsec3v sched,
  (forall l x, In x (sched l) -> In x l) ->
  forall q rc a au r,
  (validate U anchors now maxd nsecv nsec3v sched q = VOk rc a au \/
   exists p, validate U anchors now maxd nsecv nsec3v sched q = VNsec p rc a au) ->
  In (r, Secure) (a ++ au) -> is_sig r = false -> is_key r = false ->
  SetSigned U now r.
Proof.
  intros U anchors now maxd nsecv nsec3v sched Hs q rc a au r Hv Hin Hsig Hk.
  eapply auth_set_signed; eauto. eapply validate_sound; eauto.
Qed.
Print Assumptions C07_secure_set_is_signed_guarded.

(* 5. Where Insecure comes from *)

(* Every record reported Insecure traces back to a DS lookup for some name z, somewhere in the
   nest of validated sub-queries, whose response the validator ACCEPTED (VOk) and which holds no
   Secure DS record with a supported algorithm and digest type: Insecure is never produced by
   a signature failure, a missing key, a timeout or an error.
   PARTIAL: the property wants that accepted DS response to be a validated denial (NSEC/NSEC3
   proving no DS).  The code does not guarantee that — next theorem.  (That z is the record's
   owner or an ancestor of it — signer names are tied to the owner since the fix of K3, see 3. —
   is not part of this statement.) *)
Theorem C07_insecure_only_if_ds_unusable_partial :
  forall U anchors now maxd nsecv nsec3v sched,
  forall q rc a au r,
  (validate U anchors now maxd nsecv nsec3v sched q = VOk rc a au \/
   exists p, validate U anchors now maxd nsecv nsec3v sched q = VNsec p rc a au) ->
  In (r, Insecure) (a ++ au) ->
  exists fuel d z, InsecureDelegation (send U anchors now maxd nsecv nsec3v sched fuel d) z.
Proof.
  intros U anchors now maxd nsecv nsec3v sched q rc a au r H Hin. unfold validate in H.
  apply (records_of_in _ _ _ _ _ H), send_insecure in Hin. destruct Hin as (fuel & d & z & _ & _ & Hz). now exists fuel, d, z.
Qed.
Print Assumptions C07_insecure_only_if_ds_unusable_partial.

(* "Insecure needs denial material" is false: in a world where root, tld and leaf.tld are all
   signed and the upstream delivers no NSEC, no NSEC3 and no unsupported DS at all, dropping the
   single DS record from the (tld, DS) response (its RRSIG stays, so the answer section is not
   empty) makes the validator report the leaf.tld DS RRset — and everything below tld — Insecure
   (confirmed on the real code: finding C07-K2-nonempty-answer-needs-no-denial). *)
Theorem C07_insecure_requires_denial_refuted :
  exists tbl anchors now q rc a au r,
    run_tbl tbl anchors now q = VOk rc a au /\ In (r, Insecure) a /\
    ~ DenialMaterial (table_upstream tbl).
Proof.
  destruct w2_insecure as (rc & a & au & Hv & Hin).
  exists w2_tbl, [1], 1700000000, ([2; 1], T_DS), rc, a, au, w2_ds.
  repeat split; auto. exact w2_no_denial_material.
Qed.
Print Assumptions C07_insecure_requires_denial_refuted.

(* That class is the only way: if the upstream delivers no NSEC, NSEC3 or unsupported-DS record and
   every response to a DS query has an empty answer section or a DS record in it (i.e. outside
   C07-K2), then no upstream, however it tampers, gets any record reported Insecure.
   (When denial material IS around, findings K5 / K6 are further ways to an unjustified
   Insecure; that part of the property is not proved — see 5. partial.) *)
Theorem C07_insecure_requires_denial_guarded :
  forall U anchors now maxd nsecv nsec3v sched,
  (forall sec x, Delivered U sec -> In x sec -> denial_material x = false) ->
  (forall q m, msg_of (U q) = Some m -> snd q = T_DS -> ans m = [] \/ existsb is_ds (ans m) = true) ->
  forall q rc a au r,
  (validate U anchors now maxd nsecv nsec3v sched q = VOk rc a au \/
   exists p, validate U anchors now maxd nsecv nsec3v sched q = VNsec p rc a au) ->
  ~ In (r, Insecure) (a ++ au).
Proof. intros. eapply validate_never_insecure; eauto. Qed.
Print Assumptions C07_insecure_requires_denial_guarded.

(* 6. Recursion depth *)

(* For every upstream the nest of validated sub-queries is at most max_request_depth + 2 deep:
   with that much fuel the model never runs out, and more fuel changes nothing. *)
Theorem C07_depth_bounded :
  forall U anchors now maxd nsecv nsec3v sched q,
  validate U anchors now maxd nsecv nsec3v sched q <> VFuel /\
  forall extra, send U anchors now maxd nsecv nsec3v sched (extra + (maxd + 2)) 0 q =
                validate U anchors now maxd nsecv nsec3v sched q.
Proof.
  intros. split.
  - unfold validate. apply send_no_fuel; lia.
  - intros extra. unfold validate. apply send_more_fuel; lia.
Qed.
Print Assumptions C07_depth_bounded.

(* 7. Panic *)

(* No upstream makes the validator panic.  (Until /repo commit fed49c5 this was refuted: a DNSKEY
   response that lost its DNSKEY record in transit but kept the RRSIG hit `pop().unwrap()` on an
   empty list — finding C07-K1, found by this check, since fixed; the model follows the fix.) *)
Theorem C07_no_panic :
  forall U anchors now maxd nsecv nsec3v sched q,
  validate U anchors now maxd nsecv nsec3v sched q <> VPanic.
Proof. intros. unfold validate. apply send_no_panic. Qed.
Print Assumptions C07_no_panic.

(* 8. Server: AD and SERVFAIL *)

(* build_forwarded_response: the AD bit is set only if there is at least one answer record and
   every answer record is Secure; then the answers are kept and the rcode is untouched. *)
Theorem C07_server_ad_implies_all_secure : forall ps ad cd do_ ad' servfail keep,
  server_map ps ad cd do_ = (ad', servfail, keep) -> ad' = true ->
  ps <> [] /\ Forall (fun p => p = Secure) ps /\ servfail = false /\ keep = true.
Proof.
  intros ps ad cd do_ ad' sf keep H Had. unfold server_map in H.
  destruct (summarize ps) eqn:E.
  - apply summarize_secure in E. destruct (ad || do_); inversion H; subst; try discriminate. tauto.
  - destruct (negb cd); inversion H; subst; discriminate.
  - inversion H; subst; discriminate.
Qed.
Print Assumptions C07_server_ad_implies_all_secure.

(* One Bogus answer record and CD=0 give SERVFAIL with the answers removed and no AD. *)
Theorem C07_server_bogus_servfail : forall ps ad do_,
  In Bogus ps -> server_map ps ad false do_ = (false, true, false).
Proof. intros ps ad do_ H. unfold server_map. now rewrite (summarize_bogus ps H). Qed.
Print Assumptions C07_server_bogus_servfail.

(* Non-vacuity *)

(* hypotheses of 5.: a run that returns an Insecure record *)
Example C07_insecure_example :
  exists rc a au, run_tbl w2_tbl [1] 1700000000 ([2; 1], T_DS) = VOk rc a au /\ In (w2_ds, Insecure) (a ++ au).
Proof.
  destruct w2_insecure as (rc & a & au & Hv & Hin). exists rc, a, au. split; auto. apply in_or_app. now left.
Qed.

(* hypotheses of 5.-guarded: the W3 world (forged A under a foreign signer) delivers no denial
   material and all its DS responses carry DS records; there the guarded theorem applies
   (and indeed, since the fix of K3, the forged record is Bogus, see C07_foreign_signer_rejected) *)
Example C07_insecure_guarded_example :
  (forall sec x, Delivered (table_upstream w3_tbl) sec -> In x sec -> denial_material x = false) /\
  (forall q m, msg_of (table_upstream w3_tbl q) = Some m -> snd q = T_DS -> ans m = [] \/ existsb is_ds (ans m) = true).
Proof.
  split.
  - apply no_material_b. vm_compute. reflexivity.
  - apply ds_answers_b. vm_compute. reflexivity.
Qed.

(* the input of finding C07-K1 (7.) is answered *)
Example C07_no_panic_example : exists rc a au, run_tbl w1_tbl [1] 10 ([], T_DNSKEY) = VOk rc a au.
Proof. eexists _, _, _. vm_compute. reflexivity. Qed.

(* hypotheses of 2.: a two-response honest world (root key 1 = anchor signs its DNSKEY RRset and
   an A RRset at label 7); Honest = {1}; Genuine = the two signed data *)
Definition ex_t48 : tbs := mkTbs [] 48 0 3600 15 200 50 7 [] [1].
Definition ex_tA : tbs := mkTbs [7] 1 1 3600 15 200 50 7 [] [3].
Definition ex_tbl : list (query * ureply) :=
  [(([], 48), UOk (mkResp 0 [mkRR [] 1 (BKey 1 1 15 7 true false);
                             mkRR [] 2 (BSig 48 15 0 3600 200 50 7 [] (SGen 1 ex_t48))] []));
   (([7], 1), UOk (mkResp 0 [mkRR [7] 3 (BPlain 1);
                             mkRR [7] 4 (BSig 1 15 1 3600 200 50 7 [] (SGen 1 ex_tA))] []))].

Example C07_genuine_example :
  let U := table_upstream ex_tbl in
  let Honest := fun pk => pk = 1 in
  let Genuine := fun t => t = ex_t48 \/ t = ex_tA in
  (forall sec s tc alg labels ottl exp inc tag signer pk t,
     Delivered U sec -> In s sec ->
     rbody s = BSig tc alg labels ottl exp inc tag signer (SGen pk t) -> Honest pk -> Genuine t) /\
  (forall pk, In pk [1] -> Honest pk) /\
  (forall t kr sec, Genuine t -> t_type t = T_DNSKEY -> Delivered U sec -> In kr sec -> is_key kr = true ->
     In (rid kr) (t_rids t) -> Honest (key_pk kr)) /\
  (forall t d kr sec, Genuine t -> t_type t = T_DS -> Delivered U sec -> In d sec -> In (rid d) (t_rids t) ->
     DsVouches d kr -> Honest (key_pk kr)) /\
  exists rc a au, run_tbl ex_tbl [1] 100 ([7], 1) = VOk rc a au /\ In (mkRR [7] 3 (BPlain 1), Secure) (a ++ au).
Proof.
  cbv zeta. repeat split.
  - intros sec s tc alg labels ottl exp inc tag signer pk t Hd Hs. pattern s. revert sec s Hd Hs.
    apply table_all. cbn. repeat apply Forall_cons; try apply Forall_nil; cbn; intros Hb _; inversion Hb; auto.
  - intros pk [<-|[]]. reflexivity.
  - intros t kr sec _ _ Hd Hk Hkey _. revert Hkey. pattern kr. revert sec kr Hd Hk.
    apply table_all. cbn. repeat apply Forall_cons; try apply Forall_nil; cbn; intros Hkey; (reflexivity || discriminate).
  - intros t d kr sec [->| ->] Ht; discriminate.
  - eexists _, _, _. split; [vm_compute; reflexivity|]. cbn. auto.
Qed.

(* hypotheses of 1., 3., 4.-guarded: a run that does return a Secure record that is neither an
   RRSIG nor a DNSKEY (the A record at label 7 of the world above, signed by the root key), and the
   conclusion of C07_signer_is_ancestor is then not vacuous: the signer is the root, an ancestor *)
Example C07_chain_example :
  exists rc a au, run_tbl ex_tbl [1] 100 ([7], 1) = VOk rc a au /\
                  In (mkRR [7] 3 (BPlain 1), Secure) (a ++ au) /\
                  is_sig (mkRR [7] 3 (BPlain 1)) = false /\ is_key (mkRR [7] 3 (BPlain 1)) = false /\
                  zone_of [] [7] = true /\ zone_of [4; 1] [6; 2; 1] = false.
Proof.
  eexists _, _, _. split; [vm_compute; reflexivity|]. cbn. repeat split; auto.
Qed.

Example C07_server_example :
  server_map [Secure; Secure] true false false = (true, false, true) /\
  server_map [Secure; Indet] true false true = (false, false, true) /\
  server_map [Secure; Bogus; Secure] true false true = (false, true, false) /\
  server_map [Secure; Bogus] true true true = (false, false, true).
Proof. repeat split. Qed.

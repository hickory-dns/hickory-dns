(* C07 — where Insecure comes from: every record reported Insecure traces back to a DS lookup
   that the validator accepted (VOk) and that holds no Secure DS record with a supported
   algorithm and digest type.  And the guarded form of "Insecure needs denial material": if no NSEC,
   NSEC3 or unsupported DS record is delivered, the only way to an Insecure verdict is a response to a
   DS query whose answer section is non-empty yet holds no DS record (finding C07-K2). *)
From HV Require Import Lib.Base C07.Model C07.ModelFacts C07.Layer.
Open Scope N_scope.

Definition usable_ds (v : vrr) : bool := is_ds (fst v) && is_secure (snd v) && negb (ds_unsupported (fst v)).

Definition InsecureDelegation (lk : query -> vres) (z : name) : Prop :=
  exists rc a au, lk (z, T_DS) = VOk rc a au /\ existsb usable_ds a = false.

Section Ins.
  Variable U : query -> ureply.
  Variable anchors : list N.
  Variable now : N.
  Variable maxd : nat.
  Variable nsecv nsec3v : query -> N -> list vrr -> list vrr -> list nat -> proof.
  Variable sched : list (nat * rr) -> list (nat * rr).

  Section WithLk.
    Variable lk : query -> vres.

    Lemma response_insecure : forall d q q0 r,
      In (r, Insecure) (records_of (verify_response U anchors now nsecv nsec3v sched lk d q (U q0))) -> InsecureSource lk.
    Proof. intros d q q0 r H. apply response_says in H; [|discriminate]. now destruct H as (sec & _ & _ & H). Qed.

    Lemma source_delegation : InsecureSource lk ->
      (exists z, InsecureDelegation lk z) \/ exists q r, In (r, Insecure) (records_of (lk q)).
    Proof.
      intros [z rc a au E [_ Hall]|kr (q & rc & a & au & E & Hin)].
      - left. exists z, rc, a, au. split; [exact E|].
        destruct (existsb usable_ds a) eqn:Eu; [|reflexivity].
        apply existsb_exists in Eu. destruct Eu as (v & Hin & Hu). unfold usable_ds in Hu.
        rewrite !andb_true_iff in Hu. destruct Hu as [[Hd Hs] Hn].
        rewrite (Hall v Hin Hd) in Hn; [discriminate|now rewrite Hs].
      - right. exists q, kr. rewrite E. apply in_or_app. now left.
    Qed.
  End WithLk.

  (* the delegation is found in a sub-lookup: deeper, with the fuel that is left at that depth *)
  Lemma send_insecure : forall fuel d q r,
    In (r, Insecure) (records_of (send U anchors now maxd nsecv nsec3v sched fuel d q)) ->
    exists fuel' d' z, (fuel' + d' = fuel + d)%nat /\ (d < d')%nat /\
                       InsecureDelegation (send U anchors now maxd nsecv nsec3v sched fuel' d') z.
  Proof.
    induction fuel as [|f IH]; intros d q r Hin; cbn [send] in Hin; [contradiction|].
    destruct (maxd <? d)%nat; [contradiction|].
    apply response_insecure, source_delegation in Hin. destruct Hin as [(z & Hz)|(q' & r' & Hin)].
    - exists f, (S d), z. repeat split; [lia|lia|exact Hz].
    - destruct (IH _ _ _ Hin) as (f' & d' & z & Hsum & Hlt & Hz). exists f', d', z. repeat split; [lia|lia|exact Hz].
  Qed.

  Section NoMaterial.
    (* nothing delivered is an NSEC, an NSEC3 or an unsupported DS *)
    Hypothesis no_material : forall sec x, Delivered U sec -> In x sec -> denial_material x = false.
    (* outside class K2 *)
    Hypothesis ds_answers : forall q m, msg_of (U q) = Some m -> snd q = T_DS -> ans m = [] \/ existsb is_ds (ans m) = true.

    (* [v] holds no Insecure record; if it is accepted, its answer section is the one delivered for [q]
       and is not empty *)
    Definition no_insecure_inv (q : query) (v : vres) : Prop :=
      (forall r, ~ In (r, Insecure) (records_of v)) /\
      forall rc a au, v = VOk rc a au -> a <> [] /\ exists m, msg_of (U q) = Some m /\ map fst a = ans m.

    Section Step.
      Variable lk : query -> vres.
      Hypothesis G : forall q, no_insecure_inv q (lk q).

      Lemma no_insecure_source : ~ InsecureSource lk.
      Proof.
        intros [z rc a au E [Hsec Hall]|kr (q & rc & a & au & E & Hin)].
        - destruct (proj2 (G _) _ _ _ E) as (Hne & m & Hm & Ha).
          (* the accepted answer has records; outside K2 one is a DS record; then one is Secure, and
             is supported as all that is delivered *)
          assert (Hds : existsb (fun v => is_ds (fst v)) a = true).
          { destruct (ds_answers (z, T_DS) m Hm eq_refl) as [He|He].
            - elim Hne. apply map_eq_nil with (f := fst). congruence.
            - apply existsb_exists in He. destruct He as (x & Hx & Hd).
              rewrite <- Ha in Hx. apply in_map_iff in Hx. destruct Hx as (v & <- & Hin).
              apply existsb_exists. now exists v. }
          apply Hsec, existsb_exists in Hds. destruct Hds as (v & Hin & Hc).
          apply andb_true_iff in Hc. destruct Hc as [Hd Hs].
          assert (Hmat : denial_material (fst v) = false).
          { apply (no_material (ans m)); [exists (z, T_DS), m; auto|]. rewrite <- Ha. now apply in_map. }
          unfold denial_material in Hmat. rewrite Hd, (Hall v Hin Hd), !orb_true_r in Hmat; [discriminate|now rewrite Hs].
        - apply (proj1 (G q) kr). rewrite E. apply in_or_app. now left.
      Qed.

      Lemma response_no_insecure_inv d q : no_insecure_inv q (verify_response U anchors now nsecv nsec3v sched lk d q (U q)).
      Proof.
        assert (Hn : forall r, ~ In (r, Insecure) (records_of (verify_response U anchors now nsecv nsec3v sched lk d q (U q))))
          by (intros r H; eapply no_insecure_source, response_insecure, H).
        split; [exact Hn|]. intros rc a au H. apply response_accepts in H. destruct H as (m & Hm & Ha & H). split; [|now exists m].
        (* without answers it takes an NSEC / NSEC3 record or something Insecure: none is available *)
        destruct H as [H|[(x & Hx & Hty)|H]]; [exact H| |elim (no_insecure_source H)].
        assert (Hd : Delivered U (auth m)) by (exists q, m; auto).
        pose proof (no_material _ x Hd Hx) as Hmat. unfold denial_material in Hmat. rewrite Hty in Hmat. discriminate.
      Qed.
    End Step.

    Lemma send_no_insecure_inv : forall fuel d q, no_insecure_inv q (send U anchors now maxd nsecv nsec3v sched fuel d q).
    Proof.
      apply (send_ind U anchors now maxd nsecv nsec3v sched no_insecure_inv); try (split; [now intros r []|discriminate]).
      intros f d IH q. now apply response_no_insecure_inv.
    Qed.

    Lemma validate_never_insecure : forall q rc a au r,
      (validate U anchors now maxd nsecv nsec3v sched q = VOk rc a au \/
       exists p, validate U anchors now maxd nsecv nsec3v sched q = VNsec p rc a au) ->
      ~ In (r, Insecure) (a ++ au).
    Proof.
      intros q rc a au r H Hin. apply (proj1 (send_no_insecure_inv (maxd + 2) 0 q) r). eapply records_of_in; eauto.
    Qed.
  End NoMaterial.
End Ins.

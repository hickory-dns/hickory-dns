(* C07 — what the functions of the validator model that do not involve the sub-lookups do, whichever
   property is asked about: the equality tests, the list builders, the loops over keys, DS records
   and signatures, ds_split, mark. *)
From HV Require Import Lib.Base C07.Model.
Open Scope N_scope.

Lemma name_eqb_eq a b : name_eqb a b = true <-> a = b.
Proof. exact (bytes_eqb_eq a b). Qed.

Lemma name_eqb_refl a : name_eqb a a = true.
Proof. now apply name_eqb_eq. Qed.

Lemma key_eqb_eq (a b : rrkey) : key_eqb a b = true <-> a = b.
Proof.
  destruct a as [n t], b as [n' t']. unfold key_eqb, query_eqb. cbn [fst snd].
  rewrite andb_true_iff, name_eqb_eq, N.eqb_eq. split; [intros [-> ->]; reflexivity|intros E; inversion E; auto].
Qed.

Lemma key_eqb_refl (a : rrkey) : key_eqb a a = true.
Proof. now apply key_eqb_eq. Qed.

Lemma tbs_eqb_eq a b : tbs_eqb a b = true <-> a = b.
Proof.
  split; [|intros <-; unfold tbs_eqb; now rewrite !N.eqb_refl, !name_eqb_refl].
  destruct a, b. unfold tbs_eqb. simpl. intros H.
  repeat (apply andb_prop in H; destruct H as [H ?]).
  (* the second case also takes the t_rids conjunct: name_eqb is list_eqb N.eqb *)
  repeat match goal with
  | E : (_ =? _) = true |- _ => apply N.eqb_eq in E; subst
  | E : _ = true |- _ => apply name_eqb_eq in E; subst
  end. reflexivity.
Qed.

Lemma zone_of_refl n : zone_of n n = true.
Proof.
  unfold zone_of, lastn. rewrite Nat.sub_diag. cbn [skipn]. rewrite name_eqb_refl, Nat.leb_refl. reflexivity.
Qed.

Lemma key_not_sig r : is_key r = true -> is_sig r = false.
Proof. unfold is_key, is_sig. now destruct (rbody r). Qed.

Lemma ds_not_sig r : is_ds r = true -> is_sig r = false.
Proof. unfold is_ds, is_sig. now destruct (rbody r). Qed.

Lemma insert_sorted_In : forall l x y, In y (insert_sorted x l) <-> y = x \/ In y l.
Proof.
  induction l as [|z l IH]; intros x y; cbn [insert_sorted].
  - cbn. intuition.
  - destruct (x <=? z).
    + cbn. intuition.
    + cbn [In]. rewrite IH. intuition.
Qed.

Lemma sort_N_In : forall l y, In y (sort_N l) <-> In y l.
Proof.
  induction l as [|x l IH]; intros y; cbn [sort_N fold_right]; [reflexivity|].
  fold (sort_N l). rewrite insert_sorted_In, IH. cbn. intuition.
Qed.

Lemma SigOk_signer now k recs kr s : SigOk now k recs kr s -> sig_signer s = owner kr.
Proof. intros [kid pk alg tag tc labels ottl exp inc n _ Es]. unfold sig_signer. now rewrite Es. Qed.

Lemma DsVouches_ds d kr : DsVouches d kr -> is_ds d = true.
Proof. intros [kid pk alg tag revoke dt _ Ed]. unfold is_ds. now rewrite Ed. Qed.

Lemma recs_of_In k sec r : In r (recs_of k sec) <-> In r sec /\ key_of r = k /\ is_sig r = false.
Proof. unfold recs_of. now rewrite filter_In, andb_true_iff, key_eqb_eq, negb_true_iff. Qed.

Lemma sigs_of_In k sec s : In s (sigs_of k sec) <-> In s sec /\ key_of s = k /\ is_sig s = true.
Proof. unfold sigs_of. now rewrite filter_In, andb_true_iff, key_eqb_eq. Qed.

Lemma enumerate_snd {A} (l : list A) : forall i, map snd (enumerate i l) = l.
Proof.
  induction l as [|x l IH]; intros i; cbn [enumerate map snd]; [reflexivity|]. now rewrite IH.
Qed.

Lemma enumerate_In {A} (l : list A) i j x : In (j, x) (enumerate i l) -> In x l.
Proof. intros H. rewrite <- (enumerate_snd l i). exact (in_map snd _ _ H). Qed.

Lemma cap_tags_In : forall ks seen x, In x (cap_tags seen ks) -> In x ks.
Proof.
  induction ks as [|[k p] ks IH]; intros seen x H; cbn [cap_tags] in H; [inversion H|].
  destruct (MAX_KEY_TAG_COLLISIONS <=? length (filter (N.eqb (key_tag k)) seen))%nat.
  - right; eauto.
  - destruct H as [H|H]; [now left|right; eauto].
Qed.

Lemma dedup_keys_in : forall l seen k, In k (dedup_keys seen l) -> In k (map key_of l).
Proof.
  induction l as [|x l IH]; intros seen k H; cbn [dedup_keys map] in *; [exact H|].
  destruct (existsb (key_eqb (key_of x)) seen); [right; eauto|].
  destruct H as [H|H]; [now left|right; eauto].
Qed.

Lemma positions_nonempty {A} (f : A -> bool) : forall l i, positions f i l <> [] -> existsb f l = true.
Proof.
  induction l as [|x l IH]; intros i H; cbn [positions existsb] in *; [congruence|].
  destruct (f x); [reflexivity|eauto].
Qed.

Lemma verify_with_key_some now k recs kr s p :
  verify_with_key now k recs kr s = Some p ->
  is_key kr = true /\ match p with Secure => SigOk now k recs kr s | Bogus => recs = [] | _ => False end.
Proof.
  unfold verify_with_key, sig_fields_ok, mk_tbs, sig_value, key_pk, is_key. intros H.
  destruct (rbody kr) as [|kid pk kalg ktag zone revoke| |] eqn:Ek; try discriminate.
  destruct (rbody s) as [| | |tc alg labels ottl exp inc tag signer sv] eqn:Es; try discriminate.
  match type of H with (if ?c then _ else _) = _ => destruct c eqn:Hf; [|discriminate] end.
  split; [reflexivity|]. destruct recs as [|r0 recs']; [now inversion H|].
  destruct (tbs_name (fst k) labels) as [n|] eqn:En; [|discriminate].
  destruct sv as [pk' t'|]; [|discriminate]. cbn [sig_verifies] in H.
  match type of H with (if ?c then _ else _) = _ => destruct c eqn:Hv; inversion H end.
  rewrite !andb_true_iff in Hf. apply andb_true_iff in Hv.
  destruct Hf as [[[[[[[Hr Hz] Ha] Hl] He] Hi] Hs] Hg], Hv as [Hp Ht'].
  apply negb_true_iff in Hr. apply N.eqb_eq in Ha, Hg, Hp. apply N.leb_le in Hl, He, Hi.
  apply name_eqb_eq in Hs. apply tbs_eqb_eq in Ht'. subst.
  eapply SigOk_intro; eauto. discriminate.
Qed.

Lemma keys_loop_some now k recs s p : forall ks ai,
  keys_loop now k recs s ai ks = Some p ->
  (exists kr, In (kr, Secure) ks /\ verify_with_key now k recs kr s = Some p) \/
  p = Insecure /\ (ai = Some true \/ exists kr, In (kr, Insecure) ks).
Proof.
  induction ks as [|[kr p0] ks IH]; intros ai H; cbn [keys_loop] in H.
  - destruct ai as [[|]|]; try discriminate. inversion H. auto.
  - (* going on with flag [ai'], which says "only Insecure keys so far" only if [ai] did or this key is one *)
    assert (Hrec : forall ai', keys_loop now k recs s ai' ks = Some p ->
              (ai' = Some true -> ai = Some true \/ p0 = Insecure) ->
              (exists kr', In (kr', Secure) ((kr, p0) :: ks) /\ verify_with_key now k recs kr' s = Some p) \/
              p = Insecure /\ (ai = Some true \/ exists kr', In (kr', Insecure) ((kr, p0) :: ks))).
    { intros ai' H' Hai. destruct (IH _ H') as [(kr' & Hin & Hv)|[Hp [E|(kr' & Hin)]]].
      - left. exists kr'. split; [now right|exact Hv].
      - right. split; [exact Hp|]. destruct (Hai E) as [Ht| ->]; [now left|right; exists kr; now left].
      - right. split; [exact Hp|]. right. exists kr'. now right. }
    destruct p0; try (apply (Hrec _ H); (discriminate || now right)).
    destruct (verify_with_key now k recs kr s) as [p1|] eqn:Ev; [|apply (Hrec _ H); discriminate].
    inversion H; subst p1. left. exists kr. split; [now left|exact Ev].
Qed.

Lemma verify_rrsig_with_keys_some now k recs s a p :
  verify_rrsig_with_keys now k recs s a = Some p ->
  (exists kr, In (kr, Secure) a /\ verify_with_key now k recs kr s = Some p) \/
  p = Insecure /\ exists kr, In (kr, Insecure) a.
Proof.
  unfold verify_rrsig_with_keys. destruct (_ && _); [discriminate|]. intros H.
  apply keys_loop_some in H. destruct H as [(kr & Hkr & Hv)|[Hp [Hai|(kr & Hkr)]]]; [left|discriminate|right];
    apply cap_tags_In, filter_In, proj1 in Hkr; eauto.
Qed.

(* [Halg] is the test verify_dnskey makes before it enters the loop *)
Lemma ds_loop_secure kr :
  (forall kid pk alg tag zone revoke, rbody kr = BKey kid pk alg tag zone revoke -> alg_supported alg = true) ->
  forall dss att, ds_loop (owner kr) kr att dss = Secure -> exists d, In (d, Secure) dss /\ DsVouches d kr.
Proof.
  intros Halg. induction dss as [|[d p] dss IH]; intros att H; cbn [ds_loop] in H; [discriminate|].
  (* every way on but one is the loop over the remaining records *)
  assert (Hrec : forall a, ds_loop (owner kr) kr a dss = Secure ->
            exists d0, In (d0, Secure) ((d, p) :: dss) /\ DsVouches d0 kr).
  { intros a Ha. destruct (IH a Ha) as (d0 & Hin & Hv). exists d0. split; [now right|exact Hv]. }
  destruct (rbody d) as [| |dtag dalg dt dg|] eqn:Ed; eauto.
  destruct (rbody kr) as [|kid pk kalg ktag zone revoke| |] eqn:Ek; eauto.
  destruct p; cbn [is_secure proof_eqb negb] in H; eauto.
  destruct (dalg =? kalg) eqn:Ha; cbn [negb] in H; eauto.
  destruct (dtag =? ktag) eqn:Hg; cbn [negb] in H; eauto.
  destruct (MAX_KEY_TAG_COLLISIONS <? S att)%nat; eauto.
  destruct (dt_supported dt) eqn:Hdt, zone, dg as [n kid'|]; cbn [andb] in H; eauto.
  destruct (name_eqb n (owner kr) && (kid' =? kid)) eqn:Hc; eauto.
  apply andb_true_iff in Hc. destruct Hc as [Hn Hk]. apply name_eqb_eq in Hn. apply N.eqb_eq in Hk, Ha, Hg. subst.
  exists d. split; [now left|]. eapply DsVouches_intro; eauto.
Qed.

Lemma verify_dnskey_secure : forall kr dss,
  verify_dnskey kr dss = Secure -> exists d, In (d, Secure) dss /\ DsVouches d kr.
Proof.
  intros kr dss H. unfold verify_dnskey in H.
  destruct (rbody kr) as [|kid pk kalg ktag zone revoke| |] eqn:Ek; try discriminate.
  destruct (alg_supported kalg) eqn:Hs; [|discriminate].
  apply ds_loop_secure in H; [exact H|]. intros. congruence.
Qed.

Lemma sig_loop_some now k recs kps : forall sigs i j,
  sig_loop now k recs kps i sigs = Some j ->
  exists s kp p, In s sigs /\ In kp kps /\ is_secure (snd kp) = true /\ owner (fst kp) = sig_signer s /\
                 verify_with_key now k recs (fst kp) s = Some p.
Proof.
  induction sigs as [|s sigs IH]; intros i j H; cbn [sig_loop] in H; [discriminate|].
  match type of H with (if ?c then _ else _) = _ => destruct c eqn:Ec end.
  - apply existsb_exists in Ec. destruct Ec as (kp & Hin & Hc).
    rewrite !andb_true_iff, name_eqb_eq in Hc. destruct Hc as [[Hs Ho] Hv].
    destruct (verify_with_key now k recs (fst kp) s) as [p|] eqn:Ev; [|discriminate Hv].
    exists s, kp, p. repeat split; auto using in_eq.
  - apply IH in H. destruct H as (s0 & kp & p & Hs0 & rest). exists s0, kp, p. split; [now right|exact rest].
Qed.

(* the test by which ds_split sets a DS record aside, and the test verify_dnskey_rrset makes on the
   DS records it was handed: Model.v writes both inline, the proofs identify the two spellings by
   conversion *)
Definition ds_unknown (v : vrr) : bool := ds_unsupported (fst v) && (is_secure (snd v) || is_insecure (snd v)).

Definition none_supported (dss : list vrr) : bool :=
  forallb (fun v => ds_unsupported (fst v)) (filter (fun v => is_secure (snd v) || is_insecure (snd v)) dss).

Lemma ds_split_snd : forall l unk acc,
  snd (ds_split unk acc l) = rev acc ++ filter (fun v => negb (ds_unknown v)) l.
Proof.
  induction l as [|[d p] l IH]; intros unk acc; cbn [ds_split filter].
  - cbn [snd]. now rewrite app_nil_r.
  - unfold ds_unknown at 1. cbn [fst snd].
    destruct (ds_unsupported d && (is_secure p || is_insecure p)); rewrite IH; [reflexivity|].
    cbn [rev negb]. now rewrite <- app_assoc.
Qed.

Lemma ds_split_true : forall l unk acc,
  fst (ds_split unk acc l) = Some true -> unk <> Some false /\ forallb ds_unknown l = true.
Proof.
  induction l as [|[d p] l IH]; intros unk acc H; cbn [ds_split] in H.
  - cbn [fst] in H. subst unk. split; [discriminate|reflexivity].
  - cbn [forallb]. unfold ds_unknown at 1. cbn [fst snd].
    destruct (ds_unsupported d && (is_secure p || is_insecure p)); apply IH in H; destruct H as [Hu Hf].
    + split; [|exact Hf]. intros ->. now apply Hu.
    + (* a flag that is Some false stays so *) now elim Hu.
Qed.

Lemma lookup_verdict_map : forall (f : rrkey -> verdict) l k v,
  lookup_verdict k (map (fun k => (k, f k)) l) = Some v -> v = f k.
Proof.
  induction l as [|k0 l IH]; intros k v H; cbn [map lookup_verdict] in H; [discriminate|].
  destruct (key_eqb k k0) eqn:E.
  - apply key_eqb_eq in E. subst. now inversion H.
  - eauto.
Qed.

Lemma mark_one_spec vs sec i r :
  exists p, mark_one vs sec i r = (r, p) /\
            (p <> Indet -> exists idx, lookup_verdict (key_of r) vs = Some (PV p idx)).
Proof.
  unfold mark_one. destruct (lookup_verdict (key_of r) vs) as [[p idx| |]|].
  1: destruct (is_sig r); [destruct idx as [j|]; [destruct (j =? sig_pos (key_of r) sec i)%nat|]|].
  all: eexists; (split; [reflexivity|]); intros; eauto; congruence.
Qed.

Lemma mark_fst vs sec : map fst (mark vs sec) = sec.
Proof.
  unfold mark. rewrite map_map. etransitivity; [|apply (enumerate_snd sec 0)].
  apply map_ext. intros [i r]. cbn [fst snd]. now destruct (mark_one_spec vs sec i r) as (p & -> & _).
Qed.

Lemma mark_in_sec vs sec r p : In (r, p) (mark vs sec) -> In r sec.
Proof. intros H. rewrite <- (mark_fst vs sec). now apply (in_map fst) in H. Qed.

Lemma positions_mark_type ty (h : vrr -> bool) vs sec i n l :
  positions (fun v => (rtype (fst v) =? ty) && h v) i (mark vs sec) = n :: l ->
  exists x, In x sec /\ (rtype x =? ty) = true.
Proof.
  intros E. assert (Hex : existsb (fun v => (rtype (fst v) =? ty) && h v) (mark vs sec) = true)
    by (apply positions_nonempty with i; now rewrite E).
  apply existsb_exists in Hex. destruct Hex as ([x p] & Hx & Hgx). apply andb_true_iff in Hgx.
  exists x. split; [eapply mark_in_sec, Hx|apply Hgx].
Qed.

Lemma sec_in_mark vs sec r : In r sec -> exists p, In (r, p) (mark vs sec).
Proof.
  intros H. rewrite <- (mark_fst vs sec) in H. apply in_map_iff in H.
  destruct H as ([r' p] & E & Hin). cbn in E. subst. now exists p.
Qed.

Lemma mark_verdict vs sec r p :
  In (r, p) (mark vs sec) -> p <> Indet -> exists idx, lookup_verdict (key_of r) vs = Some (PV p idx).
Proof.
  unfold mark. intros H Hp. apply in_map_iff in H. destruct H as ([i r0] & E & _). cbn [fst snd] in E.
  destruct (mark_one_spec vs sec i r0) as (p0 & E0 & Hidx). rewrite E0 in E. injection E as -> ->. auto.
Qed.

Definition records_of (v : vres) : list vrr :=
  match v with VOk _ a au | VNsec _ _ a au => a ++ au | _ => [] end.

Lemma records_of_in v rc a au x :
  v = VOk rc a au \/ (exists p, v = VNsec p rc a au) -> In x (a ++ au) -> In x (records_of v).
Proof. now intros [->|[p ->]]. Qed.

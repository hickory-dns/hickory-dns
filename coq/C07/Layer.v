(* C07 — what ONE layer of the handle concludes from its validated sub-lookups [lk], in terms of what
   those sub-lookups answered and of nothing else: a verdict that aborts, is Insecure or is Secure
   [says] which answers it rests on, one lemma [f_says] per function.  The properties use the layer
   through response_says, response_accepts and response_abort, corollaries of verify_response_view.
   Then the nest: induction over send, the depth bound, no panic. *)
From HV Require Import Lib.Base C07.Model C07.ModelFacts.
Open Scope N_scope.

Section Layer.
  Variable U : query -> ureply.
  Variable anchors : list N.
  Variable now : N.
  Variable nsecv nsec3v : query -> N -> list vrr -> list vrr -> list nat -> proof.
  Variable sched : list (nat * rr) -> list (nat * rr).
  Variable lk : query -> vres.

  Notation vresp := (verify_response U anchors now nsecv nsec3v sched lk).
  Notation vsets := (verify_rrsets U anchors now sched lk).
  Notation vset := (verify_rrset U anchors now sched lk).

  (* [x] came back with proof [p] in the answer section of a sub-lookup that was accepted *)
  Definition answered (x : rr) (p : proof) : Prop :=
    exists q rc a au, lk q = VOk rc a au /\ In (x, p) a.

  (* the answer section of an accepted DS lookup from which the code concludes that the zone has no
     DS it could use: if it holds a DS record at all it holds a Secure one, and those that are Secure
     or Insecure all have an algorithm or digest type that is not supported *)
  Definition ds_insecure (a : list vrr) : Prop :=
    (existsb (fun v => is_ds (fst v)) a = true ->
     existsb (fun v => is_ds (fst v) && is_secure (snd v)) a = true) /\
    forall v, In v a -> is_ds (fst v) = true -> is_secure (snd v) || is_insecure (snd v) = true ->
              ds_unsupported (fst v) = true.

  (* The places where the code writes Insecure: fetch_ds_records and verify_dnskey_rrset on such a DS
     answer; verify_rrsig_with_keys when it sees only Insecure keys. *)
  Inductive InsecureSource : Prop :=
  | NoUsableDs z rc a au : lk (z, T_DS) = VOk rc a au -> ds_insecure a -> InsecureSource
  | InsecureKey kr : answered kr Insecure -> InsecureSource.

  Inductive Trusted (kr : rr) : Prop :=
  | TrustAnchor : is_key kr = true -> In (key_pk kr) anchors -> Trusted kr
  | TrustDs d : answered d Secure -> DsVouches d kr -> Trusted kr
  | TrustKey : answered kr Secure -> Trusted kr.

  (* The places where the code writes Secure on the RRset [k]: a signature whose signer is at or above
     the owner verifies under a trusted key; or (verify_dnskey_rrset) every record is itself a trusted
     key.  select_ok sees the signatures the scheduler hands it: the clause is about schedulers that
     invent none. *)
  Definition SecureSource (k : rrkey) (recs sigs : list rr) : Prop :=
    (forall l x, In x (sched l) -> In x l) ->
    (exists s kr p, In s sigs /\ zone_of (sig_signer s) (fst k) = true /\ Trusted kr /\
                    verify_with_key now k recs kr s = Some p) \/
    forall r, In r recs -> Trusted r.

  (* [S]: what a Secure verdict is to rest on *)
  Definition says (S : Prop) (v : verdict) : Prop :=
    match v with
    | PPanic => exists q, lk q = VPanic
    | PFuel => exists q, lk q = VFuel
    | PV Insecure _ => InsecureSource
    | PV Secure _ => S
    | PV _ _ => True
    end.

  Lemma says_mono (S S' : Prop) v : (S -> S') -> says S v -> says S' v.
  Proof. destruct v as [[] idx| |]; cbn; auto. Qed.

  Definition ds_says (r : dsres) : Prop :=
    match r with
    | DsOk dss => (forall d, In (d, Secure) dss -> answered d Secure) /\
                  (none_supported dss = true -> dss <> [] -> InsecureSource)
    | DsErr p => says False (PV p None)
    | DsPanic => says False PPanic
    | DsFuel => says False PFuel
    end.

  Lemma fetch_ds_says z : ds_says (fetch_ds_records lk z).
  Proof.
    unfold fetch_ds_records. destruct (lk (z, T_DS)) as [rc a au|p rc a au| | |] eqn:E; cbn; eauto.
    destruct (existsb (fun v => is_ds (fst v) && is_secure (snd v)) a) eqn:Es.
    - set (ds := filter (fun v => is_ds (fst v)) a).
      pose proof (ds_split_snd ds None []) as Hs. pose proof (ds_split_true ds None []) as Ht.
      destruct (ds_split None [] ds) as [unk sup]. cbn [fst snd rev app] in Hs, Ht.
      assert (Hsup : forall v, In v sup <-> (In v a /\ is_ds (fst v) = true) /\ ds_unknown v = false)
        by (intros v; subst sup ds; now rewrite !filter_In, negb_true_iff).
      assert (Hok : ds_says (DsOk sup)).
      { split.
        - intros d Hd. apply Hsup in Hd. now exists (z, T_DS), rc, a, au.
        - (* a Secure or Insecure record that is supported was kept, and is seen by the caller's test *)
          intros Hall _. apply (NoUsableDs _ _ _ _ E). split; [auto|]. intros v Hin Hd Hp.
          destruct (ds_unsupported (fst v)) eqn:Hn; [reflexivity|]. rewrite <- Hn.
          unfold none_supported in Hall. rewrite forallb_forall in Hall. apply Hall, filter_In. split; [|exact Hp].
          apply Hsup. unfold ds_unknown. now rewrite Hn. }
      destruct unk as [[|]|]; [|destruct sup; [exact I|exact Hok]..].
      (* every DS record was set aside *)
      cbn. apply (NoUsableDs _ _ _ _ E). split; [auto|]. intros v Hin Hd _.
      destruct (Ht eq_refl) as [_ Hall]. rewrite forallb_forall in Hall.
      specialize (Hall v). unfold ds in Hall. rewrite filter_In in Hall. apply andb_true_iff in Hall; tauto.
    - destruct (existsb (fun v => is_ds (fst v)) a) eqn:En; [exact I|].
      cbn. apply (NoUsableDs _ _ _ _ E). split; [congruence|]. intros v Hin Hd _.
      assert (existsb (fun v => is_ds (fst v)) a = true) by (apply existsb_exists; eauto). congruence.
  Qed.

  Lemma find_ds_says : forall n, says True (find_ds_records U lk n).
  Proof.
    induction n as [|x n IH]; cbn [find_ds_records]; [exact I|].
    match goal with |- context [U ?a] => destruct (U a) as [r|rc au|] end; auto; [|exact I].
    match goal with |- context [if ?c then _ else _] => destruct c end; auto.
    pose proof (fetch_ds_says (x :: n)) as H. destruct (fetch_ds_records lk (x :: n)); [exact I|..].
    all: revert H; apply says_mono; tauto.
  Qed.

  Lemma select_ok_says k recs : forall vs,
    says (exists i s kr p, In (i, s) vs /\ Trusted kr /\ verify_with_key now k recs kr s = Some p)
         (select_ok now lk k recs vs).
  Proof.
    induction vs as [|[i s] vs IH]; cbn [select_ok]; [exact I|].
    assert (Hrest : says (exists i' s' kr p, In (i', s') ((i, s) :: vs) /\ Trusted kr /\
                                           verify_with_key now k recs kr s' = Some p)
                         (select_ok now lk k recs vs)).
    { revert IH. apply says_mono. intros (i' & s' & kr & p & Hin & H). exists i', s', kr, p. auto using in_cons. }
    destruct (lk (sig_signer s, T_DNSKEY)) as [rc a au|pn rcn an aun| | |] eqn:E; auto; cbn; eauto.
    (* VOk: this signature decides *)
    destruct (verify_rrsig_with_keys now k recs s a) as [p|] eqn:Ev; [|exact I].
    apply verify_rrsig_with_keys_some in Ev. destruct Ev as [(kr & Hkr & Hv)|[-> (kr & Hkr)]].
    - destruct p; cbn; auto.
      + exists i, s, kr, Secure. repeat split; auto using in_eq. apply TrustKey. now exists (sig_signer s, T_DNSKEY), rc, a, au.
      + now apply verify_with_key_some in Hv.
    - apply (InsecureKey kr). now exists (sig_signer s, T_DNSKEY), rc, a, au.
  Qed.

  Lemma default_rrset_says oq k recs sigs :
    says (SecureSource k recs sigs) (verify_default_rrset U now sched lk oq k recs sigs).
  Proof.
    unfold verify_default_rrset. destruct sigs as [|s0 sigs].
    - destruct (snd k =? T_DS); [exact I|].
      match goal with |- context [find_ds_records U lk ?n] =>
        pose proof (find_ds_says n) as H; destruct (find_ds_records U lk n) as [[] idx| |] end; exact H || exact I.
    - match goal with |- context [filter ?f ?l] => destruct (filter f l) as [|x vs] eqn:Evs end; [exact I|].
      eapply says_mono, select_ok_says. intros (i & s & kr & p & Hin & Ht & Hv) Hsched. left.
      apply Hsched in Hin. rewrite <- Evs in Hin. apply filter_In in Hin. destruct Hin as [Hin Hf].
      cbn [fst snd] in Hf. rewrite !andb_true_iff in Hf. exists s, kr, p. repeat split; auto; [eapply enumerate_In, Hin|apply Hf].
  Qed.

  (* the proof verify_dnskey_rrset computes for a record of the set *)
  Definition key_proof (dss : list vrr) (r : rr) : proof :=
    if is_key r && in_anchors anchors (key_pk r) then Secure else verify_dnskey r dss.

  Lemma key_proof_trusted dss r :
    (forall d, In (d, Secure) dss -> answered d Secure) ->
    key_proof dss r = Secure -> Trusted r.
  Proof.
    intros Hds. unfold key_proof. destruct (is_key r && in_anchors anchors (key_pk r)) eqn:Ea.
    - intros _. apply andb_true_iff in Ea. destruct Ea as [Hk Ha]. apply TrustAnchor; [exact Hk|].
      apply existsb_exists in Ha. destruct Ha as (x & Hx & Ex). apply N.eqb_eq in Ex. now subst.
    - intros Ev. apply verify_dnskey_secure in Ev. destruct Ev as (d & Hd & Hv).
      apply TrustDs with d; auto.
  Qed.

  Lemma dnskey_rrset_says k recs sigs :
    (forall r, In r recs -> owner r = fst k) ->
    says (SecureSource k recs sigs) (verify_dnskey_rrset anchors now lk k recs sigs).
  Proof.
    intros Hown. unfold verify_dnskey_rrset. cbv zeta.
    (* when the DS records are not asked for, the list is empty *)
    match goal with |- context [if ?c then fetch_ds_records _ _ else _] => set (need := c) end.
    assert (Hr : ds_says (if need then fetch_ds_records lk (fst k) else DsOk []))
      by (destruct need; [apply fetch_ds_says|split; [intros d []|congruence]]).
    destruct (if need then fetch_ds_records lk (fst k) else DsOk []) as [dss|p| |];
      [|revert Hr; apply says_mono; tauto..]. destruct Hr as [Hds Hnone].
    match goal with |- context [if ?c then PV Insecure None else _] => destruct c eqn:Ec end.
    { apply andb_true_iff in Ec. destruct Ec as [Ens Ene]. apply Hnone; [exact Ens|]. now destruct dss. }
    rewrite map_map. cbn [fst snd]. rewrite (map_ext _ (fun r => (r, key_proof dss r)))
      by (intros r; unfold key_proof; now destruct (is_key r && in_anchors anchors (key_pk r))).
    destruct (sig_loop _ _ _ _ _ _) as [i|] eqn:El.
    - intros _. left. apply sig_loop_some in El. destruct El as (s & kp & p & Hs & Hkp & Hsec & Ho & Hv).
      apply in_map_iff in Hkp. destruct Hkp as (r & <- & Hr). cbn [fst snd] in *.
      exists s, r, p. repeat split; auto.
      + (* the key is a record of this very RRset *) rewrite <- Ho, (Hown r Hr). apply zone_of_refl.
      + apply (key_proof_trusted dss); [exact Hds|]. now destruct (key_proof dss r).
    - clear need. destruct (forallb _ (map _ recs)) eqn:Ea; [|exact I]. destruct recs as [|r0 recs']; [exact I|].
      intros _. right. intros r Hr. rewrite forallb_forall in Ea.
      specialize (Ea _ (in_map (fun r => (r, key_proof dss r)) _ _ Hr)). cbn [snd] in Ea.
      apply (key_proof_trusted dss); [exact Hds|]. now destruct (key_proof dss r).
  Qed.

  Lemma verify_rrset_says oq k sec :
    says (SecureSource k (recs_of k sec) (sigs_of k sec)) (vset oq k sec).
  Proof.
    unfold verify_rrset. destruct (snd k =? T_DNSKEY); [|apply default_rrset_says].
    apply dnskey_rrset_says. intros r Hr. apply recs_of_In in Hr. now destruct Hr as (_ & <- & _).
  Qed.

  Lemma rrsets_keys d q sec k : In k (map fst (vsets d q sec)) -> In k (map key_of sec).
  Proof.
    unfold verify_rrsets. rewrite map_map. cbn [fst]. rewrite map_id. intros H.
    apply filter_In in H. eapply dedup_keys_in, H.
  Qed.

  Lemma all_insecure_mark d q sec :
    vsets d q sec <> [] ->
    all_insecure (vsets d q sec) (mark (vsets d q sec) sec) = true ->
    exists x, In (x, Insecure) (mark (vsets d q sec) sec).
  Proof.
    intros Hne Hall.
    (* the first RRset looked at is that of some record of the section *)
    assert (Hk : exists k, In k (map key_of sec) /\ existsb (key_eqb k) (map fst (vsets d q sec)) = true).
    { pose proof (rrsets_keys d q sec) as Hkeys. destruct (vsets d q sec) as [|[k v] vs]; [now elim Hne|].
      exists k. split; [apply Hkeys; now left|]. cbn [map fst existsb]. now rewrite key_eqb_refl. }
    destruct Hk as (k & Hk & Hex). apply in_map_iff in Hk. destruct Hk as (x & <- & Hx).
    destruct (sec_in_mark (vsets d q sec) sec x Hx) as (p & Hp). exists x.
    unfold all_insecure in Hall. rewrite forallb_forall in Hall. specialize (Hall _ Hp). cbn [fst snd] in Hall.
    rewrite Hex in Hall. now destruct p.
  Qed.

  Lemma sections_abort d q m f :
    any_bad (vsets d q (ans m)) f || any_bad (vsets d q (auth m)) f = true -> exists v, f v = true /\ says True v.
  Proof.
    unfold any_bad. rewrite <- existsb_app. intros H.
    apply existsb_exists in H. destruct H as ([k v] & Hin & Hf). exists v. split; [exact Hf|].
    unfold verify_rrsets in Hin. apply in_app_or in Hin. rewrite !in_map_iff in Hin.
    destruct Hin as [(k' & E & _)|(k' & E & _)]; injection E as -> <-; eapply says_mono, verify_rrset_says; auto.
  Qed.

  Lemma mark_says d q sec r p :
    In (r, p) (mark (vsets d q sec) sec) -> p <> Indet ->
    In r sec /\ says (SecureSource (key_of r) (recs_of (key_of r) sec) (sigs_of (key_of r) sec)) (PV p None).
  Proof.
    intros H Hp. split; [eapply mark_in_sec, H|].
    destruct (mark_verdict _ _ _ _ H Hp) as (idx & E). apply lookup_verdict_map in E.
    pose proof (verify_rrset_says q (key_of r) sec) as Hs. now rewrite <- E in Hs.
  Qed.

  Lemma verify_response_view d q rp :
    match msg_of rp with
    | None => vresp d q rp = VErr
    | Some m =>
        let ma := mark (vsets d q (ans m)) (ans m) in
        let mu := mark (vsets d q (auth m)) (auth m) in
        match vresp d q rp with
        | VOk _ a au =>
            (a = ma /\ au = mu) /\
            (a <> [] \/ (exists x, In x (auth m) /\ (rtype x =? T_NSEC) || (rtype x =? T_NSEC3) = true) \/ InsecureSource)
        | VNsec _ _ a au => a = ma /\ au = mu
        | VPanic => exists q', lk q' = VPanic
        | VFuel => exists q', lk q' = VFuel
        | VErr => False
        end
    end.
  Proof.
    unfold verify_response. fold (msg_of rp). destruct (msg_of rp) as [m|]; [|reflexivity]. cbv zeta.
    set (va := vsets d q (ans m)). set (vu := vsets d q (auth m)). set (mu := mark vu (auth m)).
    (* an abort is the verdict on an RRset of one of the sections *)
    destruct (any_bad va is_ppanic || any_bad vu is_ppanic) eqn:Ep.
    { destruct (sections_abort _ _ _ _ Ep) as ([[] idx| |] & Hf & Hs); (discriminate Hf || exact Hs). }
    destruct (any_bad va is_pfuel || any_bad vu is_pfuel) eqn:Ef.
    { destruct (sections_abort _ _ _ _ Ef) as ([[] idx| |] & Hf & Hs); (discriminate Hf || exact Hs). }
    (* every looked-at authority record is marked Insecure, and there is one: its mark says why *)
    destruct (negb _ && all_insecure vu mu) eqn:Eai.
    { split; [auto|]. do 2 right. apply andb_true_iff in Eai. destruct Eai as [Ene Eall].
      destruct (all_insecure_mark d q (auth m)) as (x & Hx); [intros E; fold vu in E; now rewrite E in Ene|exact Eall|].
      now apply mark_says in Hx. }
    (* with NSEC or NSEC3 records at hand their decision procedure decides *)
    match goal with |- match (match ?n3 with _ => _ end) with _ => _ end => destruct n3 eqn:E3 end.
    2:{ destruct (positions_mark_type _ _ _ _ _ _ _ E3) as (x & Hx & Ex).
        match goal with |- match (match ?n1 with _ => _ end) with _ => _ end => destruct n1; [|cbn; auto] end.
        destruct (is_secure _); [|auto]. split; [auto|]. right; left. exists x. now rewrite Ex, orb_true_r. }
    match goal with |- match (match ?n1 with _ => _ end) with _ => _ end => destruct n1 eqn:E1 end.
    2:{ destruct (positions_mark_type _ _ _ _ _ _ _ E1) as (x & Hx & Ex).
        destruct (is_secure _); [|auto]. split; [auto|]. right; left. exists x. now rewrite Ex. }
    (* neither: a wildcard answer is Bogus, other answers are accepted, none leaves it to the DS lookup *)
    destruct (existsb _ va); [cbn; auto|].
    destruct (ans m) eqn:Ea; [|split; [auto|now left]].
    match goal with |- context [find_ds_records U lk ?n] => pose proof (find_ds_says n) as Hf end.
    destruct (find_ds_records U lk _) as [[] idx| |]; cbn; auto.
  Qed.

  Lemma response_says d q q0 r p :
    In (r, p) (records_of (vresp d q (U q0))) -> p <> Indet ->
    exists sec, Delivered U sec /\ In r sec /\
                says (SecureSource (key_of r) (recs_of (key_of r) sec) (sigs_of (key_of r) sec)) (PV p None).
  Proof.
    intros Hin Hp. pose proof (verify_response_view d q (U q0)) as Hs.
    destruct (msg_of (U q0)) as [m|] eqn:Hm; [|now rewrite Hs in Hin].
    assert (Hsec : exists sec, (sec = ans m \/ sec = auth m) /\ In (r, p) (mark (vsets d q sec) sec)).
    { destruct (vresp d q (U q0)) as [rc a au|pn rc a au| | |]; try contradiction.
      1: destruct Hs as [Hs _].
      all: destruct Hs as (-> & ->); apply in_app_or in Hin; destruct Hin; eauto. }
    destruct Hsec as (sec & Hsec & H). exists sec. split; [exists q0, m; auto|]. exact (mark_says d q sec r p H Hp).
  Qed.

  Lemma response_accepts d q q0 rc a au :
    vresp d q (U q0) = VOk rc a au ->
    exists m, msg_of (U q0) = Some m /\ map fst a = ans m /\
      (a <> [] \/ (exists x, In x (auth m) /\ (rtype x =? T_NSEC) || (rtype x =? T_NSEC3) = true) \/ InsecureSource).
  Proof.
    intros H. pose proof (verify_response_view d q (U q0)) as Hs. rewrite H in Hs.
    destruct (msg_of (U q0)) as [m|]; [|discriminate Hs]. destruct Hs as [[-> _] Hs].
    exists m. split; [reflexivity|]. split; [apply mark_fst|exact Hs].
  Qed.

  Lemma response_abort d q rp v :
    vresp d q rp = v -> v = VPanic \/ v = VFuel -> exists q', lk q' = v.
  Proof.
    intros H Hv. pose proof (verify_response_view d q rp) as Hs. rewrite H in Hs.
    destruct (msg_of rp); destruct Hv as [-> | ->]; (exact Hs || discriminate Hs).
  Qed.

  (* a layer sees its sub-lookups through their values only *)
  Section Ext.
    Variable lk' : query -> vres.
    Hypothesis E : forall q, lk q = lk' q.

    Lemma fetch_ds_ext z : fetch_ds_records lk z = fetch_ds_records lk' z.
    Proof. unfold fetch_ds_records. now rewrite E. Qed.

    Lemma find_ds_ext n : find_ds_records U lk n = find_ds_records U lk' n.
    Proof. induction n as [|x n IH]; cbn [find_ds_records]; [reflexivity|]. now rewrite IH, fetch_ds_ext. Qed.

    Lemma select_ok_ext k recs vs : select_ok now lk k recs vs = select_ok now lk' k recs vs.
    Proof. induction vs as [|[i s] vs IH]; cbn [select_ok]; [reflexivity|]. now rewrite IH, E. Qed.

    Lemma verify_rrset_ext oq k sec : vset oq k sec = verify_rrset U anchors now sched lk' oq k sec.
    Proof.
      unfold verify_rrset, verify_dnskey_rrset, verify_default_rrset. rewrite fetch_ds_ext, find_ds_ext.
      destruct (sigs_of k sec); [reflexivity|]. now rewrite select_ok_ext.
    Qed.

    Lemma verify_rrsets_ext d oq sec : vsets d oq sec = verify_rrsets U anchors now sched lk' d oq sec.
    Proof. apply map_ext. intros k. now rewrite verify_rrset_ext. Qed.

    Lemma verify_response_ext d q rp : vresp d q rp = verify_response U anchors now nsecv nsec3v sched lk' d q rp.
    Proof.
      unfold verify_response. fold (msg_of rp). destruct (msg_of rp) as [m|]; [|reflexivity].
      now rewrite find_ds_ext, !verify_rrsets_ext.
    Qed.
  End Ext.
End Layer.

Section Send.
  Variable U : query -> ureply.
  Variable anchors : list N.
  Variable now : N.
  Variable maxd : nat.
  Variable nsecv nsec3v : query -> N -> list vrr -> list vrr -> list nat -> proof.
  Variable sched : list (nat * rr) -> list (nat * rr).

  Notation vresp := (verify_response U anchors now nsecv nsec3v sched).
  Notation vsend := (send U anchors now maxd nsecv nsec3v sched).

  Lemma send_S f d q :
    vsend (S f) d q = if (maxd <? d)%nat then VErr else vresp (vsend f (S d)) (S d) q (U q).
  Proof. reflexivity. Qed.

  Lemma send_ind (P : query -> vres -> Prop) :
    (forall q, P q VFuel) -> (forall q, P q VErr) ->
    (forall f d, (forall q, P q (vsend f (S d) q)) ->
                 forall q, P q (vresp (vsend f (S d)) (S d) q (U q))) ->
    forall fuel d q, P q (vsend fuel d q).
  Proof.
    intros HF HE Hstep. induction fuel as [|f IH]; intros d q; cbn [send]; [apply HF|].
    destruct (maxd <? d)%nat; [apply HE|]. apply Hstep. intros q'. apply IH.
  Qed.

  (* depths 0..maxd run verify_response, depth maxd + 1 answers VErr and still takes one unit of fuel *)
  Lemma send_no_fuel : forall fuel d q, (maxd + 2 <= fuel + d)%nat -> (1 <= fuel)%nat -> vsend fuel d q <> VFuel.
  Proof.
    induction fuel as [|f IH]; intros d q Hb H1; [lia|]. cbn [send].
    destruct (maxd <? d)%nat eqn:Ed; [discriminate|]. apply Nat.ltb_ge in Ed.
    intro H. apply response_abort in H; [|now right]. destruct H as (q' & H).
    revert H. apply IH; lia.
  Qed.

  Lemma send_fuel_stable : forall fuel d q, (maxd + 2 <= fuel + d)%nat -> (1 <= fuel)%nat ->
    vsend (S fuel) d q = vsend fuel d q.
  Proof.
    induction fuel as [|f IH]; intros d q Hb H1; [lia|].
    rewrite (send_S (S f)), (send_S f).
    destruct (maxd <? d)%nat eqn:Ed; [reflexivity|]. apply Nat.ltb_ge in Ed.
    apply verify_response_ext. intros q'. apply IH; lia.
  Qed.

  Lemma send_more_fuel : forall extra fuel d q, (maxd + 2 <= fuel + d)%nat -> (1 <= fuel)%nat ->
    vsend (extra + fuel) d q = vsend fuel d q.
  Proof.
    induction extra as [|e IH]; intros fuel d q Hb H1; [reflexivity|].
    cbn [plus]. rewrite send_fuel_stable by lia. now apply IH.
  Qed.

  Lemma send_no_panic : forall fuel d q, vsend fuel d q <> VPanic.
  Proof.
    apply (send_ind (fun _ v => v <> VPanic)); try discriminate.
    intros f d IH q H. apply response_abort in H; [|now left]. destruct H as (q' & H). exact (IH q' H).
  Qed.
End Send.

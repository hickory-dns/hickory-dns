(* C07 — Dolev-Yao authenticity: if every key reachable from the trust anchors is honest
   (its owner signs only genuine RRsets, publishes only honest keys and only digests of honest
   keys) and signatures of honest keys cannot be forged, then an authenticated record belongs
   to an RRset that was signed, whole, by its honest operator. *)
From HV Require Import Lib.Base C07.Model C07.ModelFacts.
Open Scope N_scope.

Section DY.
  Variable U : query -> ureply.
  Variable anchors : list N.
  Variable now : N.

  Variable Honest : N -> Prop.        (* public keys whose private half only the legitimate operator holds *)
  Variable Genuine : tbs -> Prop.     (* what the honest operators have signed *)

  (* the RRset of [r], whole as delivered, is one an honest operator signed under that name and type *)
  Definition GenuineSet (r : rr) : Prop :=
    exists t k sec, Genuine t /\ Delivered U sec /\ In r (recs_of k sec) /\
      t_rids t = sort_N (map rid (recs_of k sec)) /\ t_type t = snd k /\
      tbs_name (fst k) (t_labels t) = Some (t_owner t).

  Hypothesis unforgeable : forall sec s tc alg labels ottl exp inc tag signer pk t,
    Delivered U sec -> In s sec ->
    rbody s = BSig tc alg labels ottl exp inc tag signer (SGen pk t) -> Honest pk -> Genuine t.
  Hypothesis anchors_honest : forall pk, In pk anchors -> Honest pk.
  Hypothesis keysets_honest : forall t kr sec,
    Genuine t -> t_type t = T_DNSKEY -> Delivered U sec -> In kr sec -> is_key kr = true ->
    In (rid kr) (t_rids t) -> Honest (key_pk kr).
  Hypothesis ds_honest : forall t d kr sec,
    Genuine t -> t_type t = T_DS -> Delivered U sec -> In d sec -> In (rid d) (t_rids t) ->
    DsVouches d kr -> Honest (key_pk kr).

  Lemma genuine_set_member r : GenuineSet r ->
    exists t sec, Genuine t /\ Delivered U sec /\ In r sec /\ In (rid r) (t_rids t) /\ t_type t = set_type r.
  Proof.
    intros (t & k & sec & Hg & Hsec & Hin & Hrids & Hty & _). exists t, sec.
    rewrite Hrids, Hty, sort_N_In. apply (in_map rid) in Hin as Hrid.
    apply recs_of_In in Hin. destruct Hin as (Hr & <- & _). auto 6.
  Qed.

  Lemma auth_genuine : forall r, Auth U anchors now r ->
    (is_key r = true -> Honest (key_pk r)) /\ (is_key r = false -> GenuineSet r).
  Proof.
    induction 1 as [kr Hk Ha|kr d Hd IHd Hv|r k sec s kr Hsec Hr Hs Hkr IHkr Hok Hzo].
    - split; [intros _; now apply anchors_honest|congruence].
    - inversion Hv as [kid pk alg tag revoke dt Ekr Ed _ _].
      split; [intros _|unfold is_key; now rewrite Ekr].
      destruct (genuine_set_member d) as (t & sec & Hg & Hsec & Hin & Hrid & Hty);
        [apply IHd; unfold is_key; now rewrite Ed|].
      eapply ds_honest; [exact Hg| |exact Hsec|exact Hin|exact Hrid|exact Hv].
      rewrite Hty. unfold set_type, rtype. now rewrite Ed.
    - inversion Hok as [kid pk alg tag tc labels ottl exp inc n Ekr Es Hl Hi He Hn Hne].
      assert (Hkk : is_key kr = true) by (unfold is_key; now rewrite Ekr).
      destruct IHkr as [IHkr _]. specialize (IHkr Hkk). unfold key_pk in IHkr. rewrite Ekr in IHkr.
      apply sigs_of_In in Hs as Hs'. destruct Hs' as (Hssec & Hks & _).
      pose proof (unforgeable _ _ _ _ _ _ _ _ _ _ _ _ Hsec Hssec Es IHkr) as Hg.
      assert (HG : GenuineSet r).
      { exists (mkTbs n tc labels ottl alg exp inc tag (owner kr) (sort_N (map rid (recs_of k sec)))), k, sec.
        cbn. repeat split; auto. rewrite <- Hks. unfold key_of, set_type. cbn [snd]. now rewrite Es. }
      split; [|intros _; exact HG].
      (* a key of a genuine set is listed in signed data of type DNSKEY *)
      intros Hrk. destruct (genuine_set_member r HG) as (t & sec' & Hg' & Hsec' & Hin & Hrid & Hty).
      eapply keysets_honest; [exact Hg'| |exact Hsec'|exact Hin|exact Hrk|exact Hrid].
      rewrite Hty. unfold set_type, rtype. unfold is_key in Hrk. now destruct (rbody r).
  Qed.
End DY.

(* C07 — closed worlds: lemmas for finite upstreams and the concrete witnesses (taken from cases
   the harness confirmed on the real validator). *)
From HV Require Import Lib.Base C07.Model C07.ModelFacts.
Open Scope N_scope.

Lemma table_upstream_in : forall tbl q,
  table_upstream tbl q = UErr \/ In (q, table_upstream tbl q) tbl.
Proof.
  induction tbl as [|[q0 r0] tbl IH]; intros q; cbn [table_upstream]; [now left|].
  destruct (query_eqb q q0) eqn:E.
  - right. apply key_eqb_eq in E. subst. now left.
  - destruct (IH q) as [H|H]; [now left|right; now right].
Qed.

Lemma table_delivered : forall tbl sec, Delivered (table_upstream tbl) sec -> In sec (all_sections tbl).
Proof.
  intros tbl sec (q & m & Hm & Hs). destruct (table_upstream_in tbl q) as [E|Hin].
  - rewrite E in Hm. discriminate.
  - unfold all_sections. apply in_flat_map. exists (q, table_upstream tbl q). split; [exact Hin|].
    cbn [snd]. rewrite Hm. destruct Hs as [->| ->]; cbn; auto.
Qed.

Lemma table_all (P : rr -> Prop) tbl : Forall (Forall P) (all_sections tbl) ->
  forall sec x, Delivered (table_upstream tbl) sec -> In x sec -> P x.
Proof.
  intros H sec x Hd Hx. apply table_delivered in Hd.
  rewrite Forall_forall in H. specialize (H sec Hd). rewrite Forall_forall in H. auto.
Qed.

Lemma rr_eqb_refl r : rr_eqb r r = true.
Proof. unfold rr_eqb. now rewrite name_eqb_refl, !N.eqb_refl. Qed.

Lemma SigOk_set_signed : forall now k recs kr s, SigOk now k recs kr s -> set_signed_b now k recs s = true.
Proof.
  intros now k recs kr s H. inversion H as [kid pk alg tag tc labels ottl exp inc n Ekr Es Hl Hi He Hn Hne].
  unfold set_signed_b. rewrite Es, Hn. now apply tbs_eqb_eq.
Qed.

Lemma no_material_b : forall tbl,
  forallb (fun sec => forallb (fun x => negb (denial_material x)) sec) (all_sections tbl) = true ->
  forall sec x, Delivered (table_upstream tbl) sec -> In x sec -> denial_material x = false.
Proof.
  intros tbl H sec x Hd Hx. apply table_delivered in Hd.
  rewrite forallb_forall in H. specialize (H sec Hd). rewrite forallb_forall in H. specialize (H x Hx).
  now apply negb_true_iff in H.
Qed.

Lemma no_denial_material : forall tbl,
  forallb (fun sec => forallb (fun x => negb (denial_material x)) sec) (all_sections tbl) = true ->
  ~ DenialMaterial (table_upstream tbl).
Proof.
  intros tbl H (sec & x & Hd & Hx & Hm). rewrite (no_material_b tbl H sec x Hd Hx) in Hm. discriminate.
Qed.

Definition ds_answer_ok (e : query * ureply) : bool :=
  negb (snd (fst e) =? T_DS) ||
  match msg_of (snd e) with
  | Some m => match ans m with [] => true | _ => existsb is_ds (ans m) end
  | None => true
  end.

Lemma ds_answers_b : forall tbl, forallb ds_answer_ok tbl = true ->
  forall q m, msg_of (table_upstream tbl q) = Some m -> snd q = T_DS -> ans m = [] \/ existsb is_ds (ans m) = true.
Proof.
  intros tbl H q m Hm Hq. destruct (table_upstream_in tbl q) as [E|Hin]; [rewrite E in Hm; discriminate|].
  rewrite forallb_forall in H. specialize (H _ Hin). unfold ds_answer_ok in H. cbn [fst snd] in H.
  rewrite Hq, N.eqb_refl, Hm in H. cbn [negb orb] in H. destruct (ans m); [now left|now right].
Qed.

(* HomeSigned and SetSigned of a record in a closed world imply a test that runs over the sections
   of the table (the converse is not needed: the tests serve to refute) *)
Definition home_signed_in (r : rr) (sec : list rr) : bool :=
  existsb (rr_eqb r) sec && existsb (fun s => zone_of (sig_signer s) (owner r)) (sigs_of (key_of r) sec).
Definition set_signed_in (now : N) (r : rr) (sec : list rr) : bool :=
  existsb (rr_eqb r) sec && existsb (set_signed_b now (key_of r) (recs_of (key_of r) sec)) (sigs_of (key_of r) sec).

Lemma home_signed_closed tbl r :
  HomeSigned (table_upstream tbl) r -> existsb (home_signed_in r) (all_sections tbl) = true.
Proof.
  intros (sec & s & Hd & Hr & Hs & Hz). apply existsb_exists. exists sec. split; [now apply table_delivered|].
  apply andb_true_iff. split; apply existsb_exists; [exists r|exists s]; auto using rr_eqb_refl.
Qed.

Lemma set_signed_closed tbl now r :
  SetSigned (table_upstream tbl) now r -> existsb (set_signed_in now r) (all_sections tbl) = true.
Proof.
  intros (sec & k & s & kr & Hd & Hr & Hs & Hok). apply recs_of_In in Hr. destruct Hr as (Hr & <- & _).
  apply SigOk_set_signed in Hok. apply existsb_exists. exists sec. split; [now apply table_delivered|].
  apply andb_true_iff. split; apply existsb_exists; [exists r|exists s]; auto using rr_eqb_refl.
Qed.

Definition no_nsec : query -> N -> list vrr -> list vrr -> list nat -> proof := fun _ _ _ _ _ => Indet.
(* 26 = DnsRequestOptions::default().max_request_depth *)
Definition run_tbl (tbl : list (query * ureply)) (anchors : list N) (now : N) (q : query) : vres :=
  validate (table_upstream tbl) anchors now 26 no_nsec no_nsec (fun l => l) q.

(* W1: a DNSKEY response that lost its DNSKEY record but kept the RRSIG (the input of finding
   C07-K1: the validator panicked here before /repo fed49c5); the orphan signature is merely not marked *)
Definition w1_tbl : list (query * ureply) :=
  [(([], T_DNSKEY), UOk (mkResp 0 [mkRR [] 1 (BSig 48 15 0 3600 20 5 7 [] SBad)] []))].

(* W2 (harness: seed 1 index 287, hierarchy 1): root, tld, leaf.tld all signed; the response to
   (tld, DS) lost its DS record (the RRSIG stayed).  Query (leaf.tld, DS). *)
Definition w2_tbl : list (query * ureply) :=
  [([], 48, UOk {| rcode := 0; ans := [{| owner := []; rid := 1; rbody := BKey 1 1 15 65321 true false |}; {| owner := []; rid := 2; rbody := BKey 2 2 15 48940 true false |}; {| owner := []; rid := 3; rbody := BSig 48 15 0 3600 1700604800 1699996400 65321 [] (SGen 1 {| t_owner := []; t_type := 48; t_labels := 0; t_ottl := 3600; t_alg := 15; t_exp := 1700604800; t_inc := 1699996400; t_tag := 65321; t_signer := []; t_rids := [1; 2] |}) |}]; auth := [] |});
   ([2; 1], 43, UOk {| rcode := 0; ans := [{| owner := [2; 1]; rid := 4; rbody := BDs 48622 15 2 (DGen [2; 1] 5) |}; {| owner := [2; 1]; rid := 6; rbody := BSig 43 15 2 3600 1700604800 1699996400 26577 [1] (SGen 3 {| t_owner := [2; 1]; t_type := 43; t_labels := 2; t_ottl := 3600; t_alg := 15; t_exp := 1700604800; t_inc := 1699996400; t_tag := 26577; t_signer := [1]; t_rids := [4] |}) |}]; auth := [] |});
   ([1], 43, UOk {| rcode := 0; ans := [{| owner := [1]; rid := 7; rbody := BSig 43 15 1 3600 1700604800 1699996400 48940 [] (SGen 2 {| t_owner := [1]; t_type := 43; t_labels := 1; t_ottl := 3600; t_alg := 15; t_exp := 1700604800; t_inc := 1699996400; t_tag := 48940; t_signer := []; t_rids := [8] |}) |}]; auth := [] |});
   ([1], 48, UOk {| rcode := 0; ans := [{| owner := [1]; rid := 9; rbody := BKey 9 4 15 61840 true false |}; {| owner := [1]; rid := 10; rbody := BKey 10 3 15 26577 true false |}; {| owner := [1]; rid := 11; rbody := BSig 48 15 1 3600 1700604800 1699996400 61840 [1] (SGen 4 {| t_owner := [1]; t_type := 48; t_labels := 1; t_ottl := 3600; t_alg := 15; t_exp := 1700604800; t_inc := 1699996400; t_tag := 61840; t_signer := [1]; t_rids := [9; 10] |}) |}]; auth := [] |})].
Definition w2_ds : rr := {| owner := [2; 1]; rid := 4; rbody := BDs 48622 15 2 (DGen [2; 1] 5) |}.

Lemma w2_insecure : exists rc a au, run_tbl w2_tbl [1] 1700000000 ([2; 1], T_DS) = VOk rc a au /\ In (w2_ds, Insecure) a.
Proof. eexists _, _, _. split; [vm_compute; reflexivity|]. cbn. auto. Qed.

Lemma w2_no_denial_material : ~ DenialMaterial (table_upstream w2_tbl).
Proof. apply no_denial_material. vm_compute. reflexivity. Qed.

(* W3 (harness attack script atk-foreign-signer, hierarchy 0, e.g. replay 1:509): the answer to (www.leaf.tld, A) is replaced by a
   forged A record with an RRSIG really made by the key of the sibling zone evil.tld, signer
   name evil.tld.  Labels: tld = 1, leaf = 2, evil = 4, www = 6.
   The RRSIG is not used (its signer is not the owner or an ancestor of the owner: the check
   added for finding C07-K3, without which the forged record came back Secure); the record is Bogus. *)
Definition w3_tbl : list (query * ureply) :=
  [([], 48, UOk {| rcode := 0; ans := [{| owner := []; rid := 1; rbody := BKey 1 1 15 65321 true false |}; {| owner := []; rid := 2; rbody := BSig 48 15 0 3600 1700604800 1699996400 65321 [] (SGen 1 {| t_owner := []; t_type := 48; t_labels := 0; t_ottl := 3600; t_alg := 15; t_exp := 1700604800; t_inc := 1699996400; t_tag := 65321; t_signer := []; t_rids := [1] |}) |}]; auth := [] |});
   ([4; 1], 43, UOk {| rcode := 0; ans := [{| owner := [4; 1]; rid := 3; rbody := BDs 26578 15 2 (DGen [4; 1] 4) |}; {| owner := [4; 1]; rid := 5; rbody := BSig 43 15 2 3600 1700604800 1699996400 48941 [1] (SGen 2 {| t_owner := [4; 1]; t_type := 43; t_labels := 2; t_ottl := 3600; t_alg := 15; t_exp := 1700604800; t_inc := 1699996400; t_tag := 48941; t_signer := [1]; t_rids := [3] |}) |}]; auth := [] |});
   ([4; 1], 48, UOk {| rcode := 0; ans := [{| owner := [4; 1]; rid := 4; rbody := BKey 4 3 15 26578 true false |}; {| owner := [4; 1]; rid := 6; rbody := BSig 48 15 2 3600 1700604800 1699996400 26578 [4; 1] (SGen 3 {| t_owner := [4; 1]; t_type := 48; t_labels := 2; t_ottl := 3600; t_alg := 15; t_exp := 1700604800; t_inc := 1699996400; t_tag := 26578; t_signer := [4; 1]; t_rids := [4] |}) |}]; auth := [] |});
   ([1], 43, UOk {| rcode := 0; ans := [{| owner := [1]; rid := 7; rbody := BDs 48941 15 2 (DGen [1] 8) |}; {| owner := [1]; rid := 9; rbody := BSig 43 15 1 3600 1700604800 1699996400 65321 [] (SGen 1 {| t_owner := [1]; t_type := 43; t_labels := 1; t_ottl := 3600; t_alg := 15; t_exp := 1700604800; t_inc := 1699996400; t_tag := 65321; t_signer := []; t_rids := [7] |}) |}]; auth := [] |});
   ([1], 48, UOk {| rcode := 0; ans := [{| owner := [1]; rid := 8; rbody := BKey 8 2 15 48941 true false |}; {| owner := [1]; rid := 10; rbody := BSig 48 15 1 3600 1700604800 1699996400 48941 [1] (SGen 2 {| t_owner := [1]; t_type := 48; t_labels := 1; t_ottl := 3600; t_alg := 15; t_exp := 1700604800; t_inc := 1699996400; t_tag := 48941; t_signer := [1]; t_rids := [8] |}) |}]; auth := [] |});
   ([6; 2; 1], 1, UOk {| rcode := 0; ans := [{| owner := [6; 2; 1]; rid := 11; rbody := BPlain 1 |}; {| owner := [6; 2; 1]; rid := 12; rbody := BSig 1 15 3 3600 1700086400 1699999940 26578 [4; 1] (SGen 3 {| t_owner := [6; 2; 1]; t_type := 1; t_labels := 3; t_ottl := 3600; t_alg := 15; t_exp := 1700086400; t_inc := 1699999940; t_tag := 26578; t_signer := [4; 1]; t_rids := [11] |}) |}]; auth := [] |})].
Definition w3_forged : rr := {| owner := [6; 2; 1]; rid := 11; rbody := BPlain 1 |}.

Lemma w3_rejected : exists rc a au, run_tbl w3_tbl [1] 1700000000 ([6; 2; 1], 1) = VOk rc a au /\
  In (w3_forged, Bogus) a /\ forall r, ~ In (r, Secure) (a ++ au).
Proof.
  eexists _, _, _. split; [vm_compute; reflexivity|]. split; [cbn; auto|].
  intros r Hin. cbn in Hin. repeat (destruct Hin as [Hin|Hin]; [discriminate|]). exact Hin.
Qed.

Lemma w3_not_home_signed : ~ HomeSigned (table_upstream w3_tbl) w3_forged.
Proof. intros H. apply home_signed_closed in H. vm_compute in H. discriminate. Qed.

(* W4 (harness: seed 1 index 2889, hierarchy 1): the DNSKEY RRset of leaf.tld lost its ZSK
   (rid 8); only the KSK (rid 5), which the parent's DS covers, is left; the RRSIG over the
   real set {5, 8} no longer verifies, yet the remaining record is Secure *)
Definition w4_tbl : list (query * ureply) :=
  [([], 48, UOk {| rcode := 0; ans := [{| owner := []; rid := 1; rbody := BKey 1 1 15 65321 true false |}; {| owner := []; rid := 2; rbody := BKey 2 2 15 48940 true false |}; {| owner := []; rid := 3; rbody := BSig 48 15 0 3600 1700604800 1699996400 65321 [] (SGen 1 {| t_owner := []; t_type := 48; t_labels := 0; t_ottl := 3600; t_alg := 15; t_exp := 1700604800; t_inc := 1699996400; t_tag := 65321; t_signer := []; t_rids := [1; 2] |}) |}]; auth := [] |});
   ([2; 1], 43, UOk {| rcode := 0; ans := [{| owner := [2; 1]; rid := 4; rbody := BDs 48622 15 2 (DGen [2; 1] 5) |}; {| owner := [2; 1]; rid := 6; rbody := BSig 43 15 2 3600 1700604800 1699996400 26577 [1] (SGen 3 {| t_owner := [2; 1]; t_type := 43; t_labels := 2; t_ottl := 3600; t_alg := 15; t_exp := 1700604800; t_inc := 1699996400; t_tag := 26577; t_signer := [1]; t_rids := [4] |}) |}]; auth := [] |});
   ([2; 1], 48, UOk {| rcode := 0; ans := [{| owner := [2; 1]; rid := 5; rbody := BKey 5 4 15 48622 true false |}; {| owner := [2; 1]; rid := 7; rbody := BSig 48 15 2 3600 1700604800 1699996400 48622 [2; 1] (SGen 4 {| t_owner := [2; 1]; t_type := 48; t_labels := 2; t_ottl := 3600; t_alg := 15; t_exp := 1700604800; t_inc := 1699996400; t_tag := 48622; t_signer := [2; 1]; t_rids := [5; 8] |}) |}]; auth := [] |});
   ([1], 43, UOk {| rcode := 0; ans := [{| owner := [1]; rid := 9; rbody := BDs 61840 15 2 (DGen [1] 10) |}; {| owner := [1]; rid := 11; rbody := BSig 43 15 1 3600 1700604800 1699996400 48940 [] (SGen 2 {| t_owner := [1]; t_type := 43; t_labels := 1; t_ottl := 3600; t_alg := 15; t_exp := 1700604800; t_inc := 1699996400; t_tag := 48940; t_signer := []; t_rids := [9] |}) |}]; auth := [] |});
   ([1], 48, UOk {| rcode := 0; ans := [{| owner := [1]; rid := 10; rbody := BKey 10 5 15 61840 true false |}; {| owner := [1]; rid := 12; rbody := BKey 12 3 15 26577 true false |}; {| owner := [1]; rid := 13; rbody := BSig 48 15 1 3600 1700604800 1699996400 61840 [1] (SGen 5 {| t_owner := [1]; t_type := 48; t_labels := 1; t_ottl := 3600; t_alg := 15; t_exp := 1700604800; t_inc := 1699996400; t_tag := 61840; t_signer := [1]; t_rids := [10; 12] |}) |}]; auth := [] |})].
Definition w4_key : rr := {| owner := [2; 1]; rid := 5; rbody := BKey 5 4 15 48622 true false |}.

Lemma w4_secure : exists rc a au, run_tbl w4_tbl [1] 1700000000 ([2; 1], T_DNSKEY) = VOk rc a au /\ In (w4_key, Secure) a.
Proof. eexists _, _, _. split; [vm_compute; reflexivity|]. cbn. auto. Qed.

Lemma w4_not_set_signed : ~ SetSigned (table_upstream w4_tbl) 1700000000 w4_key.
Proof. intros H. apply set_signed_closed in H. vm_compute in H. discriminate. Qed.

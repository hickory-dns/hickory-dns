(* C07 — DnssecSummary::from_records ([summarize]), on which the AD / SERVFAIL mapping rests. *)
From HV Require Import Lib.Base C07.Model.

Lemma summary_loop_bogus : forall ps acc, In Bogus ps -> summary_loop acc ps = SumBogus.
Proof.
  induction ps as [|p ps IH]; intros acc H; [inversion H|].
  destruct H as [->|H]; [reflexivity|].
  destruct p; cbn [summary_loop]; auto.
Qed.

Lemma summary_loop_secure : forall ps acc,
  summary_loop acc ps = SumSecure ->
  Forall (fun p => p = Secure) ps /\ acc <> Some false /\ (acc = None -> ps <> []).
Proof.
  induction ps as [|p ps IH]; intros acc H; cbn [summary_loop] in H.
  - destruct acc as [[|]|]; try discriminate. repeat split; [constructor|discriminate..].
  - destruct p; try discriminate; apply IH in H; destruct H as (Hf & Ha & _); [|now elim Ha..].
    repeat split; [constructor; auto| |discriminate]. now destruct acc as [[|]|].
Qed.

Lemma summarize_secure : forall ps, summarize ps = SumSecure -> ps <> [] /\ Forall (fun p => p = Secure) ps.
Proof. intros ps H. apply summary_loop_secure in H. destruct H as (Hf & _ & Hn). auto. Qed.

Lemma summarize_bogus : forall ps, In Bogus ps -> summarize ps = SumBogus.
Proof. intros; now apply summary_loop_bogus. Qed.

Lemma summarize_all_secure : forall ps, ps <> [] -> Forall (fun p => p = Secure) ps -> summarize ps = SumSecure.
Proof.
  intros ps Hn Hf. unfold summarize.
  destruct ps as [|p ps]; [congruence|]. inversion Hf as [|? ? Hp Hf']; subst. cbn [summary_loop].
  clear Hn Hf. induction ps as [|p ps IH]; [reflexivity|].
  inversion Hf' as [|? ? Hp Hf'']; subst. cbn [summary_loop]. auto.
Qed.

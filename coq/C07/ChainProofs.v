(* C07 — soundness of the validator model: every non-signature record that comes back Secure
   is authenticated by a chain (Auth) from a trust anchor, for every upstream; and what the last
   link of that chain says of a record that is not a key. *)
From HV Require Import Lib.Base C07.Model C07.ModelFacts C07.Layer.
Open Scope N_scope.

Section Sound.
  Variable U : query -> ureply.
  Variable anchors : list N.
  Variable now : N.
  Variable maxd : nat.
  Variable nsecv nsec3v : query -> N -> list vrr -> list vrr -> list nat -> proof.
  Variable sched : list (nat * rr) -> list (nat * rr).
  Hypothesis sched_sub : forall l x, In x (sched l) -> In x l.

  Notation Auth := (Auth U anchors now).
  Notation SigOk := (SigOk now).

  Lemma verify_with_key_is_key : forall k recs kr s p,
    verify_with_key now k recs kr s = Some p -> is_key kr = true.
  Proof.
    intros k recs kr s p H. now apply verify_with_key_some in H.
  Qed.

  Definition secure_auth (v : vres) : Prop :=
    forall r, In (r, Secure) (records_of v) -> is_sig r = false -> Auth r.

  Section WithLk.
    Variable lk : query -> vres.
    Hypothesis Hlk : forall q, secure_auth (lk q).

    Lemma trusted_auth kr : Trusted anchors lk kr -> is_sig kr = false -> Auth kr.
    Proof.
      assert (Hans : forall x, answered lk x Secure -> is_sig x = false -> Auth x).
      { intros x (q & rc & a & au & E & Hin). apply (Hlk q). rewrite E. apply in_or_app. now left. }
      intros [Hk Ha|d Hd Hv|Hkr] Hsg.
      - now apply Auth_anchor.
      - apply Auth_ds with d; [|exact Hv]. apply Hans; [exact Hd|]. apply ds_not_sig. now apply DsVouches_ds with kr.
      - now apply Hans.
    Qed.

    Lemma verify_response_ok d q q0 : secure_auth (verify_response U anchors now nsecv nsec3v sched lk d q (U q0)).
    Proof.
      intros r Hin Hsg. apply response_says in Hin; [|discriminate]. destruct Hin as (sec & Hsec & Hr & Hs).
      assert (Hrec : In r (recs_of (key_of r) sec)) by now apply recs_of_In.
      destruct (Hs sched_sub) as [(s & kr & p & Hsin & Hzone & Hkr & Hv)|Hall]; [|exact (trusted_auth r (Hall r Hrec) Hsg)].
      apply verify_with_key_some in Hv. destruct Hv as [Hisk Hv].
      (* the set holds [r], so it was not the empty set that was accepted *)
      destruct p; try contradiction; [|now rewrite Hv in Hrec].
      eapply Auth_sig; [exact Hsec|exact Hrec|exact Hsin|exact (trusted_auth kr Hkr (key_not_sig _ Hisk))|exact Hv|].
      (* the signer name the layer checked is the owner of the key (SigOk) *)
      now rewrite <- (SigOk_signer _ _ _ _ _ Hv).
    Qed.
  End WithLk.

  Lemma send_ok : forall fuel d q, secure_auth (send U anchors now maxd nsecv nsec3v sched fuel d q).
  Proof.
    apply (send_ind U anchors now maxd nsecv nsec3v sched (fun _ => secure_auth)); try (now intros q r []).
    intros f d IH q. now apply verify_response_ok.
  Qed.

  Lemma validate_sound : forall q rc a au r,
    (validate U anchors now maxd nsecv nsec3v sched q = VOk rc a au \/
     exists p, validate U anchors now maxd nsecv nsec3v sched q = VNsec p rc a au) ->
    In (r, Secure) (a ++ au) -> is_sig r = false -> Auth r.
  Proof.
    intros q rc a au r H Hin. apply (send_ok (maxd + 2) 0 q). eapply records_of_in; eauto.
  Qed.
End Sound.

Section Guarded.
  Variable U : query -> ureply.
  Variable anchors : list N.
  Variable now : N.

  Definition ZoneSigned (r : rr) : Prop :=
    exists sec k s kr, Delivered U sec /\ In r (recs_of k sec) /\ In s (sigs_of k sec) /\
      SigOk now k (recs_of k sec) kr s /\ Auth U anchors now kr /\
      sig_signer s = owner kr /\ zone_of (owner kr) (owner r) = true.

  Lemma auth_zone_signed : forall r, Auth U anchors now r -> is_key r = false -> ZoneSigned r.
  Proof.
    intros r H Hk. inversion H as [kr Hkk Ha|kr d Hd Hv|r0 k sec s kr Hsec Hr Hs Hkr Hok Hzo]; subst.
    - congruence.
    - inversion Hv as [kid pk alg tag revoke dt Ekr]. unfold is_key in Hk. rewrite Ekr in Hk. discriminate.
    - apply recs_of_In in Hr as Hr'. destruct Hr' as (Hrs & Hkr' & _).
      exists sec, k, s, kr. repeat split; auto.
      + exact (SigOk_signer _ _ _ _ _ Hok).
      + rewrite <- Hkr' in Hzo. exact Hzo.
  Qed.

  Lemma auth_set_signed : forall r, Auth U anchors now r -> is_key r = false -> SetSigned U now r.
  Proof.
    intros r H Hk. destruct (auth_zone_signed r H Hk) as (sec & k & s & kr & Hsec & Hr & Hs & Hok & _).
    exists sec, k, s, kr. auto.
  Qed.

  Lemma auth_home_signed : forall r, Auth U anchors now r -> is_key r = false -> HomeSigned U r.
  Proof.
    intros r H Hk. destruct (auth_zone_signed r H Hk) as (sec & k & s & kr & Hsec & Hr & Hs & Hok & _ & Esg & Hzo).
    apply recs_of_In in Hr as Hr'. destruct Hr' as (Hrs & Hkr' & _).
    exists sec, s. repeat split; auto.
    - now rewrite Hkr'.
    - now rewrite Esg.
  Qed.
End Guarded.

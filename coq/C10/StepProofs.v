(* C10 — what inner_lookup computes on a well-formed zone, in terms of the spec's vocabulary
   (cuts on the path, RRsets at a node, lowest wildcard carrying the type), after four facts
   about [find] and [filter]. *)
From HV Require Import Lib.Base Lib.ListX C10.Model C10.NameProofs.
Open Scope N_scope.

Section ListFacts.
Context {A : Type}.
Implicit Types (p : A -> bool) (l : list A).

Lemma find_ext_in p p' l : (forall x, In x l -> p x = p' x) -> find p l = find p' l.
Proof.
  induction l as [|x l IH]; intros H; [reflexivity|]. cbn [find].
  rewrite (H x (or_introl eq_refl)). destruct (p' x); [reflexivity|]. apply IH. intros y Hy. apply H. now right.
Qed.

Lemma find_hd_filter p l : find p l = hd_error (filter p l).
Proof. induction l as [|x l IH]; [reflexivity|]. cbn [find filter]. destruct (p x); [reflexivity|exact IH]. Qed.

Lemma filter_rev p l : filter p (rev l) = rev (filter p l).
Proof.
  induction l as [|x l IH]; [reflexivity|]. cbn [rev filter].
  rewrite filter_app, IH. cbn [filter]. destruct (p x); cbn [rev]; [reflexivity|now rewrite app_nil_r].
Qed.

Lemma find_rev_filter p l : find p l = hd_error (rev (filter p (rev l))).
Proof. now rewrite filter_rev, rev_involutive, find_hd_filter. Qed.

End ListFacts.

(* the test by which [cuts_on_path] filters the ancestors of q *)
Definition cutp (z : zone) (o q : name) (t : N) (n : name) : bool :=
  strictly_under n o && has_rs z n T_NS && negb ((t =? T_DS) && name_eqb n q).

Lemma cuts_on_path_filter z o q t : cuts_on_path z o q t = filter (cutp z o q t) (rev (suffixes q)).
Proof. reflexivity. Qed.

Lemma strictly_under_refl o : strictly_under o o = false.
Proof. unfold strictly_under. now rewrite name_eqb_refl, andb_false_r. Qed.

Lemma above_apex_no_cut z o q t up l : l :: up = o -> find (cutp z o q t) (suffixes up) = None.
Proof.
  intros <-. apply find_none_all. intros n Hn. apply in_suffixes in Hn.
  unfold cutp, strictly_under. rewrite not_under_shorter; [reflexivity|].
  apply is_under_length in Hn. cbn [length]. lia.
Qed.

(* inner_lookup tells a delegation point from the apex by the SOA beside the NS set, the spec by
   the name *)
Lemma ns_below_apex z o n : wf z o -> has_rs z n T_NS = true -> strictly_under n o = negb (has_rs z n T_SOA).
Proof.
  intros W H. apply has_rs_true in H. destruct H as [ns H]. apply find_rs_some in H. destruct H as (Hi & Hn & _).
  destruct (wf_in _ _ W ns Hi) as [U _]. rewrite Hn in U. unfold strictly_under. rewrite U. cbn [andb]. f_equal.
  destruct (has_rs z n T_SOA) eqn:S.
  - rewrite (wf_soa_at z o n W S). apply name_eqb_refl.
  - apply name_eqb_neq. intros E. rewrite E, (wf_soa _ _ W) in S. discriminate.
Qed.

Lemma deleg_find z o q t : wf z o -> forall search,
  deleg z q t search =
  match find (cutp z o q t) (suffixes search) with Some c => find_rs z c T_NS | None => None end.
Proof.
  intros W search. induction search as [|l up IH].
  - cbn [deleg suffixes find]. unfold cutp, strictly_under. cbn [is_under].
    destruct (name_eqb [] o); reflexivity.
  - cbn [deleg]. rewrite suffixes_cons. cbn [find]. unfold cutp at 1.
    destruct (find_rs z (l :: up) T_NS) as [ns|] eqn:Ens.
    + assert (Hns : has_rs z (l :: up) T_NS = true) by (apply has_rs_true; eauto).
      rewrite (ns_below_apex z o _ W Hns), Hns.
      destruct (has_rs z (l :: up) T_SOA) eqn:Esoa; cbn [negb andb].
      * now rewrite (above_apex_no_cut z o q t up l (wf_soa_at z o _ W Esoa)).
      * destruct ((t =? T_DS) && name_eqb (l :: up) q); cbn [negb]; [exact IH|exact (eq_sym Ens)].
    + apply has_rs_false in Ens. rewrite Ens, andb_false_r. exact IH.
Qed.

Lemma cuts_in z o q t c : In c (cuts_on_path z o q t) ->
  strictly_under c o = true /\ has_rs z c T_NS = true /\ is_under q c = true.
Proof.
  rewrite cuts_on_path_filter, filter_In, <- in_rev, in_suffixes. unfold cutp.
  rewrite !andb_true_iff. tauto.
Qed.

(* the spec lists the cuts from the apex down; inner_lookup walks up and stops at the first *)
Lemma deleg_cuts z o q t : wf z o ->
  deleg z q t q = match rev (cuts_on_path z o q t) with c :: _ => find_rs z c T_NS | [] => None end.
Proof.
  intros W. rewrite (deleg_find z o q t W), find_rev_filter, <- cuts_on_path_filter. now destruct (rev (cuts_on_path z o q t)).
Qed.

(* [scan] on a well-formed zone (scan_wf): the node's CNAME RRset if any, else type t *)
Definition scanres (z : zone) (n : name) (t : N) : option rrset :=
  match find_rs z n T_CNAME with Some c => Some c | None => find_rs z n t end.

Lemma scan_wf z o n t : wf z o -> scan z n t = scanres z n t.
Proof.
  intros W. unfold scan, scanres. destruct (find_rs z n T_CNAME) as [c|] eqn:E5.
  - rewrite <- E5. apply find_rs_some in E5. destruct E5 as (Hc & Nc & Tc).
    apply find_ext_in. intros x Hx. destruct (name_eqb (rs_name x) n) eqn:En; [|reflexivity].
    apply name_eqb_eq in En. rewrite (wf_cname _ _ W c x) by congruence. apply orb_true_r.
  - apply find_ext_in. intros x Hx. destruct (name_eqb (rs_name x) n) eqn:En; [|reflexivity].
    apply name_eqb_eq in En. pose proof (find_rs_none _ _ _ x E5 Hx En) as T. apply N.eqb_neq in T.
    now rewrite T, orb_false_r.
Qed.

Lemma scanres_some z n t s : scanres z n t = Some s -> In s z /\ rs_name s = n /\ (rs_type s = T_CNAME \/ rs_type s = t).
Proof.
  unfold scanres. destruct (find_rs z n T_CNAME) as [c|] eqn:E5.
  - intros H. inversion H. subst c. apply find_rs_some in E5. tauto.
  - intros H. apply find_rs_some in H. tauto.
Qed.

Lemma scanres_carries z n t : carries z n t = match scanres z n t with Some _ => true | None => false end.
Proof.
  unfold carries, scanres, has_rs. destruct (find_rs z n T_CNAME); [now rewrite orb_true_r|].
  now rewrite orb_false_r.
Qed.

Lemma carries_has_data z n t : carries z n t = true -> has_data z n = true.
Proof. unfold carries. intros H. apply orb_true_iff in H. destruct H as [H|H]; eapply has_rs_has_data; exact H. Qed.

Lemma carries_replace_any z q : carries z q (replace_any z q) = has_data z q.
Proof.
  destruct (has_data z q) eqn:D.
  - destruct (replace_any_in z q D) as (s & Hs & Ns & Ts).
    unfold carries. rewrite <- Ns at 1. now rewrite <- Ts, (has_rs_in z s Hs).
  - destruct (carries z q (replace_any z q)) eqn:C; [|reflexivity].
    apply carries_has_data in C. congruence.
Qed.

Lemma star_no_ns z o a : wf z o -> find_rs z (L_STAR :: a) T_NS = None.
Proof.
  intros W. apply find_rs_none_intro. intros ns Hi Hn Ht.
  pose proof (wf_starns _ _ W ns Hi Ht) as S. rewrite Hn in S. discriminate.
Qed.

Lemma lookup_nowild_nocut z o n t : wf z o -> cuts_on_path z o n t = [] -> lookup_nowild z n t = scanres z n t.
Proof. intros W Hc. unfold lookup_nowild. now rewrite (deleg_cuts z o n t W), Hc, (scan_wf z o n t W). Qed.

Lemma cuts_incl_star z o l up t a : wf z o -> is_under up a = true ->
  incl (cuts_on_path z o (L_STAR :: a) t) (cuts_on_path z o (l :: up) t).
Proof.
  intros W Ha n. rewrite !cuts_on_path_filter, !filter_In, <- !in_rev, !in_suffixes. intros [Hn P].
  unfold cutp in P |- *. apply andb_true_iff in P. destruct P as [P _].
  (* a "*" owner is no cut, and what lies above it lies above the query name *)
  cbn [is_under] in Hn. apply orb_true_iff in Hn. destruct Hn as [E|Hn].
  - apply name_eqb_eq in E. subst n. apply andb_true_iff in P. destruct P as [_ P].
    apply has_rs_true in P. destruct P as [ns P]. rewrite (star_no_ns z o a W) in P. discriminate.
  - pose proof (is_under_trans _ _ _ Ha Hn) as Hup. split; [now apply is_under_cons|].
    rewrite P. replace (name_eqb n (l :: up)) with false; [now rewrite andb_false_r|].
    symmetry. apply name_eqb_neq. intros E. subst n. apply is_under_length in Hup. cbn [length] in Hup. lia.
Qed.

Definition star_carries (z : zone) (t : N) (a : name) : bool := carries z (L_STAR :: a) t.

Lemma wloop_find z o l up t : wf z o -> cuts_on_path z o (l :: up) t = [] ->
  forall base, is_under up base = true ->
  wloop z (l :: up) t base =
  match find (star_carries z t) (suffixes base) with
  | Some a => option_map (rename (l :: up)) (scanres z (L_STAR :: a) t)
  | None => None
  end.
Proof.
  intros W Hc.
  assert (Hs : forall a, is_under up a = true -> lookup_nowild z (L_STAR :: a) t = scanres z (L_STAR :: a) t).
  { intros a Ha. apply (lookup_nowild_nocut z o _ t W), incl_l_nil. rewrite <- Hc. now apply cuts_incl_star. }
  intros base. induction base as [|b base IH]; intros Hb; cbn [wloop suffixes find];
    rewrite (Hs _ Hb); unfold star_carries at 1; rewrite scanres_carries.
  - destruct (scanres z [L_STAR] t) eqn:E; cbv iota beta; [now rewrite E|reflexivity].
  - destruct (scanres z (L_STAR :: b :: base) t) eqn:E; cbv iota beta; [now rewrite E|].
    apply IH, (is_under_trans _ _ _ Hb), is_under_cons, is_under_refl.
Qed.

Lemma lowest_carrying_some z o n t a : lowest_carrying z o n t = Some a ->
  is_under a o = true /\ carries z (L_STAR :: a) t = true /\ exists l up, n = l :: up /\ is_under up a = true.
Proof.
  unfold lowest_carrying. intros H. apply find_some in H. destruct H as [Hin H].
  apply andb_true_iff in H. destruct n as [|l up]; [destruct Hin|].
  rewrite tl_suffixes_cons, in_suffixes in Hin. destruct H; eauto 6.
Qed.

Lemma lowest_carrying_find z o cur t : wf z o ->
  lowest_carrying z o cur t = find (star_carries z t) (tl (suffixes cur)).
Proof.
  intros W. unfold lowest_carrying. apply find_ext_in. intros a _. unfold star_carries.
  destruct (carries z (L_STAR :: a) t) eqn:C; [|now rewrite andb_false_r].
  rewrite andb_true_r.
  destruct (is_under (L_STAR :: a) o) eqn:U.
  - destruct (is_under a o) eqn:U'; [reflexivity|].
    pose proof (is_under_cons_inv _ _ _ U U') as E. pose proof (wf_nostar _ _ W) as S.
    rewrite E in S. cbn in S. discriminate.
  - unfold carries, has_rs in C. rewrite !(wf_outside_rs z o _ _ W U) in C. discriminate.
Qed.

Theorem inner_lookup_nocut z o cur t : wf z o -> cuts_on_path z o cur t = [] ->
  inner_lookup z cur t =
  match scanres z cur t with
  | Some s => Some s
  | None =>
      if is_star cur then None
      else match lowest_carrying z o cur t with
           | Some a => option_map (rename cur) (scanres z (L_STAR :: a) t)
           | None => None
           end
  end.
Proof.
  intros W Hc. unfold inner_lookup. rewrite (lookup_nowild_nocut z o cur t W Hc).
  destruct (scanres z cur t) as [s|]; [reflexivity|].
  destruct cur as [|l up]; [reflexivity|].
  cbn [is_star]. destruct (l =? L_STAR); [reflexivity|].
  rewrite (lowest_carrying_find z o (l :: up) t W). rewrite tl_suffixes_cons.
  apply (wloop_find z o l up t W Hc), is_under_refl.
Qed.

Theorem inner_lookup_cut z o q t : wf z o -> cuts_on_path z o q t <> [] ->
  exists c ns, In c (cuts_on_path z o q t) /\ inner_lookup z q t = Some ns /\
               find_rs z c T_NS = Some ns /\ rs_type ns = T_NS /\ rs_name ns = c.
Proof.
  intros W H. unfold inner_lookup, lookup_nowild. rewrite (deleg_cuts z o q t W).
  destruct (rev (cuts_on_path z o q t)) as [|c r] eqn:E.
  - apply (f_equal (@rev _)) in E. rewrite rev_involutive in E. contradiction.
  - assert (Hc : In c (cuts_on_path z o q t)) by (apply in_rev; rewrite E; now left).
    destruct (cuts_in _ _ _ _ _ Hc) as (_ & Hns & _). apply has_rs_true in Hns. destruct Hns as [ns Hns].
    rewrite Hns. exists c, ns. pose proof (find_rs_some _ _ _ _ Hns) as [_ [Nn Tn]]. auto.
Qed.

Lemma cuts_only_below_apex z o q t : strictly_under q o = false -> cuts_on_path z o q t = [].
Proof.
  intros H. apply incl_l_nil. intros c Hin. exfalso. apply cuts_in in Hin. destruct Hin as (Hs & _ & Hu).
  unfold strictly_under in *. apply andb_true_iff in Hs. destruct Hs as [Hs Hne].
  rewrite (is_under_trans _ _ _ Hu Hs) in H. apply negb_false_iff, name_eqb_eq in H. subst q.
  rewrite (is_under_antisym _ _ Hs Hu), name_eqb_refl in Hne. discriminate.
Qed.

Lemma cuts_incl_any z o q t : incl (cuts_on_path z o q t) (cuts_on_path z o q T_ANY).
Proof.
  intros c. rewrite !cuts_on_path_filter, !filter_In. unfold cutp. intros [Hi Hp]. split; [exact Hi|].
  apply andb_true_iff in Hp. destruct Hp as [Hp _]. now rewrite Hp.
Qed.

(* at the apex and outside the zone there is neither a cut above nor a wildcard to try *)
Theorem inner_lookup_not_below z o n t : wf z o -> strictly_under n o = false ->
  inner_lookup z n t = scanres z n t.
Proof.
  intros W H. rewrite (inner_lookup_nocut z o n t W (cuts_only_below_apex z o n t H)).
  destruct (scanres z n t); [reflexivity|]. destruct (is_star n); [reflexivity|].
  destruct (lowest_carrying z o n t) as [a|] eqn:L; [exfalso|reflexivity].
  apply lowest_carrying_some in L. destruct L as (U & _ & l & up & -> & Ha).
  pose proof (is_under_trans _ _ _ Ha U) as Hup. unfold strictly_under in H.
  rewrite (is_under_cons l _ _ Hup) in H. apply negb_false_iff, name_eqb_eq in H. subst o.
  apply is_under_length in Hup. cbn [length] in Hup. lia.
Qed.

Theorem inner_lookup_outside z o n t : wf z o -> is_under n o = false -> inner_lookup z n t = None.
Proof.
  intros W H. rewrite (inner_lookup_not_below z o n t W) by (unfold strictly_under; now rewrite H).
  unfold scanres. now rewrite !(wf_outside_rs z o n _ W H).
Qed.

(* C10 — property theorems and the zones of the witnesses.

   [respond z o q t] is the model of what the server sends for QNAME q,
   QTYPE t over the zone z with apex o (Catalog::lookup -> InMemoryZoneHandler::lookup ->
   inner_lookup / wildcard walk / chase_cnames -> build_authoritative_response).
   [spec_answer z o q t] is what RFC 1034 §4.3.2 + RFC 4592 + RFC 2308 prescribe, written
   independently of the code; [judge] says whether a reply is acceptable for it (answer set
   exact, or whole RRsets for ANY; authority = the referral's NS set / the apex SOA / nothing or
   the apex NS set).  [known_class z o q t] names the known-deviation class of a query, a
   decidable predicate on zone and query only (0 = none).  [wfb] describes the zones of the
   statement (SOA exactly at the apex, all owners inside the zone, unique (name,type) keys,
   CNAME alone at its node, no NS at a wildcard owner, apex not a wildcard name).

   The faithful model does NOT satisfy the statement for all inputs: eight refutation
   theorems give a witness per class (each replayed on the real server by the harness corpus),
   and the guarded theorem covers every other zone and query.  Unsigned zones only: the DNSSEC
   sentence of the statement (RRSIGs / denial proofs under DO) is not modelled here. *)
From HV Require Import Lib.Base C10.Model C10.NameProofs C10.StepProofs C10.ChainProofs
  C10.RespProofs C10.MainProofs C10.SafetyProofs C10.SpecProofs.
Open Scope N_scope.

(* For every well-formed zone, every query name and every query type: unless the query is in
   one of the eight known-deviation classes, the reply of the model is exactly what the RFC
   algorithm prescribes (exact match / CNAME chased in the zone / referral at the cut /
   synthesis from the closest encloser's wildcard / NODATA incl. empty non-terminals /
   NXDOMAIN, SOA in authority on negatives; REFUSED outside the zone). *)
Theorem C10_refines_rfc_guarded : forall z o q t,
  wfb z o = true -> known_class z o q t = 0 ->
  judge z o (spec_answer z o q t) (respond z o q t) = true.
Proof. intros z o q t W K. apply refines_guarded; [now apply wfb_wf|exact K]. Qed.
Print Assumptions C10_refines_rfc_guarded.

(* zones used by the examples and witnesses (labels: 0 "*", 1..7 "a".."g", 8 "other", 9 "example") *)
Definition z4592 : zone :=      (* the example zone of RFC 4592 §2.2.1 *)
  [RS [9] 2 [RNm [1;8]; RNm [2;8]]; RS [9] 6 [RSoa]; RS [0;9] 15 [RNm [1;9]]; RS [0;9] 16 [RId 1];
   RS [3;0;9] 16 [RId 2]; RS [1;9] 1 [RId 1]; RS [5;4;1;9] 16 [RId 3]; RS [5;4;2;9] 16 [RId 4];
   RS [6;9] 2 [RNm [1;8]; RNm [2;8]]].
Definition zcuts : zone :=
  [RS [9] 2 [RNm [1;8]]; RS [9] 6 [RSoa]; RS [1;9] 5 [RNm [1;3;9]]; RS [2;9] 2 [RNm [1;2;9]];
   RS [2;9] 43 [RId 2]; RS [1;2;9] 1 [RId 1]; RS [3;2;9] 2 [RNm [1;8]]; RS [3;9] 2 [RNm [1;8]];
   RS [4;9] 15 [RNm [1;2;9]]].
Definition zcname : zone :=
  [RS [9] 2 [RNm [1;8]]; RS [9] 6 [RSoa]; RS [1;9] 5 [RNm [2;9]]; RS [2;9] 5 [RNm [3;9]];
   RS [3;9] 1 [RId 1]; RS [0;3;9] 5 [RNm [3;9]]; RS [4;9] 5 [RNm [7;9]]; RS [6;9] 5 [RNm [6;6;9]];
   RS [6;6;9] 5 [RNm [6;9]]].
Definition zlong : zone :=
  [RS [9] 2 [RNm [1;8]]; RS [9] 6 [RSoa];
   RS [1;1;9] 5 [RNm [2;1;9]]; RS [2;1;9] 5 [RNm [3;1;9]]; RS [3;1;9] 5 [RNm [4;1;9]];
   RS [4;1;9] 5 [RNm [5;1;9]]; RS [5;1;9] 5 [RNm [6;1;9]]; RS [6;1;9] 5 [RNm [7;1;9]];
   RS [7;1;9] 5 [RNm [1;2;9]]; RS [1;2;9] 5 [RNm [2;2;9]]; RS [2;2;9] 5 [RNm [3;2;9]];
   RS [3;2;9] 1 [RId 1]].

(* Non-vacuity: the hypotheses hold for non-trivial inputs, and the conclusion then pins the
   reply down: wildcard synthesis, a chased CNAME chain ending in data, a loop, a referral, DS
   at the cut answered from the parent side, an empty non-terminal, NXDOMAIN. *)
Example C10_guarded_examples :
  (wfb z4592 [9] = true /\ known_class z4592 [9] [7;9] 15 = 0 /\
   respond z4592 [9] [7;9] 15 = Ob 0 true [RR [7;9] 15 (RNm [1;9])] [] [RR [1;9] 1 (RId 1)]) /\
  (wfb z4592 [9] = true /\ known_class z4592 [9] [4;1;9] 1 = 0 /\
   respond z4592 [9] [4;1;9] 1 = Ob 0 true [] [RR [9] 6 RSoa] []) /\
  (known_class z4592 [9] [7;4;1;9] 28 = 0 /\
   respond z4592 [9] [7;4;1;9] 28 = Ob 3 true [] [RR [9] 6 RSoa] []) /\
  (wfb zcname [9] = true /\ known_class zcname [9] [1;9] 1 = 0 /\
   respond zcname [9] [1;9] 1 =
     Ob 0 true [RR [1;9] 5 (RNm [2;9]); RR [2;9] 5 (RNm [3;9]); RR [3;9] 1 (RId 1)] [] []) /\
  (known_class zcname [9] [6;9] 1 = 0 /\
   respond zcname [9] [6;9] 1 = Ob 0 true [RR [6;9] 5 (RNm [6;6;9]); RR [6;6;9] 5 (RNm [6;9])] [] []) /\
  (known_class zcname [9] [7;3;9] 1 = 0 /\
   respond zcname [9] [7;3;9] 1 = Ob 0 true [RR [7;3;9] 5 (RNm [3;9]); RR [3;9] 1 (RId 1)] [] []) /\
  (wfb zcuts [9] = true /\ known_class zcuts [9] [1;2;9] 1 = 0 /\
   respond zcuts [9] [1;2;9] 1 = Ob 0 true [] [RR [2;9] 2 (RNm [1;2;9])] []) /\
  (known_class zcuts [9] [2;9] 43 = 0 /\
   respond zcuts [9] [2;9] 43 = Ob 0 true [RR [2;9] 43 (RId 2)] [] []) /\
  (wfb zlong [9] = true /\ known_class zlong [9] [3;1;9] 1 = 0).
Proof. vm_compute. repeat split. Qed.

(* One witness per class: a well-formed zone and a query of that class on which the model's
   reply is NOT acceptable for the RFC expectation.  Each witness is part of the harness corpus
   and is confirmed there on the real server (known_findings.json). *)

(* RFC 4592 §2.2.1 "host1.example MX": the name exists, yet MX is synthesised from *.example *)
Theorem C10_wildcard_rfc4592_refuted :
  exists z o q t, wfb z o = true /\ known_class z o q t = 3 /\
                  judge z o (spec_answer z o q t) (respond z o q t) = false.
Proof. exists z4592, [9], [1;9], 15. vm_compute. repeat split. Qed.
Print Assumptions C10_wildcard_rfc4592_refuted.

(* further members of the same class: synthesis above the closest encloser (ghost.*.example,
   _telnet._tcp.host1.example), NXDOMAIN instead of NODATA (host3.example A), "*"-labelled QNAME *)
Example C10_wildcard_rfc4592_more :
  Forall (fun qt => known_class z4592 [9] (fst qt) (snd qt) = 3 /\
                    judge z4592 [9] (spec_answer z4592 [9] (fst qt) (snd qt)) (respond z4592 [9] (fst qt) (snd qt)) = false)
         [([7;0;9], 15); ([3;0;9], 15); ([7;4;1;9], 16); ([7;9], 1); ([4;1;9], 16); ([0;7;9], 16)].
Proof. repeat (apply Forall_cons; [split; vm_compute; reflexivity|]). apply Forall_nil. Qed.

(* a delegation below a delegation: the referral names the lower (occluded) cut *)
Theorem C10_nested_cut_refuted :
  exists z o q t, wfb z o = true /\ known_class z o q t = 1 /\
                  judge z o (spec_answer z o q t) (respond z o q t) = false.
Proof. exists zcuts, [9], [7;3;2;9], 1. vm_compute. repeat split. Qed.
Print Assumptions C10_nested_cut_refuted.

(* QTYPE NS at a cut: the child's NS set in the ANSWER section of an authoritative reply *)
Theorem C10_ns_any_at_cut_refuted :
  exists z o q t, wfb z o = true /\ known_class z o q t = 2 /\
                  judge z o (spec_answer z o q t) (respond z o q t) = false.
Proof. exists zcuts, [9], [1;2;9], 2. vm_compute. repeat split. Qed.
Print Assumptions C10_ns_any_at_cut_refuted.

(* a CNAME whose target lies below a cut: the cut's NS set in the ANSWER section *)
Theorem C10_cname_into_delegation_refuted :
  exists z o q t, wfb z o = true /\ known_class z o q t = 4 /\
                  judge z o (spec_answer z o q t) (respond z o q t) = false.
Proof. exists zcuts, [9], [1;9], 1. vm_compute. repeat split. Qed.
Print Assumptions C10_cname_into_delegation_refuted.

(* a CNAME to an in-zone name that does not exist: NOERROR, no SOA (RFC 2308: NXDOMAIN + SOA) *)
Theorem C10_cname_negative_tail_refuted :
  exists z o q t, wfb z o = true /\ known_class z o q t = 5 /\
                  judge z o (spec_answer z o q t) (respond z o q t) = false.
Proof. exists zcname, [9], [4;9], 1. vm_compute. repeat split. Qed.
Print Assumptions C10_cname_negative_tail_refuted.

(* ten RRsets on the chain: cut off after eight *)
Theorem C10_cname_depth_8_refuted :
  exists z o q t, wfb z o = true /\ known_class z o q t = 6 /\
                  judge z o (spec_answer z o q t) (respond z o q t) = false.
Proof. exists zlong, [9], [1;1;9], 1. vm_compute. repeat split. Qed.
Print Assumptions C10_cname_depth_8_refuted.

(* ANY for a name covered by a wildcard CNAME: chased as if the query were for A *)
Theorem C10_any_wildcard_cname_refuted :
  exists z o q t, wfb z o = true /\ known_class z o q t = 7 /\
                  judge z o (spec_answer z o q t) (respond z o q t) = false.
Proof. exists zcname, [9], [7;3;9], 255. vm_compute. repeat split. Qed.
Print Assumptions C10_any_wildcard_cname_refuted.

(* QTYPE SOA below a cut: the apex NS set is appended to the referral *)
Theorem C10_soa_query_below_cut_refuted :
  exists z o q t, wfb z o = true /\ known_class z o q t = 8 /\
                  judge z o (spec_answer z o q t) (respond z o q t) = false.
Proof. exists zcuts, [9], [1;2;9], 6. vm_compute. repeat split. Qed.
Print Assumptions C10_soa_query_below_cut_refuted.

(* The reference algorithm always terminates with an expectation (its fuel is never exhausted):
   every zone, every query, no well-formedness needed.  So [judge] in the main theorem is never
   false for lack of an expectation. *)
Theorem C10_spec_total : forall z o q t, spec_answer z o q t <> SOutOfFuel.
Proof. exact spec_total. Qed.
Print Assumptions C10_spec_total.

(* "never data from below a cut", for ALL zones, names and types (no class guard): at or below
   a delegation the lookup returns the NS RRset of a cut on the path and nothing else — glue
   and occluded records are never served as answers (DS exactly at the cut is the parent's). *)
Theorem C10_below_cut_only_ns : forall z o q t,
  wfb z o = true -> cuts_on_path z o q t <> [] ->
  exists c ns, In c (cuts_on_path z o q t) /\ inner_lookup z q t = Some ns /\
               find_rs z c 2 = Some ns /\ rs_type ns = 2 /\ rs_name ns = c.
Proof. intros z o q t W H. apply inner_lookup_cut; [now apply wfb_wf|exact H]. Qed.
Print Assumptions C10_below_cut_only_ns.

Example C10_below_cut_example :
  wfb zcuts [9] = true /\ cuts_on_path zcuts [9] [1;2;9] 1 = [[2;9]] /\
  inner_lookup zcuts [1;2;9] 1 = Some (RS [2;9] 2 [RNm [1;2;9]]).
Proof. vm_compute. repeat split. Qed.

(* NXDOMAIN is returned only for names inside the zone that do not exist — never for a name
   that owns records or has records below it (empty non-terminal). Every zone, no guard. *)
Theorem C10_nxdomain_only_nonexistent : forall z o q t,
  rcode_of (respond z o q t) = 3 -> is_under q o = true /\ name_exists z q = false.
Proof.
  intros z o q t. unfold respond. pose proof (lookup_cases z o q t) as L.
  destruct (is_under q o) eqn:U; cbn [negb]; [|cbn; discriminate].
  destruct (inner_lookup z q _) as [a|].
  - destruct L as [adds ->].
    match goal with |- context [if ?is_ref then Ob 0 true [] _ _ else _] => destruct is_ref end; cbn; discriminate.
  - rewrite L. destruct (name_exists z q); [cbn; discriminate|auto].
Qed.
Print Assumptions C10_nxdomain_only_nonexistent.

Example C10_nxdomain_example :
  rcode_of (respond z4592 [9] [7;4;1;9] 28) = 3 /\ rcode_of (respond z4592 [9] [4;1;9] 28) = 0.
Proof. vm_compute. split; reflexivity. Qed.

(* Every negative answer carries exactly the apex SOA in the authority section and an empty
   answer section; NOERROR iff the name exists. Every well-formed zone, no guard. *)
Theorem C10_negative_carries_soa : forall z o q t,
  wfb z o = true -> is_under q o = true ->
  inner_lookup z q (if t =? 255 then replace_any z q else t) = None ->
  respond z o q t = Ob (if name_exists z q then 0 else 3) true [] (rrset_recs z o 6) [] /\
  rrset_recs z o 6 <> [].
Proof. intros z o q t W. apply negative_carries_soa. now apply wfb_wf. Qed.
Print Assumptions C10_negative_carries_soa.

Example C10_negative_example :
  is_under [4;1;9] [9] = true /\ inner_lookup z4592 [4;1;9] 1 = None /\
  respond z4592 [9] [4;1;9] 1 = Ob 0 true [] [RR [9] 6 RSoa] [].
Proof. vm_compute. repeat split. Qed.

(* The answer section never holds more than MAX_CNAME_DEPTH = 8 RRsets. *)
Theorem C10_answer_chain_bounded : forall z o q t ans adds,
  lookup z o q t = LOk ans adds -> (length ans <= 8)%nat.
Proof.
  intros z o q t ans adds H. pose proof (lookup_cases z o q t) as L. rewrite H in L.
  destruct (inner_lookup z q _) as [a|].
  - destruct L as [adds' L]. injection L as -> _. unfold chain_from. cbn [length].
    (* the RRset the lookup finds and at most 7 from the chase *)
    destruct (_ && _); [apply le_n_S, chase_length|cbn [length]; lia].
  - destruct (name_exists z q); [discriminate|]. destruct (is_under q o); discriminate.
Qed.
Print Assumptions C10_answer_chain_bounded.

Example C10_chain_bound_example :
  exists ans adds, lookup zlong [9] [1;1;9] 1 = LOk ans adds /\ length ans = 8%nat.
Proof. eexists. eexists. vm_compute. split; reflexivity. Qed.

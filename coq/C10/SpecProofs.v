(* C10 — the specification is total: its fuel (10 + number of RRsets) always suffices, because
   every continuation consumes a CNAME RRset of the zone whose target was not visited before. *)
From HV Require Import Lib.Base Lib.ListX C10.Model C10.NameProofs.
Open Scope N_scope.

Lemma filter_length_lt {A} (p p' : A -> bool) l c :
  (forall x, p' x = true -> p x = true) -> In c l -> p c = true -> p' c = false ->
  (length (filter p' l) < length (filter p l))%nat.
Proof.
  intros Himp. induction l as [|x l IH]; intros Hin Hp Hp'; [destruct Hin|].
  pose proof (filter_length_mono p p' l Himp) as M.
  cbn [filter]. destruct Hin as [->|Hin].
  - rewrite Hp, Hp'. cbn [length]. lia.
  - specialize (IH Hin Hp Hp').
    destruct (p' x) eqn:E'; [rewrite (Himp x E')|destruct (p x)]; cbn [length]; lia.
Qed.

(* CNAME RRsets whose target has not been visited *)
Definition fresh (seen : list name) (s : rrset) : bool :=
  (rs_type s =? T_CNAME) && match first_target s with Some tg => negb (mem tg seen) | None => false end.
Definition unvisited (z : zone) (seen : list name) : nat := length (filter (fresh seen) z).

Lemma unvisited_step z seen c tg : In c z -> rs_type c = T_CNAME -> first_target c = Some tg ->
  mem tg seen = false -> (unvisited z (tg :: seen) < unvisited z seen)%nat.
Proof.
  intros Hin Ht Hf Hm. unfold unvisited. apply (filter_length_lt _ _ z c); [|exact Hin| |].
  - intros x. unfold fresh. intros H. apply andb_true_iff in H. destruct H as [H1 H2].
    rewrite H1. cbn [andb]. destruct (first_target x) as [g|]; [|discriminate].
    apply negb_true_iff in H2. cbn [mem existsb] in H2. apply orb_false_iff in H2.
    destruct H2 as [_ H2]. apply negb_true_iff. exact H2.
  - unfold fresh. rewrite Ht, Hf, N.eqb_refl. cbn [andb]. now rewrite Hm.
  - unfold fresh. rewrite Hf. cbn [mem existsb]. rewrite name_eqb_refl. cbn [orb negb]. apply andb_false_r.
Qed.

Lemma resolve_total z o t : forall f cur seen acc, (unvisited z seen < f)%nat ->
  resolve f z o t cur seen acc <> SOutOfFuel.
Proof.
  induction f as [|f IH]; intros cur seen acc Hm; [lia|].
  cbn [resolve]. destruct (situation z o t cur) as [cut| | |src]; try discriminate.
  unfold rfrom. destruct (t =? T_ANY); [discriminate|].
  destruct (if t =? T_CNAME then None else find_rs z src T_CNAME) as [c|] eqn:Ec.
  - destruct (t =? T_CNAME); [discriminate|]. apply find_rs_some in Ec. destruct Ec as [Hin [_ Ht]].
    destruct (first_target c) as [tg|] eqn:Etg; [|discriminate].
    destruct (negb (is_under tg o) || mem tg seen) eqn:Es; [discriminate|].
    apply orb_false_iff in Es. destruct Es as [_ Hmem].
    apply IH. pose proof (unvisited_step z seen c tg Hin Ht Etg Hmem). lia.
  - destruct (find_rs z src t); discriminate.
Qed.

Theorem spec_total z o q t : spec_answer z o q t <> SOutOfFuel.
Proof.
  unfold spec_answer. destruct (is_under q o); [|discriminate].
  apply resolve_total. unfold unvisited. pose proof (filter_length_le (fresh [q]) z). lia.
Qed.

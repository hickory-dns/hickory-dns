(* C10 — unconditional facts about the model (no known-class guard). *)
From HV Require Import Lib.Base C10.Model C10.NameProofs C10.StepProofs C10.ChainProofs C10.RespProofs.
Open Scope N_scope.

Definition rcode_of (ob : obs) : N := let 'Ob rc _ _ _ _ := ob in rc.
Definition ans_of (ob : obs) : list rr := let 'Ob _ _ a _ _ := ob in a.
Definition auth_of (ob : obs) : list rr := let 'Ob _ _ _ a _ := ob in a.

Theorem negative_carries_soa z o q t : wf z o -> is_under q o = true ->
  inner_lookup z q (if t =? T_ANY then replace_any z q else t) = None ->
  respond z o q t = Ob (if name_exists z q then 0 else 3) true [] (rrset_recs z o T_SOA) [] /\
  rrset_recs z o T_SOA <> [].
Proof.
  intros W U H. rewrite (respond_none z o q t W U H).
  split; [reflexivity|]. unfold rrset_recs.
  pose proof (wf_soa _ _ W) as S. apply has_rs_true in S. destruct S as [s S]. rewrite S.
  apply find_rs_some in S. destruct S as [Hs _].
  destruct (rrs_of_cons o s (proj2 (wf_in _ _ W s Hs))) as (d & r & ->). discriminate.
Qed.

Lemma chase_length cap z t last seen : (length (chase cap z t last seen) <= cap)%nat.
Proof.
  revert last seen. induction cap as [|cap IH]; intros last seen; [cbn; lia|].
  cbn [chase]. destruct (first_target last) as [next|]; [|cbn; lia].
  destruct (mem next seen); [cbn; lia|].
  destruct (inner_lookup z next t) as [s|]; [|cbn; lia].
  destruct (rs_type s =? T_CNAME).
  - specialize (IH s (next :: seen)). cbn [length]. lia.
  - cbn [length]. lia.
Qed.

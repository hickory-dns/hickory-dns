(* C10 — the CNAME chase of the model against the spec's resolution: what one step looks like on
   both sides when the class walk says zero (walk_step), then lock step along the chain
   (chain_agree). *)
From HV Require Import Lib.Base C10.Model C10.NameProofs C10.StepProofs.
Open Scope N_scope.

Lemma kfin_zero n : kfin n = 0 -> (n <= 8)%nat.
Proof. unfold kfin. destruct (8 <? n)%nat eqn:E; [discriminate|]. apply Nat.ltb_ge in E. lia. Qed.

Lemma kfin_big n : (8 < n)%nat -> kfin n = K_LONG.
Proof. intros H. unfold kfin. apply Nat.ltb_lt in H. now rewrite H. Qed.

(* the answer chain once the lookup at the current name has found [sm]; [c] more RRsets fit *)
Definition chain_from (z : zone) (t : N) (c : nat) (sm : rrset) (seen : list name) : list rrset :=
  sm :: if (rs_type sm =? T_CNAME) && negb (t =? T_CNAME) then chase c z t sm seen else [].

Lemma chase_stops z o t c last seen : wf z o ->
  match first_target last with
  | Some tg => negb (is_under tg o) || mem tg seen = true
  | None => True
  end -> chase c z t last seen = [].
Proof.
  intros W H. destruct c; [reflexivity|]. cbn [chase].
  destruct (first_target last) as [tg|]; [|reflexivity].
  destruct (mem tg seen); [reflexivity|]. rewrite orb_false_r in H. apply negb_true_iff in H.
  now rewrite (inner_lookup_outside z o tg t W H).
Qed.

Definition positive (acc : list rr) (l : list rrset) : spec_res := SExp (Exp 0 (acc ++ recs l) false AFree).

Lemma situation_nocut z o t cur : cuts_on_path z o cur t = [] ->
  situation z o t cur =
  if has_data z cur then SSource cur
  else if name_exists z cur then SNoData
  else if has_data z (L_STAR :: closest_encloser z o cur) then SSource (L_STAR :: closest_encloser z o cur) else SNXDomain.
Proof. intros H. unfold situation. now rewrite H. Qed.

Lemma walk_cuts f z o t cur seen n : known_walk (S f) z o t cur seen n = K_NONE ->
  match cuts_on_path z o cur t with
  | [] => True
  | [_] => n = 0%nat /\ t <> T_NS /\ t <> T_ANY /\ (t =? T_SOA) && has_rs z o T_NS = false
  | _ => False
  end.
Proof.
  cbn [known_walk]. destruct (cuts_on_path z o cur t) as [|c [|c' r]]; [trivial| |discriminate].
  destruct n; [|discriminate].
  destruct (t =? T_NS) eqn:E2; [discriminate|]. destruct (t =? T_ANY) eqn:E255; [discriminate|]. cbn [orb].
  destruct ((t =? T_SOA) && has_rs z o T_NS); [discriminate|].
  intros _. repeat split; auto; now apply N.eqb_neq.
Qed.

Lemma spec_negative f z o t t1 q seen acc :
  t1 = (if t =? T_ANY then replace_any z q else t) -> cuts_on_path z o q t = [] ->
  carries z q t1 = false ->
  negb (name_exists z q) && has_data z (L_STAR :: closest_encloser z o q) = false ->
  resolve (S f) z o t q seen acc = SExp (Exp (if name_exists z q then 0 else 3) acc false ASoa).
Proof.
  intros -> Hc C Hw. cbn [resolve]. rewrite (situation_nocut z o t q Hc).
  destruct (has_data z q) eqn:D.
  - rewrite (has_data_exists _ _ D). unfold rfrom.
    destruct (t =? T_ANY); [rewrite carries_replace_any in C; congruence|].
    unfold carries in C. apply orb_false_iff in C. destruct C as [H1 H2].
    apply has_rs_false in H1, H2. rewrite H1, H2. destruct (t =? T_CNAME); reflexivity.
  - destruct (name_exists z q); [reflexivity|]. cbn [negb andb] in Hw. now rewrite Hw.
Qed.

(* The class walk tests with [t] and treats ANY apart; below no cut its tests are these in terms
   of [t1], the type inner_lookup gets. *)
Lemma asked_type z o t t1 cur : t1 = (if t =? T_ANY then replace_any z cur else t) ->
  cuts_on_path z o cur t = [] ->
  cuts_on_path z o cur t1 = [] /\
  has_data z cur && ((t =? T_ANY) || carries z cur t) = carries z cur t1 /\
  (carries z cur t1 = false -> (if t =? T_ANY then T_A else t) = t1).
Proof.
  intros -> Hc. destruct (t =? T_ANY) eqn:E; cbn [orb].
  - apply N.eqb_eq in E. subst t. rewrite andb_true_r, carries_replace_any. repeat split.
    + apply incl_l_nil. rewrite <- Hc. apply cuts_incl_any.
    + intros D. symmetry. now apply replace_any_nodata.
  - repeat split; auto.
    destruct (carries z cur t) eqn:C; [now rewrite (carries_has_data _ _ _ C)|apply andb_false_r].
Qed.

(* One step at [cur] when the class walk says zero: the RFC and the model are in the same
   situation.  [t1] is the type inner_lookup gets (ANY replaced), [n] the RRsets so far. *)
Inductive step0 (z : zone) (o : name) (t t1 : N) (cur : name) (seen : list name) (n fk : nat) : Prop :=
| S0_referral c ns :
    n = 0%nat -> t <> T_NS -> t <> T_ANY -> (t =? T_SOA) && has_rs z o T_NS = false ->
    inner_lookup z cur t = Some ns -> find_rs z c T_NS = Some ns ->
    (forall fr acc, resolve (S fr) z o t cur seen acc = SExp (Exp 0 acc false (AReferral c))) ->
    step0 z o t t1 cur seen n fk
| S0_source src s0 :
    scanres z src t1 = Some s0 -> inner_lookup z cur t1 = Some (rename cur s0) ->
    (has_data z cur = true -> src = cur) ->
    kfrom (known_walk fk z o t) z o t cur seen n src = K_NONE ->
    (forall fr acc, resolve (S fr) z o t cur seen acc = rfrom (resolve fr z o t) z o t cur seen acc src) ->
    step0 z o t t1 cur seen n fk
| S0_negative :
    n = 0%nat -> inner_lookup z cur t1 = None ->
    (forall fr acc, resolve (S fr) z o t cur seen acc =
                    SExp (Exp (if name_exists z cur then 0 else 3) acc false ASoa)) ->
    step0 z o t t1 cur seen n fk.

Lemma walk_step z o t t1 cur seen n fk : wf z o ->
  t1 = (if t =? T_ANY then replace_any z cur else t) ->
  known_walk (S fk) z o t cur seen n = K_NONE -> step0 z o t t1 cur seen n fk.
Proof.
  intros W Et1 K. pose proof (walk_cuts _ _ _ _ _ _ _ K) as Cu. cbn [known_walk] in K.
  destruct (cuts_on_path z o cur t) as [|c [|c' r]] eqn:Hc; [clear Cu| |destruct Cu].
  2: { (* one cut: a referral, at the first name only *)
    destruct Cu as (N0 & H2 & H255 & H6).
    destruct (inner_lookup_cut z o cur t W) as (c' & ns & Hc' & IL & F & _); [now rewrite Hc|].
    rewrite Hc in Hc'. destruct Hc' as [<-|[]].
    apply S0_referral with c ns; auto.
    intros fr acc. cbn [resolve]. unfold situation. now rewrite Hc. }
  destruct (asked_type z o t t1 cur Et1 Hc) as (Hc1 & G & Ew).
  pose proof (inner_lookup_nocut z o cur t1 W Hc1) as IL. rewrite G in K.
  (* the spec's step once its situation is known to be a source; [auto] uses it below *)
  assert (Sit : forall src, situation z o t cur = SSource src -> forall fr acc,
            resolve (S fr) z o t cur seen acc = rfrom (resolve fr z o t) z o t cur seen acc src).
  { intros src E fr acc. cbn [resolve]. now rewrite E. }
  rewrite (situation_nocut z o t cur Hc) in Sit.
  destruct (carries z cur t1) eqn:C.
  - rewrite (carries_has_data _ _ _ C) in Sit.
    rewrite scanres_carries in C. destruct (scanres z cur t1) as [s0|] eqn:Es; [|discriminate].
    pose proof (scanres_some _ _ _ _ Es) as [_ [Ns _]].
    apply S0_source with cur s0; auto. now rewrite (rename_id cur s0 Ns).
  - rewrite (Ew eq_refl) in K.
    pose proof C as Cs. rewrite scanres_carries in Cs.
    destruct (scanres z cur t1) as [s0|]; [discriminate|]. clear Cs.
    destruct (is_star cur); [|destruct (lowest_carrying z o cur t1) as [a|] eqn:El].
    2: { (* synthesis from the wildcard at the closest encloser *)
      destruct (name_exists z cur) eqn:Ex; [discriminate|]. cbn [orb] in K.
      destruct (name_eqb a (closest_encloser z o cur)) eqn:Ea; [|discriminate]. cbn [negb] in K.
      apply name_eqb_eq in Ea. subst a.
      assert (D : has_data z cur = false).
      { destruct (has_data z cur) eqn:D; [|reflexivity]. now rewrite (has_data_exists _ _ D) in Ex. }
      destruct (lowest_carrying_some _ _ _ _ _ El) as (_ & Cw & _).
      rewrite D, (carries_has_data _ _ _ Cw) in Sit.
      rewrite scanres_carries in Cw.
      destruct (scanres z (L_STAR :: closest_encloser z o cur) t1) as [s0|] eqn:Es0; [|discriminate].
      apply S0_source with (L_STAR :: closest_encloser z o cur) s0; auto. congruence. }
    (* a "*" name, or no such wildcard: no source on either side *)
    all: destruct (negb (name_exists z cur) && has_data z (L_STAR :: closest_encloser z o cur)) eqn:Hw; [discriminate|].
    all: apply S0_negative; [now destruct n|exact IL|intros fr acc; now apply (spec_negative fr z o t t1)].
Qed.

(* Lock step along the chain from a source both sides share; [fk <= fr]: the spec does not run
   dry first.  The answer is capped at MAX_CNAME_DEPTH = 8 RRsets (the lookup's, then [chase 7])
   and the RFC's walk is not, but a walk of class zero ends in [kfin] of its count: [n <= 7] is a
   conclusion of the induction, not a premise. *)
Lemma chain_agree z o t : wf z o -> t <> T_ANY ->
  forall fk fr n cur seen acc src s0, (fk <= fr)%nat -> scanres z src t = Some s0 ->
  kfrom (known_walk fk z o t) z o t cur seen n src = K_NONE ->
  (n <= 7)%nat /\ rfrom (resolve fr z o t) z o t cur seen acc src = positive acc (chain_from z t (7 - n) (rename cur s0) seen).
Proof.
  (* strong induction on the class walk's fuel: only the continuing case takes the fuel apart *)
  intros W Ht fk. induction fk as [fk IH] using lt_wf_ind. intros fr n cur seen acc src s0 Hf Hs Hk.
  unfold kfrom in Hk. unfold rfrom, positive, chain_from.
  pose proof Ht as E255. apply N.eqb_neq in E255. rewrite E255 in Hk |- *.
  rewrite recs_cons, rs_name_rename, rrs_of_rename, rs_type_rename.
  unfold scanres in Hs.
  destruct (t =? T_CNAME) eqn:E5.
  - (* QTYPE CNAME: the CNAME RRset is the data *)
    apply N.eqb_eq in E5. subst t. apply kfin_zero in Hk. split; [lia|].
    assert (F : find_rs z src T_CNAME = Some s0) by (destruct (find_rs z src T_CNAME); exact Hs).
    rewrite F, andb_false_r. cbn [recs flat_map]. now rewrite app_nil_r.
  - destruct (find_rs z src T_CNAME) as [c|] eqn:Ec.
    + inversion Hs. subst c. clear Hs.
      apply find_rs_some in Ec. destruct Ec as [_ [_ Tc]]. rewrite Tc, N.eqb_refl. cbn [andb negb].
      destruct (first_target s0) as [tg|] eqn:Etg; [destruct (negb (is_under tg o) || mem tg seen) eqn:Estop|].
      2: { (* the chain goes on at [tg]: there both sides are at a source again *)
        apply orb_false_iff in Estop. destruct Estop as [_ M].
        destruct fk as [|fk]; [discriminate|]. destruct fr as [|fr]; [lia|].
        destruct (walk_step z o t t tg (tg :: seen) (S n) fk W) as [|src' s1 Hs' IL _ Kf R|]; try discriminate;
          [now rewrite E255|exact Hk|].
        destruct (IH fk (Nat.lt_succ_diag_r fk) fr (S n) tg (tg :: seen) (acc ++ rrs_of cur s0) src' s1) as [Hn R'];
          [lia|exact Hs'|exact Kf|].
        split; [lia|]. rewrite R, R'. unfold positive, chain_from.
        replace (7 - n)%nat with (S (7 - S n)) by lia.
        cbn [chase]. rewrite first_target_rename, Etg, M, IL, rs_type_rename, E5, andb_true_r.
        rewrite <- app_assoc. now destruct (rs_type s1 =? T_CNAME). }
      (* else both sides stop *)
      all: apply kfin_zero in Hk; split; [lia|].
      all: rewrite (chase_stops z o t _ _ _ W) by now rewrite first_target_rename, Etg.
      all: cbn [recs flat_map]; now rewrite app_nil_r.
    + apply kfin_zero in Hk. split; [lia|].
      rewrite Hs. apply find_rs_some in Hs. destruct Hs as [_ [_ Ts]].
      rewrite Ts, E5. cbn [andb recs flat_map]. now rewrite app_nil_r.
Qed.

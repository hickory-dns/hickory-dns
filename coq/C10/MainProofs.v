(* C10 — the guarded refinement theorem: outside the known-deviation classes the model's reply
   is acceptable for the RFC expectation.  One lemma per positive outcome of the first step (chain,
   referral, ANY), then the theorem by [walk_step] at the query name. *)
From HV Require Import Lib.Base C10.Model C10.NameProofs C10.StepProofs C10.ChainProofs C10.RespProofs.
Open Scope N_scope.

Lemma judge_positive z o q t a : wf z o -> is_under q o = true -> t <> T_ANY ->
  inner_lookup z q t = Some a -> rs_data a <> [] -> rs_type a = T_CNAME \/ rs_type a = t ->
  judge z o (positive [] (chain_from z t 7 a [q])) (respond z o q t) = true.
Proof.
  intros W U Ht IL Hd Ty. apply N.eqb_neq in Ht.
  destruct (respond_found z o q t a W U) as [adds ->]; [now rewrite Ht|exact Hd|]. rewrite Ht.
  assert (R : (rs_type a =? T_NS) && negb (t =? T_NS) = false).
  { destruct Ty as [->| ->]; [reflexivity|apply andb_negb_r]. }
  rewrite R. cbn [andb]. unfold judge, positive. cbn [app]. rewrite N.eqb_refl, same_set_refl.
  destruct (t =? T_SOA); [now rewrite same_set_refl, orb_true_r|reflexivity].
Qed.

Lemma judge_referral z o q t c ns : wf z o -> is_under q o = true ->
  inner_lookup z q t = Some ns -> find_rs z c T_NS = Some ns ->
  t <> T_NS -> t <> T_ANY -> (t =? T_SOA) && has_rs z o T_NS = false ->
  judge z o (SExp (Exp 0 [] false (AReferral c))) (respond z o q t) = true.
Proof.
  intros W U IL F H2 H255 H6.
  pose proof (find_rs_some _ _ _ _ F) as (Hin & Nn & Tn).
  apply N.eqb_neq in H2. apply N.eqb_neq in H255.
  destruct (respond_found z o q t ns W U) as [adds ->]; [now rewrite H255|apply (wf_in _ _ W ns Hin)|].
  unfold chain_from. rewrite H255, H2, Tn, N.eqb_refl. change (T_NS =? T_CNAME) with false. cbn [andb negb].
  (* a SOA query gets the apex NS set appended: class zero says there is none *)
  assert (Nsp : (if t =? T_SOA then rrset_recs z o T_NS else []) = []).
  { destruct (t =? T_SOA); [|reflexivity]. unfold rrset_recs. apply has_rs_false in H6. now rewrite H6. }
  cbv zeta. rewrite Nsp, recs_cons, Nn, !app_nil_r. unfold judge, rrset_recs. rewrite F.
  now rewrite !same_set_refl.
Qed.

Lemma judge_any k kr z o q src s0 : wf z o -> is_under q o = true ->
  scanres z src (replace_any z q) = Some s0 ->
  inner_lookup z q (replace_any z q) = Some (rename q s0) ->
  (has_data z q = true -> src = q) ->
  kfrom k z o T_ANY q [q] 0 src = K_NONE ->
  judge z o (rfrom kr z o T_ANY q [q] [] src) (respond z o q T_ANY) = true.
Proof.
  intros W U Hs IL Hq K.
  pose proof (scanres_some _ _ _ _ Hs) as (Hin & Ns & _).
  assert (Cond : (rs_type s0 =? T_CNAME) && negb (replace_any z q =? T_CNAME) = false).
  { destruct (rs_type s0 =? T_CNAME) eqn:E5; [|reflexivity]. apply N.eqb_eq in E5.
    unfold kfrom in K. change (T_ANY =? T_ANY) with true in K. cbv iota in K.
    destruct (has_data z q) eqn:D.
    - (* a CNAME at the node itself is alone there, so it is what replace_any picks *)
      destruct (replace_any_in z q D) as (s & Hi & Nq & Tq).
      rewrite <- Tq, (wf_cname _ _ W s0 s); auto. rewrite Ns, Nq. symmetry. now apply Hq.
    - rewrite <- Ns, <- E5, (has_rs_in z s0 Hin) in K. discriminate. }
  destruct (respond_found z o q T_ANY (rename q s0) W U IL (proj2 (wf_in _ _ W _ Hin))) as [adds ->].
  (* QTYPE ANY is never a referral and never gets the apex NS set of a SOA query *)
  unfold rfrom, chain_from. change (T_ANY =? T_ANY) with true. change (T_ANY =? T_SOA) with false.
  cbn [negb]. rewrite andb_false_r, rs_type_rename, Cond, recs_one_rename.
  pose proof (judge_any_ok z o q src s0 W Hin Ns) as J. cbv zeta in J.
  unfold judge. cbn [app]. now rewrite J.
Qed.

Theorem refines_guarded z o q t : wf z o -> known_class z o q t = K_NONE ->
  judge z o (spec_answer z o q t) (respond z o q t) = true.
Proof.
  intros W K. unfold known_class in K. unfold spec_answer.
  destruct (is_under q o) eqn:U; [|unfold respond; now rewrite U].
  (* fuel: class walk 10, spec 10 + length z; only [fk <= fr] is needed *)
  change (10 + length z)%nat with (S (9 + length z)).
  destruct (walk_step z o t _ q [q] 0 9 W eq_refl K) as [c ns _ H2 H255 H6 IL F R|src s0 Hs IL Hq Kf R|_ IL R];
    rewrite R.
  - now apply (judge_referral z o q t c ns).
  - destruct (N.eq_dec t T_ANY) as [->|Ht].
    + exact (judge_any _ _ z o q src s0 W U Hs IL Hq Kf).
    + pose proof Ht as E. apply N.eqb_neq in E. rewrite E in Hs, IL.
      destruct (chain_agree z o t W Ht 9 (9 + length z) 0%nat q [q] [] src s0) as [_ ->]; [lia|exact Hs|exact Kf|].
      pose proof (scanres_some _ _ _ _ Hs) as (Hin & _ & Ty).
      apply judge_positive; auto. exact (proj2 (wf_in _ _ W _ Hin)).
  - rewrite (respond_none z o q t W U IL). unfold judge. now rewrite N.eqb_refl, !same_set_refl.
Qed.

(* C10 — basic facts: names, suffix order, zone lookups, RRsets and their records, the type
   [replace_any] picks, well-formed zones. *)
From HV Require Import Lib.Base C10.Model.
Open Scope N_scope.

Lemma name_eqb_eq a b : name_eqb a b = true <-> a = b.
Proof. apply list_eqb_eq. intros; apply N.eqb_eq. Qed.

Lemma name_eqb_refl a : name_eqb a a = true.
Proof. now apply name_eqb_eq. Qed.

Lemma name_eqb_neq a b : name_eqb a b = false <-> a <> b.
Proof.
  split.
  - intros H E. apply name_eqb_eq in E. congruence.
  - intros H. destruct (name_eqb a b) eqn:E; [apply name_eqb_eq in E; contradiction|reflexivity].
Qed.

Lemma name_eqb_sym a b : name_eqb a b = name_eqb b a.
Proof.
  destruct (name_eqb a b) eqn:E.
  - apply name_eqb_eq in E. subst. now rewrite name_eqb_refl.
  - apply name_eqb_neq in E. symmetry. apply name_eqb_neq. congruence.
Qed.

Lemma rdata_eqb_eq a b : rdata_eqb a b = true <-> a = b.
Proof.
  destruct a, b; cbn [rdata_eqb]; try (split; congruence).
  - rewrite N.eqb_eq. split; congruence.
  - rewrite name_eqb_eq. split; congruence.
Qed.

Lemma rr_eqb_eq a b : rr_eqb a b = true <-> a = b.
Proof.
  destruct a as [n t d], b as [n' t' d']. cbn [rr_eqb].
  rewrite !andb_true_iff, name_eqb_eq, N.eqb_eq, rdata_eqb_eq.
  split; [intros [[-> ->] ->]; reflexivity|intros E; inversion E; auto].
Qed.

Lemma rr_eqb_refl a : rr_eqb a a = true.
Proof. now apply rr_eqb_eq. Qed.

Lemma is_under_refl n : is_under n n = true.
Proof. destruct n; cbn [is_under]; now rewrite name_eqb_refl. Qed.

Lemma is_under_spec n anc : is_under n anc = true <-> exists p, n = p ++ anc.
Proof.
  induction n as [|l n IH]; cbn [is_under].
  - rewrite orb_false_r, name_eqb_eq. split.
    + intros <-. now exists [].
    + intros [p E]. symmetry in E. apply app_eq_nil in E. now destruct E.
  - rewrite orb_true_iff, name_eqb_eq, IH. split.
    + intros [<-|[p ->]]; [now exists []|now exists (l :: p)].
    + intros [[|x p] E]; cbn in E; [left; congruence|right; exists p; congruence].
Qed.

Lemma is_under_length n anc : is_under n anc = true -> (length anc <= length n)%nat.
Proof. intros H. apply is_under_spec in H. destruct H as [p ->]. rewrite app_length. lia. Qed.

Lemma is_under_cons l n anc : is_under n anc = true -> is_under (l :: n) anc = true.
Proof. intros H. cbn [is_under]. rewrite H. apply orb_true_r. Qed.

Lemma is_under_trans a b c : is_under a b = true -> is_under b c = true -> is_under a c = true.
Proof.
  rewrite !is_under_spec. intros [p ->] [p' ->]. exists (p ++ p'). now rewrite app_assoc.
Qed.

Lemma is_under_antisym a b : is_under a b = true -> is_under b a = true -> a = b.
Proof.
  intros H1 H2. pose proof (is_under_length _ _ H1). pose proof (is_under_length _ _ H2).
  apply is_under_spec in H1. destruct H1 as [p ->]. rewrite app_length in *.
  destruct p; [reflexivity|cbn in *; lia].
Qed.

Lemma is_under_tl l n anc : is_under (l :: n) anc = true -> (l :: n) <> anc -> is_under n anc = true.
Proof.
  cbn [is_under]. rewrite orb_true_iff, name_eqb_eq. intros [E|H] NE; [contradiction|exact H].
Qed.

Lemma is_under_nil n : is_under n [] = true.
Proof. apply is_under_spec. exists n. now rewrite app_nil_r. Qed.

Lemma not_under_shorter n anc : (length n < length anc)%nat -> is_under n anc = false.
Proof.
  intros H. destruct (is_under n anc) eqn:E; [|reflexivity].
  apply is_under_length in E. lia.
Qed.

Lemma is_under_cons_inv l n anc :
  is_under (l :: n) anc = true -> is_under n anc = false -> anc = l :: n.
Proof.
  cbn [is_under]. rewrite orb_true_iff, name_eqb_eq. intros [E|H] F; [now symmetry|congruence].
Qed.

Lemma in_suffixes a n : In a (suffixes n) <-> is_under n a = true.
Proof.
  induction n as [|l n IH]; cbn [suffixes is_under In].
  - rewrite orb_false_r, name_eqb_eq. split; [intros [E|[]]; now symmetry|intros ->; now left].
  - rewrite orb_true_iff, name_eqb_eq, IH. split; (intros [E|H]; [left; now symmetry|now right]).
Qed.

Lemma suffixes_cons l n : suffixes (l :: n) = (l :: n) :: suffixes n.
Proof. reflexivity. Qed.

Lemma suffixes_hd n : exists r, suffixes n = n :: r.
Proof. destruct n; cbn [suffixes]; eauto. Qed.

Lemma tl_suffixes_cons l n : tl (suffixes (l :: n)) = suffixes n.
Proof. reflexivity. Qed.

Lemma mem_true n l : mem n l = true <-> In n l.
Proof.
  unfold mem. rewrite existsb_exists. split.
  - intros [x [Hi E]]. apply name_eqb_eq in E. now subst.
  - intros H. exists n. split; [exact H|apply name_eqb_refl].
Qed.

Lemma find_rs_some z n t s : find_rs z n t = Some s -> In s z /\ rs_name s = n /\ rs_type s = t.
Proof.
  unfold find_rs. intros H. apply find_some in H. destruct H as [Hi H].
  apply andb_true_iff in H. destruct H as [H1 H2].
  apply name_eqb_eq in H1. apply N.eqb_eq in H2. auto.
Qed.

Lemma find_rs_none z n t s : find_rs z n t = None -> In s z -> rs_name s = n -> rs_type s <> t.
Proof.
  unfold find_rs. intros H Hi Hn Ht.
  pose proof (find_none _ _ H _ Hi) as F. cbn beta in F.
  rewrite Hn, name_eqb_refl, Ht, N.eqb_refl in F. discriminate.
Qed.

Lemma find_rs_none_intro z n t :
  (forall s, In s z -> rs_name s = n -> rs_type s <> t) -> find_rs z n t = None.
Proof.
  intros H. destruct (find_rs z n t) as [s|] eqn:E; [|reflexivity].
  apply find_rs_some in E. destruct E as (Hi & Hn & Ht). now destruct (H s Hi Hn).
Qed.

Lemma has_rs_true z n t : has_rs z n t = true <-> exists s, find_rs z n t = Some s.
Proof. unfold has_rs. destruct (find_rs z n t); split; eauto; try discriminate. intros [s H]; discriminate. Qed.

Lemma has_rs_false z n t : has_rs z n t = false <-> find_rs z n t = None.
Proof. unfold has_rs. destruct (find_rs z n t); split; congruence. Qed.

Lemma has_rs_in z s : In s z -> has_rs z (rs_name s) (rs_type s) = true.
Proof.
  intros Hi. unfold has_rs. destruct (find_rs z (rs_name s) (rs_type s)) eqn:E; [reflexivity|].
  exfalso. eapply find_rs_none; eauto.
Qed.

Lemma has_data_true z n : has_data z n = true <-> exists s, In s z /\ rs_name s = n.
Proof.
  unfold has_data. rewrite existsb_exists. split; intros [s [Hi H]]; exists s; split; auto.
  - now apply name_eqb_eq.
  - now apply name_eqb_eq.
Qed.

Lemma has_data_false z n s : has_data z n = false -> In s z -> rs_name s <> n.
Proof.
  intros H Hi E. assert (has_data z n = true) by (apply has_data_true; eauto). congruence.
Qed.

Lemma has_rs_has_data z n t : has_rs z n t = true -> has_data z n = true.
Proof.
  intros H. apply has_rs_true in H. destruct H as [s H]. apply find_rs_some in H.
  apply has_data_true. exists s. tauto.
Qed.

Lemma name_exists_true z n : name_exists z n = true <-> exists s, In s z /\ is_under (rs_name s) n = true.
Proof. unfold name_exists. now rewrite existsb_exists. Qed.

Lemma has_data_exists z n : has_data z n = true -> name_exists z n = true.
Proof.
  intros H. apply has_data_true in H. destruct H as [s [Hi <-]].
  apply name_exists_true. exists s. split; [exact Hi|apply is_under_refl].
Qed.

Lemma in_at_name z n s : In s (at_name z n) <-> In s z /\ rs_name s = n.
Proof. unfold at_name. rewrite filter_In, name_eqb_eq. tauto. Qed.

Lemma rename_id q s : rs_name s = q -> rename q s = s.
Proof. destruct s as [n t d]. cbn. now intros ->. Qed.

Lemma rrs_of_rename q s : rrs_of q (rename q s) = rrs_of q s.
Proof. destruct s; reflexivity. Qed.

Lemma first_target_rename q s : first_target (rename q s) = first_target s.
Proof. destruct s; reflexivity. Qed.

Lemma rs_type_rename q s : rs_type (rename q s) = rs_type s.
Proof. destruct s; reflexivity. Qed.

Lemma rs_name_rename q s : rs_name (rename q s) = q.
Proof. destruct s; reflexivity. Qed.

Lemma recs_cons s l : recs (s :: l) = rrs_of (rs_name s) s ++ recs l.
Proof. reflexivity. Qed.

Lemma rrs_of_cons q s : rs_data s <> [] -> exists d r, rrs_of q s = RR q (rs_type s) d :: r.
Proof. unfold rrs_of. destruct (rs_data s); [contradiction|cbn [map]; eauto]. Qed.

Lemma recs_one_rename q s : recs [rename q s] = rrs_of q s.
Proof. rewrite recs_cons, rs_name_rename, rrs_of_rename. cbn [recs flat_map]. apply app_nil_r. Qed.

Lemma replace_any_nodata z q : has_data z q = false -> replace_any z q = T_A.
Proof.
  intros H. unfold replace_any.
  assert (E : at_name z q = []).
  { apply incl_l_nil. intros s Hin. apply in_at_name in Hin.
    destruct Hin as [Hi Hn]. exfalso. eapply has_data_false; eauto. }
  now rewrite E.
Qed.

Lemma replace_any_in z q : has_data z q = true ->
  exists s, In s z /\ rs_name s = q /\ rs_type s = replace_any z q.
Proof.
  intros H. unfold replace_any.
  destruct (find any_pref (map rs_type (at_name z q))) as [t|] eqn:E.
  - apply find_some in E. destruct E as [Hi _]. apply in_map_iff in Hi.
    destruct Hi as [s [Ts Hs]]. apply in_at_name in Hs. exists s. tauto.
  - destruct (at_name z q) as [|s r] eqn:Ea.
    + apply has_data_true in H. destruct H as [s [Hi Hn]].
      assert (Hat : In s (at_name z q)) by (apply in_at_name; auto). rewrite Ea in Hat. destruct Hat.
    + assert (Hin : In s (at_name z q)) by (rewrite Ea; now left). apply in_at_name in Hin.
      exists s. cbn [map]. tauto.
Qed.

(* [wfb] as propositions (wfb_wf) *)
Record wf (z : zone) (o : name) : Prop := {
  wf_soa : has_rs z o T_SOA = true;
  wf_nostar : is_star o = false;
  wf_nodup : nodup_keys z = true;
  wf_in : forall s, In s z -> is_under (rs_name s) o = true /\ rs_data s <> [];
  wf_soa_apex : forall s, In s z -> rs_type s = T_SOA -> rs_name s = o;
  wf_cname : forall s s', In s z -> In s' z -> rs_type s = T_CNAME -> rs_name s' = rs_name s -> rs_type s' = T_CNAME;
  wf_starns : forall s, In s z -> rs_type s = T_NS -> is_star (rs_name s) = false
}.

Lemma wfb_wf z o : wfb z o = true -> wf z o.
Proof.
  unfold wfb. rewrite !andb_true_iff, !forallb_forall, negb_true_iff.
  intros [[[[[[H1 H2] H3] H4] H5] H6] H7].
  constructor; auto.
  - intros s Hi. specialize (H4 s Hi). apply andb_true_iff in H4. destruct H4 as [Ha Hb].
    split; [exact Ha|]. now destruct (rs_data s).
  - intros s Hi Ht. specialize (H5 s Hi). rewrite Ht, N.eqb_refl in H5. now apply name_eqb_eq.
  - intros s s' Hi Hi' Ht Hn. specialize (H6 s Hi). rewrite Ht, N.eqb_refl in H6. cbn [negb orb] in H6.
    rewrite forallb_forall in H6. specialize (H6 s' Hi'). rewrite Hn, name_eqb_refl in H6. now apply N.eqb_eq.
  - intros s Hi Ht. specialize (H7 s Hi). rewrite Ht, N.eqb_refl in H7. now apply negb_true_iff in H7.
Qed.

Lemma nodup_find z : nodup_keys z = true ->
  forall s, In s z -> find_rs z (rs_name s) (rs_type s) = Some s.
Proof.
  induction z as [|x z IH]; intros Hn s Hi; [destruct Hi|].
  cbn [nodup_keys] in Hn. apply andb_true_iff in Hn. destruct Hn as [Hx Hz].
  apply negb_true_iff in Hx. unfold find_rs. cbn [find].
  destruct Hi as [->|Hi].
  - now rewrite name_eqb_refl, N.eqb_refl.
  - destruct (name_eqb (rs_name x) (rs_name s) && (rs_type x =? rs_type s)) eqn:E.
    + apply andb_true_iff in E. destruct E as [E1 E2]. apply name_eqb_eq in E1. apply N.eqb_eq in E2.
      rewrite E1, E2 in Hx. rewrite (has_rs_in z s Hi) in Hx. discriminate.
    + apply IH; assumption.
Qed.

Lemma wf_find_unique z o s s' : wf z o -> In s z -> In s' z ->
  rs_name s = rs_name s' -> rs_type s = rs_type s' -> s = s'.
Proof.
  intros W Hi Hi' Hn Ht.
  pose proof (nodup_find z (wf_nodup _ _ W) s Hi) as F1.
  pose proof (nodup_find z (wf_nodup _ _ W) s' Hi') as F2.
  rewrite Hn, Ht in F1. congruence.
Qed.

Lemma wf_outside_rs z o n t : wf z o -> is_under n o = false -> find_rs z n t = None.
Proof.
  intros W H. apply find_rs_none_intro. intros s Hi Hn _.
  destruct (wf_in _ _ W s Hi) as [U _]. congruence.
Qed.

Lemma wf_soa_at z o n : wf z o -> has_rs z n T_SOA = true -> n = o.
Proof.
  intros W H. apply has_rs_true in H. destruct H as [s H]. apply find_rs_some in H.
  destruct H as (Hi & <- & Ht). exact (wf_soa_apex _ _ W s Hi Ht).
Qed.

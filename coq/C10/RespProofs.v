(* C10 — from inner_lookup to replies: [lookup] and [respond] by what inner_lookup finds
   (lookup_cases; respond_none and respond_found inside a well-formed zone), the apex NS/SOA
   lookups, and what [judge] compares: reflexive sets, the acceptance test for ANY. *)
From HV Require Import Lib.Base Lib.ListX C10.Model C10.NameProofs C10.StepProofs C10.ChainProofs.
Open Scope N_scope.

Lemma subset_refl a : subset a a = true.
Proof.
  unfold subset. apply forallb_forall. intros x Hx. apply existsb_exists. exists x. split; [exact Hx|apply rr_eqb_refl].
Qed.

Lemma same_set_refl a : same_set a a = true.
Proof. unfold same_set. now rewrite Nat.eqb_refl, subset_refl. Qed.

Lemma apex_no_cname z o : wf z o -> find_rs z o T_CNAME = None.
Proof.
  intros W. apply find_rs_none_intro. intros c Hc Nc Tc.
  pose proof (wf_soa _ _ W) as S. apply has_rs_true in S. destruct S as [s S].
  apply find_rs_some in S. destruct S as [Hs [Ns Ts]].
  assert (rs_type s = T_CNAME) by (apply (wf_cname _ _ W c s); congruence). congruence.
Qed.

(* InMemoryZoneHandler::lookup by what inner_lookup finds for the type it is asked *)
Lemma lookup_cases z o q t :
  match inner_lookup z q (if t =? T_ANY then replace_any z q else t) with
  | Some a => exists adds, lookup z o q t = LOk (chain_from z (if t =? T_ANY then replace_any z q else t) 7 a [q]) adds
  | None => lookup z o q t = if name_exists z q then LNameExists else if is_under q o then LNXDomain else LRefused
  end.
Proof.
  unfold lookup, chain_from. destruct (inner_lookup z q _) as [a|]; [|reflexivity].
  destruct ((rs_type a =? T_CNAME) && negb (_ =? T_CNAME)); eauto.
Qed.

Lemma apex_lookup z o t : wf z o -> t = T_NS \/ t = T_SOA -> answers_of (lookup z o o t) = rrset_recs z o t.
Proof.
  intros W Ht. unfold rrset_recs. pose proof (lookup_cases z o o t) as L.
  assert (E255 : (t =? T_ANY) = false) by (destruct Ht; subst; reflexivity).
  assert (E5 : (t =? T_CNAME) = false) by (destruct Ht; subst; reflexivity).
  rewrite E255, (inner_lookup_not_below z o o t W (strictly_under_refl o)) in L.
  unfold scanres in L. rewrite (apex_no_cname z o W) in L.
  destruct (find_rs z o t) as [s|] eqn:Es.
  - destruct L as [adds ->]. apply find_rs_some in Es. destruct Es as [_ [Ns Ts]].
    unfold chain_from. rewrite Ts, E5. cbn [andb answers_of]. rewrite recs_cons, Ns. apply app_nil_r.
  - now rewrite L, (has_data_exists _ _ (has_rs_has_data _ _ _ (wf_soa _ _ W))).
Qed.

(* Catalog::lookup + build_authoritative_response, by what inner_lookup finds: nothing ... *)
Lemma respond_none z o q t : wf z o -> is_under q o = true ->
  inner_lookup z q (if t =? T_ANY then replace_any z q else t) = None ->
  respond z o q t = Ob (if name_exists z q then 0 else 3) true [] (rrset_recs z o T_SOA) [].
Proof.
  intros W U H. unfold respond. pose proof (lookup_cases z o q t) as L. rewrite H in L.
  rewrite U, L, (apex_lookup z o T_SOA W (or_intror eq_refl)). cbn [negb].
  destruct (name_exists z q); [reflexivity|]. now rewrite U.
Qed.

(* ... or an RRset: it heads the chain; an NS set is taken for a referral unless NS or ANY was asked *)
Lemma respond_found z o q t a : wf z o -> is_under q o = true ->
  inner_lookup z q (if t =? T_ANY then replace_any z q else t) = Some a -> rs_data a <> [] ->
  exists adds, respond z o q t =
    let ans := recs (chain_from z (if t =? T_ANY then replace_any z q else t) 7 a [q]) in
    let nsp := if t =? T_SOA then rrset_recs z o T_NS else [] in
    if (rs_type a =? T_NS) && negb (t =? T_NS) && negb (t =? T_ANY) then Ob 0 true [] (ans ++ nsp) adds
    else Ob 0 true ans nsp adds.
Proof.
  intros W U H Hd. unfold respond. pose proof (lookup_cases z o q t) as L. rewrite H in L.
  destruct L as [adds ->]. exists (recs adds). rewrite U, (apex_lookup z o T_NS W (or_introl eq_refl)).
  unfold chain_from. rewrite recs_cons. destruct (rrs_of_cons (rs_name a) a Hd) as (d & r & ->). reflexivity.
Qed.

Lemma judge_any_ok z o q src s : wf z o -> In s z -> rs_name s = src ->
  let ans := rrs_of q s in
  let eans := flat_map (rrs_of q) (at_name z src) in
  (subset ans eans
   && forallb (fun x => existsb (rr_eqb x) ans || negb (existsb (rr_key_eqb x) ans)) eans
   && Bool.eqb (is_nil eans) (is_nil ans)) = true.
Proof.
  intros W Hs Ns ans eans.
  assert (Hat : In s (at_name z src)) by (apply in_at_name; auto).
  assert (Hsub : forall x, In x ans -> In x eans).
  { intros x Hx. unfold eans. apply in_flat_map. exists s. auto. }
  rewrite !andb_true_iff. repeat split.
  - unfold subset. apply forallb_forall. intros x Hx. apply (existsb_eqb_in rr_eqb rr_eqb_eq). auto.
  - apply forallb_forall. intros x Hx. unfold eans in Hx. apply in_flat_map in Hx.
    destruct Hx as [s' [Hs' Hx]]. apply in_at_name in Hs'. destruct Hs' as [Hz' Ns'].
    destruct (existsb (rr_key_eqb x) ans) eqn:Ek; [|now rewrite orb_true_r].
    rewrite orb_false_r. apply (existsb_eqb_in rr_eqb rr_eqb_eq).
    apply existsb_exists in Ek. destruct Ek as [y [Hy Ek]].
    unfold ans, rrs_of in Hy. apply in_map_iff in Hy. destruct Hy as [d [<- _]].
    unfold rrs_of in Hx. apply in_map_iff in Hx. destruct Hx as [d' [<- Hd']].
    cbn [rr_key_eqb] in Ek. apply andb_true_iff in Ek. destruct Ek as [_ Et]. apply N.eqb_eq in Et.
    assert (s' = s) by (apply (wf_find_unique z o s' s W); congruence). subst s'.
    unfold ans, rrs_of. now apply in_map.
  - destruct (rrs_of_cons q s (proj2 (wf_in _ _ W s Hs))) as (d & r & Er).
    assert (Ha : In (RR q (rs_type s) d) ans) by (unfold ans; rewrite Er; now left).
    pose proof (Hsub _ Ha) as He.
    destruct ans; [destruct Ha|]. destruct eans; [destruct He|]. reflexivity.
Qed.

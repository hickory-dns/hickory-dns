(* C01 — [ok_entry] on a whole run ([run_cap_post]), then the time clause.  [p_lin] is
   the linear budget that holds when no name may follow more than 127 compression pointers; the
   code as it is (no cap) violates it: [f1_witness] (finding F1), one of a family whose cost on
   the model is [f1_cost], derived piece by piece as [runs] statements (StepProofs).  The harness
   replays the witness on the real decoder (family f1-chain, blow-up in wall-clock time). *)
From HV Require Import Lib.Base Lib.ListX C01.Model C01.BaseProofs C01.MsgProofs C01.StepProofs.
Open Scope N_scope.

Definition cap127 : option N := Some 127.

Definition run_log (cp : option N) (e : entry) (b : list byte) : log := snd (run_cap cp e b).
Definition n_names (l : log) : N := N.of_nat (length (names l)).
(* 889 = 7 * 127: the 6 ticks of a hop and the hop itself *)
Definition p_lin (cp : option N) (e : entry) (b : list byte) : Prop :=
  cost (run_log cp e b) <= 165 * N.of_nat (length b) + 5298 + 889 * (n_names (run_log cp e b) + 1).

Lemma run_cap_post cp e b :
  match run_cap cp e b with (r, c', l') => post AS KM 0 (init_cap cp b) log0 r c' l' end.
Proof. unfold run_cap. apply ok_entry; [apply wf_init_cap|constructor]. Qed.

Lemma consumed_le cp e b :
  match run_cap cp e b with (_, c, _) => pos c <= N.of_nat (length b) end.
Proof.
  pose proof (run_cap_post cp e b) as P. destruct (run_cap cp e b) as [[r c] l].
  pose proof (wf_pos _ (p_wf P)) as Hpos.
  destruct (p_same P) as (_ & _ & _ & Hlim & _). cbn in Hlim. lia.
Qed.

Lemma ticks_le cp e b :
  match run_cap cp e b with (_, _, l) => ticks l <= 165 * N.of_nat (length b) + 5298 + 6 * hops l end.
Proof.
  pose proof (run_cap_post cp e b) as P. pose proof (consumed_le cp e b) as C.
  destruct (run_cap cp e b) as [[r c] l].
  pose proof (p_ticks P) as T. cbn in T.
  assert (AS * (pos c - 0) <= AS * N.of_nat (length b)) by (apply N.mul_le_mono_l; lia).
  change AS with 165 in *. change KM with 5298 in *. lia.
Qed.

Lemma hops_per_name cp e b :
  match run_cap cp e b with
  | (_, _, l) => hops l <= hcap (init_cap cp b) * (N.of_nat (length (names l)) + 1)
  end.
Proof.
  pose proof (run_cap_post cp e b) as P. destruct (run_cap cp e b) as [[r c] l].
  pose proof (p_hnames P) as T. cbn [names log0 length hops] in T.
  rewrite N.mul_add_distr_l. destruct (is_ok r); lia.
Qed.

(* For [cp = None]: 7 * 16384 per name, linear in |b|; [f1_refutes] refutes the budget 889 per name, not linearity. *)
Lemma cost_le cp e b :
  cost (run_log cp e b) <=
  165 * N.of_nat (length b) + 5298 + 7 * (hcap (init_cap cp b) * (n_names (run_log cp e b) + 1)).
Proof.
  unfold run_log, n_names. pose proof (ticks_le cp e b) as T. pose proof (hops_per_name cp e b) as Hn.
  destruct (run_cap cp e b) as [[r c] l]. cbn [snd]. unfold cost. lia.
Qed.

Lemma p_lin_capped e b : p_lin cap127 e b.
Proof.
  pose proof (cost_le cap127 e b) as H. change (hcap (init_cap cap127 b)) with 127 in H.
  unfold p_lin. lia.
Qed.

(* The witness: header (opcode 5 = UPDATE, so RDLENGTH 0 is accepted), one NULL record (root owner
   and fixed fields: octets 12..22) whose RDATA, from octet 23, is a root octet and a chain of h
   pointers, then n records whose owner is a pointer to the end of the chain. *)
Definition w16 (v : N) : list byte := [v / 256; v mod 256].
Fixpoint chain (h : nat) (i base : N) : list byte :=
  match h with
  | O => []
  | S h' => w16 (49152 + (if i =? 0 then base else base + 1 + 2 * (i - 1))) ++ chain h' (i + 1) base
  end.
Fixpoint owners (n : nat) (target : N) : list byte :=
  match n with
  | O => []
  | S n' => w16 (49152 + target) ++ [0; 1; 0; 254; 0; 0; 0; 0; 0; 0] ++ owners n' target
  end.
Definition f1_message (h n : nat) : list byte :=
  let hn := N.of_nat h in
  [18; 52; 40; 0; 0; 0; 0; 0] ++ w16 (N.of_nat n + 1) ++ [0; 0] ++
  [0; 0; 10; 0; 1; 0; 0; 0; 0] ++ w16 (1 + 2 * hn) ++
  [0] ++ chain h 0 23 ++ owners n (23 + 1 + 2 * (hn - 1)).

Definition f1_witness : list byte := f1_message 2000 400.

Lemma chain_length base : forall h i, length (chain h i base) = (2 * h)%nat.
Proof. induction h as [|h IH]; intros i; cbn [chain w16 app length]; [reflexivity|]. rewrite IH. lia. Qed.

Lemma owners_length t : forall n, length (owners n t) = (12 * n)%nat.
Proof. induction n as [|n IH]; cbn [owners w16 app length]; [reflexivity|]. rewrite IH. lia. Qed.

Lemma f1_length h n : length (f1_message h n) = (24 + 2 * h + 12 * n)%nat.
Proof. unfold f1_message. cbn [app w16 length]. rewrite app_length, chain_length, owners_length. lia. Qed.

(* Stop 0 is the root octet at [base]; stop k + 1 is chain element k, which points at stop k. *)
Definition cloc (base : N) (k : nat) : N :=
  match k with O => base | S k' => base + 1 + 2 * N.of_nat k' end.

Lemma cloc_le base k : cloc base k <= base + 2 * N.of_nat k.
Proof. destruct k; cbn [cloc]; lia. Qed.

Lemma chain_ptr base k :
  (if N.of_nat k =? 0 then base else base + 1 + 2 * (N.of_nat k - 1)) = cloc base k.
Proof.
  destruct k; [reflexivity|]. cbn [cloc].
  replace (N.of_nat (S k) =? 0) with false by (symmetry; apply N.eqb_neq; lia). f_equal. lia.
Qed.

Lemma chain_skip base rest : forall k h j, (k <= h)%nat ->
  skipn (2 * k) (chain h j base ++ rest) = chain (h - k) (j + N.of_nat k) base ++ rest.
Proof.
  induction k as [|k IH]; intros h j Hk.
  - cbn. now rewrite N.add_0_r, Nat.sub_0_r.
  - destruct h as [|h]; [lia|]. replace (2 * S k)%nat with (S (S (2 * k))) by lia.
    cbn [chain w16 app skipn]. rewrite IH by lia. f_equal. f_equal. lia.
Qed.

(* [B] and [T] stay variables: of the packet and its 16384-entry table the steps use only what the
   hypotheses say. *)
Section Witness.
  Variables (B : list byte) (T : table) (F : nat) (L : N).
  Local Notation at_ := (cur_at B T F L).
  Hypothesis Htbl : tbl_ok (at_ 0 B).

  Lemma clone_at p r loc : clone (at_ p r) loc = at_ loc (skipn (N.to_nat loc) B).
  Proof. unfold clone, cur_at. cbn [buf tbl fuel0 cap lim]. f_equal. exact (suffix_at_ok (at_ 0 B) loc Htbl). Qed.

  Section Chain.
    Variables (base : N) (h : nat) (rest : list byte).
    Hypothesis Hbuf : skipn (N.to_nat base) B = 0 :: chain h 0 base ++ rest.
    Hypothesis HL : base + 1 + 2 * N.of_nat h <= L.
    Hypothesis Hsmall : base + 1 + 2 * N.of_nat h <= 16384.

    Lemma chain_walk : forall k, (k <= h)%nat -> forall f mx nh, (k < f)%nat -> cloc base k < mx ->
      exists c', runs (rd f [] (cloc base k) (Some mx) nh) (at_ (cloc base k) (skipn (N.to_nat (cloc base k)) B))
                      [] c' (3 * (N.of_nat k + 1)) (N.of_nat k) [].
    Proof.
      induction k as [|k IH]; intros Hk f mx nh Hf Hmx; (destruct f as [|f]; [lia|]); eexists.
      - cbn [cloc]. runs_by (apply (rd_root (chain h 0 base ++ rest)); [exact Hbuf|cbn; lia|exact Hmx]).
      - pose proof (cloc_le base k) as Hc. cbn [cloc] in Hmx |- *.
        set (p := base + 1 + 2 * N.of_nat k) in *.
        assert (Hr : rem (at_ p (skipn (N.to_nat p) B)) =
                     (49152 + cloc base k) / 256 :: (49152 + cloc base k) mod 256 ::
                     chain (h - S k) (N.of_nat k + 1) base ++ rest).
        { cbn [rem cur_at]. replace (N.to_nat p) with (N.to_nat base + S (2 * k))%nat by lia.
          rewrite <- skipn_skipn_add, Hbuf. cbn [skipn]. rewrite chain_skip by lia.
          replace (h - k)%nat with (S (h - S k)) by lia. cbn [chain w16 app]. rewrite N.add_0_l, chain_ptr.
          reflexivity. }
        destruct (IH ltac:(lia) f p (nh + 1)) as [c' W]; [lia..|].
        runs_by (eapply (rd_pointer Hr); try reflexivity; try (cbn; lia); rewrite clone_at; exact W).
    Qed.
  End Chain.

  Section Owners.
    Variables (tgt wt wh : N).
    Hypothesis Htgt : tgt < 16384.
    Hypothesis walk : forall mx, tgt < mx ->
      exists c', runs (rd F [] tgt (Some mx) 1) (at_ tgt (skipn (N.to_nat tgt) B)) [] c' wt wh [].

    Lemma owner_name p r :
      tgt < p -> p + 2 <= L ->
      runs read_name (at_ p (w16 (49152 + tgt) ++ r)) [] (at_ (p + 2) r) (wt + 3) (wh + 1) [[]].
    Proof.
      intros Hp HL. destruct (walk p Hp) as [c' W]. apply runs_read_name; [|reflexivity].
      runs_by (eapply (rd_pointer (t := tgt) (r := r)); try easy; try (cbn; lia); rewrite clone_at; exact W).
    Qed.

    (* TYPE A, CLASS 254 (NONE), TTL 0, RDLENGTH 0 *)
    Lemma owner_record p m :
      tgt < p -> p + 12 <= L ->
      runs read_record (at_ p (owners (S m) tgt))
           (mkRec 1 true 254 0 [] (dump_name [] ++ d16 1 ++ d16 254 ++ d32 0 ++ [0]))
           (at_ (p + 12) (owners m tgt)) (wt + 7) (wh + 1) [[]].
    Proof.
      intros Hp HL. pose proof (owner_name p ([0; 1; 0; 254; 0; 0; 0; 0; 0; 0] ++ owners m tgt) Hp ltac:(lia)) as Hn.
      unfold read_record, cur_at in *. cbn [owners app] in *.
      run_auto.
    Qed.

    Lemma owner_records m : forall p s,
      tgt < p -> p + 12 * N.of_nat m <= L -> s_sig s = None ->
      exists s' c', runs (repeat_m m (records_step false 5) s) (at_ p (owners m tgt)) s' c'
                         (N.of_nat m * (wt + 8)) (N.of_nat m * (wh + 1)) (repeat [] m).
    Proof.
      induction m as [|m IH]; intros p s Hp HL Hs.
      - exists s, (at_ p []). apply runs_ret.
      - epose proof (IH (p + 12) (mkSec _ _ None) ltac:(lia) ltac:(lia) eq_refl) as (s' & c' & E).
        exists s', c'. cbn [repeat_m].
        runs_by (exact (runs_bind (runs_tick _) (runs_bind
                   (runs_update_record (owner_record p m Hp ltac:(lia)) Hs eq_refl) E))).
        rewrite app_nil_r. symmetry. apply repeat_cons.
    Qed.
  End Owners.

  Lemma f1_header h n :
    12 <= L ->
    runs read_header (at_ 0 (f1_message h n))
         (mkHeader 4660 40 0 0 0 (N.of_nat n + 1) 0) (at_ 12 (skipn 12 (f1_message h n))) 7 0 [].
  Proof.
    intros HL. unfold read_header, f1_message, cur_at. cbn [app w16 skipn].
    run_auto. now rewrite be_w16.
  Qed.

  Lemma root_name_at p r : p < L -> runs read_name (at_ p (0 :: r)) [] (at_ (p + 1) r) 3 0 [[]].
  Proof. intros HL. apply runs_read_name; [|reflexivity]. exact (rd_root (pm := None) (c := at_ p (0 :: r)) r eq_refl HL I). Qed.

  (* the root name, TYPE NULL (10), CLASS IN, TTL 0, RDLENGTH [rdl], RDATA [data] *)
  Lemma null_record_at p rdl data rest :
    N.of_nat (length data) = rdl -> rdl <> 0 -> p + 11 + rdl <= L ->
    exists r1,
      runs read_record (at_ p ([0; 0; 10; 0; 1; 0; 0; 0; 0] ++ w16 rdl ++ data ++ rest)) r1
           (at_ (p + 11 + rdl) rest) 9 0 [[]] /\ r_type r1 = 10.
  Proof.
    intros Hd H0 HL.
    pose proof (root_name_at p ([0; 10; 0; 1; 0; 0; 0; 0] ++ w16 rdl ++ data ++ rest) ltac:(lia)) as Hn.
    unfold read_record, cur_at in *. cbn [app w16] in *.
    eexists. split.
    - run_auto. rewrite be_w16. f_equal; [lia|]. rewrite <- Hd, Nat2N.id. now rewrite skipn_app, skipn_all, Nat.sub_diag.
    - reflexivity.
  Qed.

  (* n walks of 3 (h + 1) ticks and h + 1 hops: quadratic in the length 24 + 2 h + 12 n.  [S h]: the
     owners need a chain element to point at; it lies below 2^14, where pointers reach.  Nothing
     bounds [n]: [w16 (n + 1)] stops being two octets at 65535, which the model does not mind. *)
  Lemma f1_run h n :
    B = f1_message (S h) n -> F = length B -> L = N.of_nat (length B) -> 24 + 2 * N.of_nat (S h) <= 16384 ->
    exists d c, runs read_message (at_ 0 (f1_message (S h) n)) d c
      (17 + N.of_nat n * (3 * (N.of_nat (S h) + 1) + 8)) (N.of_nat n * (N.of_nat (S h) + 1)) (repeat [] (S n)).
  Proof.
    intros EB EF EL Hh. rewrite EB, f1_length in EF, EL.
    set (tgt := 23 + 1 + 2 * (N.of_nat (S h) - 1)).
    assert (Et : tgt = cloc 23 (S h)) by (unfold tgt, cloc; lia).
    assert (Hbuf : skipn (N.to_nat 23) B = 0 :: chain (S h) 0 23 ++ owners n tgt) by (rewrite EB; reflexivity).
    pose proof (fun mx => chain_walk _ _ _ Hbuf ltac:(lia) ltac:(lia) (S h) (le_n _) F mx 1 ltac:(lia)) as W.
    rewrite <- Et in W. cbn [cloc] in Et.
    destruct (null_record_at 12 (1 + 2 * N.of_nat (S h)) (0 :: chain (S h) 0 23) (owners n tgt))
      as (r1 & Er & Hty); [cbn [length]; rewrite chain_length; lia|lia..|].
    destruct (owner_records tgt _ _ ltac:(lia) W n (12 + 11 + (1 + 2 * N.of_nat (S h)))
                (mkSec [r_dump r1] None None) ltac:(lia) ltac:(lia) eq_refl) as (s' & c' & E).
    edestruct @runs_update_message as [d R]; [apply (f1_header (S h) n); lia| |].
    - replace (N.to_nat (N.of_nat n + 1)) with (S n) by lia. cbn [repeat_m].
      eapply runs_bind; [apply runs_tick|].
      eapply runs_bind; [apply (runs_update_record Er); [reflexivity|now rewrite Hty]|exact E].
    - exists d, c'. runs_by (exact R). rewrite app_nil_r. symmetry. apply repeat_cons.
  Qed.
End Witness.

Lemma f1_cost h n :
  24 + 2 * N.of_nat (S h) <= 16384 ->
  exists r c l, run_cap None EMessage (f1_message (S h) n) = (r, c, l) /\
    ticks l = 17 + N.of_nat n * (3 * (N.of_nat (S h) + 1) + 8) /\
    hops l = N.of_nat n * (N.of_nat (S h) + 1) /\ length (names l) = S n.
Proof.
  intros Hh. unfold run_cap, entry_m. rewrite init_cap_at.
  edestruct f1_run as (d & c & R); try reflexivity; [|exact Hh|].
  - rewrite <- init_cap_at. exact (wf_tbl _ (wf_init_cap None _)).
  - rewrite (R log0). do 3 eexists. split; [reflexivity|]. cbn. now rewrite app_nil_r, repeat_length.
Qed.

Lemma f1_over h n :
  24 + 2 * N.of_nat (S h) <= 16384 ->
  165 * (24 + 2 * N.of_nat (S h) + 12 * N.of_nat n) + 5298 + 889 * (N.of_nat n + 2)
    < 17 + N.of_nat n * (4 * N.of_nat (S h) + 12) ->
  ~ p_lin None EMessage (f1_message (S h) n).
Proof.
  intros Hh Hlt. destruct (f1_cost h n Hh) as (r & c & l & E & Ht & Hh' & Hn).
  unfold p_lin, run_log, cost, n_names. rewrite E, f1_length. cbn [snd]. rewrite Ht, Hh', Hn. lia.
Qed.

Lemma f1_refutes : N.of_nat (length f1_witness) <= 65535 /\ ~ p_lin None EMessage f1_witness.
Proof.
  split; [unfold f1_witness; rewrite f1_length; vm_compute; discriminate|].
  apply (f1_over 1999 400); vm_compute; [discriminate|reflexivity].
Qed.

Definition work (cp : option N) (e : entry) (b : list byte) : N * N * N :=
  let l := run_log cp e b in (ticks l, hops l, n_names l).

Definition known_f1 (e : entry) (b : list byte) : Prop := work None e b <> work cap127 e b.

Lemma same_work_lin e b : work None e b = work cap127 e b -> p_lin None e b.
Proof.
  intros E. pose proof (p_lin_capped e b) as P. unfold p_lin, work, cost in *. cbv zeta in E.
  injection E as E1 E2 E3. rewrite E1, E2, E3. exact P.
Qed.

(* a query for www, A IN, and one answer whose owner is a pointer to the question's name *)
Definition small_msg : list byte :=
  [0;1; 1;0; 0;1; 0;1; 0;0; 0;0;  3;119;119;119;0; 0;1; 0;1;  192;12; 0;1; 0;1; 0;0;0;60; 0;4; 1;2;3;4].

(* C01 — every RDATA decoder meets the specification [ok] at one common slope. *)
From HV Require Import Lib.Base Lib.ListX C01.Model C01.BaseProofs C01.NameProofs C01.CombProofs.
Open Scope N_scope.

Lemma ok_read_aaaa a : ok a 8 16 read_aaaa.
Proof. unfold read_aaaa. ok_auto. Qed.

Lemma nohop_read_client_subnet : nohop read_client_subnet.
Proof. unfold read_client_subnet. cbv zeta. auto 10 with nohopdb. Qed.

Lemma ok_read_client_subnet a : ok a 19 0 read_client_subnet.
Proof.
  assert (O : forall family sp acc, ((if family =? 1 then 4 else 16) <? subnet_addr_len sp) = false ->
                ok a 16 0 (read_octets (N.to_nat (subnet_addr_len sp)) acc)).
  { intros family sp acc Hw%N.ltb_ge. eapply ok_le; [apply ok_read_octets|destruct (family =? 1); lia..]. }
  unfold read_client_subnet. ok_auto.
Qed.
#[export] Hint Resolve nohop_read_client_subnet : nohopdb.
#[export] Hint Resolve ok_read_aaaa ok_read_client_subnet : okdb.

Lemma ok_edns_option a code data : ok a 19 0 (edns_option code data).
Proof. unfold edns_option. ok_auto. Qed.
#[export] Hint Resolve ok_edns_option : okdb.

Lemma ok_opt_step a rdlen sa : ok a 20 1 (opt_step rdlen sa).
Proof. destruct sa as [[|code|code len coll] acc]; cbn [opt_step]; ok_auto. Qed.
#[export] Hint Resolve ok_opt_step : okdb.

Lemma ok_read_opt a : 21 <= a -> ok a 21 0 read_opt.
Proof. intros Ha. unfold read_opt. ok_auto. Qed.

Lemma ok_read_txt a : 3 <= a -> ok a 3 0 read_txt.
Proof. intros Ha. unfold read_txt. ok_auto. Qed.

(* 9: the dearest of the value loops is the one over read_aaaa, 8 + 1 ticks a round *)
Lemma ok_svcb_value a key len : 9 <= a -> ok a 9 0 (svcb_value key len).
Proof. intros Ha. unfold svcb_value. ok_auto. Qed.
#[export] Hint Resolve ok_svcb_value : okdb.

Lemma ok_svcb_step a st : 9 <= a -> ok a 12 4 (svcb_step st).
Proof. intros Ha. unfold svcb_step. ok_auto. Qed.

Lemma ok_read_svcb a : 22 <= a -> ok a 531 3 read_svcb.
Proof.
  intros Ha. unfold read_svcb.
  assert (W : forall x, ok a 13 0 (while_m (ln <- get_len ;; ret (ln <? 4)) svcb_step x)).
  { (* the values hold loops themselves: their slope 9, plus the 13 of a round *)
    intros x. apply (ok_weaken (9 + (12 + 0 + 1)) (12 + 0 + 1) 0); [|lia..].
    apply (ok_while_m 0 9 12 4); [ok_auto|intros; apply ok_svcb_step; lia|lia]. }
  ok_auto.
Qed.
#[export] Hint Resolve ok_read_opt ok_read_txt ok_read_svcb : okdb.

(* slope: read_svcb; constant: SOA, two names and five u32, 2 * 514 + 5 = 1033, rounded up *)
Definition AR : N := 22.
Definition KR : N := 1040.
#[export] Hint Unfold AR KR : okdb.

Lemma ok_rdata_table : Forall (fun p => ok AR KR 0 (snd p)) rdata_table.
Proof.
  unfold rdata_table, AR, KR, read_a, read_name_rdata, read_caa, read_cert, read_csync, read_hinfo, read_mx,
    read_naptr, read_tlsa, read_soa, read_srv, read_sshfp, read_tsig, read_dnskey, read_cdnskey, read_ds,
    read_key, read_nsec, read_nsec3, read_nsec3_head, read_sig.
  repeat (constructor; [cbn [snd]; ok_auto|]). constructor.
Qed.

Lemma ok_read_rdata_body t : ok AR KR 0 (read_rdata_body t).
Proof.
  unfold read_rdata_body.
  destruct (find (fun p => fst p =? t) rdata_table) as [p|] eqn:E.
  - apply find_some in E. destruct E as [Hin _].
    exact (proj1 (Forall_forall _ _) ok_rdata_table p Hin).
  - unfold read_opaque. ok_auto.
Qed.

Lemma ok_read_rdata a t : AR <= a -> ok a KR 0 (read_rdata t).
Proof.
  intros Ha. apply (ok_weaken AR KR 0); [|lia..]. unfold read_rdata.
  apply ok_if_fail_l. intros _ c l Hc Hl. pose proof (ok_read_rdata_body t c l Hc Hl) as B.
  (* the "all rdata consumed" test of RData::read only turns an outcome into an error *)
  destruct (read_rdata_body t c l) as [[[d|[e| | |]] c1] l1]; try exact B;
    (destruct (dlen c1 =? 0); [exact B|exact (post_fail _ B)]).
Qed.
#[export] Hint Resolve ok_read_rdata : okdb.

(* C01 — invariants of the decoder model and the specification combinator [ok]:
   every model function maps well-formed decoders to well-formed decoders over the same
   packet, never panics / runs out of fuel, keeps all decoded names well-formed, and stays
   within a tick budget that is linear in the bytes it consumes plus the pointer hops made. *)
From Coq Require Import FMapPositive.
From HV Require Import Lib.Base Lib.ListX C01.Model C01.StepProofs.
Open Scope N_scope.

(* a name takes at most this many hops: pointer targets are < 2^14 and strictly decreasing *)
Definition hcap (c : cur) : N :=
  match cap c with Some k => N.min k 16384 | None => 16384 end.

Definition tbl_ok (c : cur) : Prop :=
  forall p s, PositiveMap.find p (tbl c) = Some s ->
              s = skipn (N.to_nat (Pos.pred_N p)) (buf c).

Record wf (c : cur) : Prop := mkWf {
  wf_pos : pos c <= lim c;
  wf_lim : lim c <= N.of_nat (length (buf c));
  wf_rem : rem c = skipn (N.to_nat (pos c)) (buf c);
  wf_tbl : tbl_ok c;
  wf_fuel : (length (buf c) < fuel0 c)%nat }.

Definition same (c c' : cur) : Prop :=
  buf c' = buf c /\ tbl c' = tbl c /\ fuel0 c' = fuel0 c /\ lim c' = lim c /\ cap c' = cap c.

Lemma same_refl c : same c c.
Proof. repeat split. Qed.
Lemma same_trans a b c : same a b -> same b c -> same a c.
Proof. intros (A1 & A2 & A3 & A4 & A5) (B1 & B2 & B3 & B4 & B5). repeat split; congruence. Qed.

Lemma hcap_same c c' : same c c' -> hcap c' = hcap c.
Proof. intros (_ & _ & _ & _ & Ecap). unfold hcap. now rewrite Ecap. Qed.

Lemma suffix_at_ok c loc : tbl_ok c -> suffix_at c loc = skipn (N.to_nat loc) (buf c).
Proof.
  intros Ht. unfold suffix_at.
  destruct (PositiveMap.find (N.succ_pos loc) (tbl c)) as [s|] eqn:E; [|reflexivity].
  rewrite (Ht _ _ E). now rewrite N.pos_pred_succ.
Qed.

Lemma mk_table_ok (b : list byte) : forall k i s t,
  s = skipn (N.to_nat i) b ->
  (forall p x, PositiveMap.find p t = Some x -> x = skipn (N.to_nat (Pos.pred_N p)) b) ->
  forall p x, PositiveMap.find p (mk_table k i s t) = Some x ->
              x = skipn (N.to_nat (Pos.pred_N p)) b.
Proof.
  induction k as [|k IH]; intros i s t Hs Ht p x; cbn [mk_table]; [apply Ht|].
  assert (Ht' : forall p x, PositiveMap.find p (PositiveMap.add (N.succ_pos i) s t) = Some x ->
                            x = skipn (N.to_nat (Pos.pred_N p)) b).
  { intros q y. destruct (Pos.eq_dec q (N.succ_pos i)) as [->|Hne].
    - rewrite PositiveMap.gss. intros [= <-]. now rewrite N.pos_pred_succ.
    - rewrite PositiveMap.gso by exact Hne. apply Ht. }
  destruct s as [|y s']; [apply Ht'|].
  apply IH; [|exact Ht'].
  replace (N.to_nat (i + 1)) with (N.to_nat i + 1)%nat by lia.
  rewrite <- skipn_skipn_add, <- Hs. reflexivity.
Qed.

Lemma no_table_ok (b : list byte) p x :
  PositiveMap.find p no_table = Some x -> x = skipn (N.to_nat (Pos.pred_N p)) b.
Proof. unfold no_table. rewrite PositiveMap.gempty. discriminate. Qed.

Lemma wf_init_cap cp b : wf (init_cap cp b).
Proof.
  constructor; cbn; try lia; try reflexivity.
  intros p s. apply mk_table_ok; [reflexivity|apply no_table_ok].
Qed.

Lemma wf_fresh bs cp : wf (mkCur bs no_table (S (length bs)) cp (N.of_nat (length bs)) 0 bs).
Proof. constructor; cbn; try lia; try reflexivity. intros p s. apply no_table_ok. Qed.

Lemma wf_advance c n : wf c -> n <= dlen c -> wf (advance c n) /\ same c (advance c n).
Proof.
  intros [Hpos Hlim Hrem Htbl Hfuel] Hn. unfold dlen in Hn. split; [|repeat split].
  constructor; cbn; try assumption; try lia.
  rewrite Hrem, skipn_skipn_add. f_equal. lia.
Qed.

Lemma wf_clone c loc : wf c -> loc <= lim c -> wf (clone c loc) /\ same c (clone c loc).
Proof.
  intros [Hpos Hlim Hrem Htbl Hfuel] Hl. split; [|repeat split]. constructor; cbn; try assumption; try lia.
  apply suffix_at_ok, Htbl.
Qed.

Lemma rem_length c : wf c -> (length (rem c) = length (buf c) - N.to_nat (pos c))%nat.
Proof. intros Hc. rewrite (wf_rem _ Hc). apply skipn_length. Qed.

Lemma firstn_rem_len c n : wf c -> n <= dlen c -> length (firstn (N.to_nat n) (rem c)) = N.to_nat n.
Proof.
  intros Hc Hn. apply firstn_length_le. rewrite (rem_length c Hc).
  pose proof (wf_lim _ Hc). pose proof (wf_pos _ Hc). unfold dlen in Hn. lia.
Qed.

Definition names_ok (l : log) : Prop := Forall wf_name (names l).

Definition is_ok {A} (r : res A) : bool := match r with Ok _ => true | _ => false end.

Record post {A} (alpha kappa delta : N) (c : cur) (l : log)
            (r : res A) (c' : cur) (l' : log) : Prop := mkPost {
  p_wf : wf c';
  p_same : same c c';
  p_pos : pos c <= pos c';
  p_names : names_ok l';
  p_total : total r;
  p_prog : is_ok r = true -> pos c + delta <= pos c';
  p_hmono : hops l <= hops l';
  p_ticks : ticks l' + 6 * hops l <= ticks l + 6 * hops l' + alpha * (pos c' - pos c) + kappa;
  p_hops : hops l' <= hops l + hcap c * (pos c' - pos c) + (if is_ok r then 0 else hcap c);
  (* hops are only made while reading names: at most hcap per name decoded, plus one name
     that failed *)
  p_hnames : hops l' + hcap c * N.of_nat (length (names l)) <=
             hops l + hcap c * N.of_nat (length (names l')) + (if is_ok r then 0 else hcap c) }.
Arguments p_wf {A alpha kappa delta c l r c' l'} _.
Arguments p_same {A alpha kappa delta c l r c' l'} _.
Arguments p_names {A alpha kappa delta c l r c' l'} _.
Arguments p_total {A alpha kappa delta c l r c' l'} _.
Arguments p_prog {A alpha kappa delta c l r c' l'} _ _.
Arguments p_ticks {A alpha kappa delta c l r c' l'} _.
Arguments p_hnames {A alpha kappa delta c l r c' l'} _.

Definition ok {A} (alpha kappa delta : N) (m : M A) : Prop :=
  forall c l, wf c -> names_ok l ->
    match m c l with (r, c', l') => post alpha kappa delta c l r c' l' end.

Lemma post_weaken {A a k d} a' k' d' {c l} {r : res A} {c' l'} :
  post a k d c l r c' l' -> a <= a' -> k <= k' -> d' <= d -> post a' k' d' c l r c' l'.
Proof.
  intros [Pwf Psame Ppos Pnames Ptot Pprog Phm Ptk Phops Phn] Ha Hk Hd. constructor; try assumption.
  - intros E. specialize (Pprog E). lia.
  - assert (a * (pos c' - pos c) <= a' * (pos c' - pos c)) by (apply N.mul_le_mono_r; exact Ha). lia.
Qed.

Lemma post_seq {A B a k1 d1 k2 d2 c l} {x : A} {c1 l1} {r : res B} {c2 l2} :
  post a k1 d1 c l (Ok x) c1 l1 -> post a k2 d2 c1 l1 r c2 l2 ->
  post a (k1 + k2) (d1 + d2) c l r c2 l2.
Proof.
  intros [Pwf Psame Ppos Pnames Ptot Pprog Phm Ptk Phops Phn] [Qwf Qsame Qpos Qnames Qtot Qprog Qhm Qtk Qhops Qhn].
  cbn in Pprog, Phops, Phn. rewrite (hcap_same _ _ Psame) in Qhops, Qhn. specialize (Pprog eq_refl).
  assert (E : pos c2 - pos c = (pos c1 - pos c) + (pos c2 - pos c1)) by lia.
  constructor; try assumption.
  - eapply same_trans; eassumption.
  - lia.
  - intros Er. specialize (Qprog Er). lia.
  - lia.
  - rewrite E, N.mul_add_distr_l. lia.
  - rewrite E, N.mul_add_distr_l. lia.
  - lia.
Qed.

Lemma post_bad {A} B {a k d} a' k' d' {c l f c' l'} :
  post (A:=A) a k d c l (Bad f) c' l' -> a <= a' -> k <= k' -> post (A:=B) a' k' d' c l (Bad f) c' l'.
Proof.
  intros [Pwf Psame Ppos Pnames Ptot Pprog Phm Ptk Phops Phn] Ha Hk.
  apply (post_weaken (a := a) (k := k) (d := d') a' k' d'); [|assumption|assumption|apply N.le_refl].
  constructor; try assumption. cbn. discriminate.
Qed.

Lemma post_fail {A a k d c l} {r : res A} {c' l'} e :
  post a k d c l r c' l' -> post (A:=A) a k d c l (Err e) c' l'.
Proof.
  intros [Pwf Psame Ppos Pnames Ptot Pprog Phm Ptk Phops Phn]. constructor; try assumption; try exact I; cbn;
    try discriminate; destruct (is_ok r); lia.
Qed.

Lemma post_step {A} a k d c l (r : res A) c' l' :
  names_ok l -> wf c' -> same c c' -> pos c <= pos c' -> total r ->
  (is_ok r = true -> pos c + d <= pos c') ->
  names l' = names l -> hops l' = hops l -> ticks l' <= ticks l + a * (pos c' - pos c) + k ->
  post a k d c l r c' l'.
Proof.
  intros Hl Hw Hs Hp Ht Hd En Eh Hk. pose proof (N.le_0_l (hcap c * (pos c' - pos c))) as Hh.
  constructor; try assumption; try lia.
  - unfold names_ok. now rewrite En.
  - rewrite En. destruct (is_ok r); lia.
Qed.

(* expects the facts of [wf_advance] in the context where the decoder moves *)
Ltac triv_post :=
  apply post_step; cbn; try assumption; try apply same_refl; try exact I; try discriminate;
  try reflexivity; try lia.

Lemma ok_weaken {A} a k d a' k' d' (m : M A) :
  ok a k d m -> a <= a' -> k <= k' -> d' <= d -> ok a' k' d' m.
Proof.
  intros Hm Ha Hk Hd c l Hc Hl. specialize (Hm c l Hc Hl).
  destruct (m c l) as [[r c'] l']. eapply post_weaken; eassumption.
Qed.

(* [ok_bind] composes at one common slope, so what costs nothing per byte is stated at every slope *)
Lemma ok_slope {A} a k d (m : M A) : ok 0 k d m -> ok a k d m.
Proof. intros Hm. apply (ok_weaken 0 k d); [exact Hm|lia..]. Qed.

Lemma ok_le {A} a k d k' d' (m : M A) : ok a k d m -> k <= k' -> d' <= d -> ok a k' d' m.
Proof. intros Hm. apply (ok_weaken a k d); [exact Hm|lia]. Qed.

Lemma ok_d0 {A} a k d (m : M A) : ok a k d m -> ok a k 0 m.
Proof. intros Hm. apply (ok_le a k d); [exact Hm|lia..]. Qed.

Lemma ok_ret {A} a (x : A) : ok a 0 0 (ret x).
Proof. apply ok_slope. intros c l Hc Hl. cbn. triv_post. Qed.

Lemma ok_fail {A} a e d : ok a 0 d (@fail A e).
Proof. apply ok_slope. intros c l Hc Hl. cbn. triv_post. Qed.

Lemma ok_bind {A B} a k1 d1 k2 d2 (m : M A) (f : A -> M B) :
  ok a k1 d1 m -> (forall x, ok a k2 d2 (f x)) -> ok a (k1 + k2) (d1 + d2) (bind m f).
Proof.
  intros Hm Hf c l Hc Hl. unfold bind. specialize (Hm c l Hc Hl).
  destruct (m c l) as [[[x|flt] c1] l1].
  - specialize (Hf x c1 l1 (p_wf Hm) (p_names Hm)).
    destruct (f x c1 l1) as [[r2 c2] l2]. exact (post_seq Hm Hf).
  - apply (post_bad B a (k1 + k2) (d1 + d2) Hm); lia.
Qed.

Lemma ok_if_max {A} a k1 d1 k2 d2 (b : bool) (m1 m2 : M A) :
  ok a k1 d1 m1 -> ok a k2 d2 m2 -> ok a (N.max k1 k2) (N.min d1 d2) (if b then m1 else m2).
Proof. intros H1 H2. destruct b; [apply (ok_weaken a k1 d1)|apply (ok_weaken a k2 d2)]; try assumption; lia. Qed.

Lemma ok_if_fail_l {A} a k d (b : bool) e (m : M A) :
  (b = false -> ok a k d m) -> ok a k d (if b then fail e else m).
Proof. intros Hm. destruct b; [|auto]. apply (ok_weaken a 0 d); [apply ok_fail|lia..]. Qed.
Lemma ok_if_fail_r {A} a k d (b : bool) e (m : M A) :
  (b = true -> ok a k d m) -> ok a k d (if b then m else fail e).
Proof. intros Hm. destruct b; [auto|]. apply (ok_weaken a 0 d); [apply ok_fail|lia..]. Qed.

Lemma ok_tick_n a n : ok a n 0 (tick_n n).
Proof. apply ok_slope. intros c l Hc Hl. cbn. triv_post. Qed.
Lemma ok_tick a : ok a 1 0 tick.
Proof. apply ok_tick_n. Qed.
Lemma ok_get_len a : ok a 0 0 get_len.
Proof. apply ok_slope. intros c l Hc Hl. cbn. triv_post. Qed.
Lemma ok_get_pos a : ok a 0 0 get_pos.
Proof. apply ok_slope. intros c l Hc Hl. cbn. triv_post. Qed.
Lemma ok_is_empty a : ok a 0 0 is_empty.
Proof. apply ok_slope. intros c l Hc Hl. cbn. triv_post. Qed.
Lemma ok_log_name n : wf_name n -> ok 0 0 0 (log_name n).
Proof.
  intros Hn c l Hc Hl. cbn. constructor; cbn; try assumption; try apply same_refl; try exact I; try lia.
  constructor; assumption.
Qed.

Lemma ok_pop a : ok a 1 1 pop.
Proof.
  apply ok_slope. intros c l Hc Hl. unfold pop, bind, tick, tick_n.
  destruct (pos c <? lim c) eqn:E; [destruct (rem c) as [|b r] eqn:Er|]; [triv_post| |triv_post].
  apply N.ltb_lt in E. replace (mkCur _ _ _ _ _ _ r) with (advance c 1) by (unfold advance; now rewrite Er).
  destruct (wf_advance c 1 Hc) as [Hw Hs]; [unfold dlen; lia|]. triv_post.
Qed.

Lemma ok_peek a : ok a 1 0 peek.
Proof.
  apply ok_slope. intros c l Hc Hl. unfold peek, bind, tick, tick_n.
  destruct (pos c <? lim c); [destruct (rem c)|]; triv_post.
Qed.

Lemma ok_read_slice a n : ok a 1 n (read_slice n).
Proof.
  apply ok_slope. intros c l Hc Hl. unfold read_slice, bind, tick, tick_n.
  destruct (n <=? dlen c) eqn:E.
  - apply N.leb_le in E. destruct (wf_advance c n Hc E) as [Hw Hs]. triv_post.
  - triv_post.
Qed.

Lemma ok_read_to_end a : ok a 1 0 read_to_end.
Proof.
  apply ok_slope. intros c l Hc Hl. unfold read_to_end, bind, tick, tick_n.
  destruct (wf_advance c (dlen c) Hc (N.le_refl _)) as [Hw Hs]. triv_post.
Qed.

Lemma ok_read_u8 a : ok a 1 1 read_u8.
Proof. apply ok_pop. Qed.

Lemma ok_read_u16 a : ok a 1 2 read_u16.
Proof. apply (ok_bind a 1 2 0 0); [apply ok_read_slice|intros; apply ok_ret]. Qed.

Lemma ok_read_u32 a : ok a 1 4 read_u32.
Proof. apply (ok_bind a 1 4 0 0); [apply ok_read_slice|intros; apply ok_ret]. Qed.

Lemma ok_read_chardata a : ok a 2 1 read_chardata.
Proof. apply (ok_bind a 1 1 1 0); [apply ok_pop|intros n; apply (ok_d0 _ _ n), ok_read_slice]. Qed.

(* Straight-line decoders are bounded by [eauto with okdb] along their syntax: [ok_bind] adds the
   constants and the progress of the steps, a test takes the worse branch, a match on a value is
   split, progress that depends on a value read earlier cannot be named in the sum and is dropped
   ([ok_d0]), a condition on the slope goes to [lia]; so do the sums, under a final [ok_le]
   ([ok_auto], CombProofs; [AR], [KR], ... are [Hint Unfold] where defined).  Constants are opaque to
   the search: a decoder with a lemma of its own is not looked into, and a bound the search cannot
   find is asserted before the call. *)
Create HintDb okdb discriminated.
#[export] Hint Constants Opaque : okdb.
#[export] Hint Resolve ok_bind ok_ret ok_fail ok_tick ok_get_len ok_get_pos ok_pop ok_peek
  ok_is_empty ok_read_slice ok_read_to_end ok_read_u8 ok_read_u16 ok_read_u32 ok_read_chardata : okdb.
#[export] Hint Resolve ok_if_fail_l ok_if_fail_r | 1 : okdb.
#[export] Hint Resolve ok_if_max | 3 : okdb.
#[export] Hint Extern 4 (ok _ _ _ (match ?x with _ => _ end)) => destruct x : okdb.
#[export] Hint Extern 8 (ok _ _ _ _) => simple eapply ok_d0 : okdb.
#[export] Hint Extern 1 (_ <= _) => autounfold with okdb; lia : okdb.

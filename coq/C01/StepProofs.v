(* C01 — single steps of the decoder model as rules of the judgement [runs] (one run at its exact cost),
   by which CostProofs follows the run on its witness ([rd_spec] covers every branch and unfolds the loop
   itself). *)
From HV Require Import Lib.Base C01.Model.
Open Scope N_scope.

Lemma bind_eq {A B} {m : M A} {f : A -> M B} {c l a c' l'} :
  m c l = (Ok a, c', l') -> bind m f c l = f a c' l'.
Proof. unfold bind. now intros ->. Qed.

(* One run of [m]: from decoder [c] it returns [a], leaves decoder [c'] and spends [t] ticks and [h] hops,
   logging the names [ns] (last first), wherever the log stands.  [ok] (BaseProofs) bounds every run;
   this is a single one at its exact cost, which a lower bound needs.  Runs compose along [bind]
   ([runs_bind]); on a decoder whose next bytes are in view a straight-line decoder is run by
   [eauto with rundb] ([run_auto]), each test it makes decided by evaluation or by [lia]; [runs_eq] then
   brings value, decoder and sums into the form stated. *)
Definition spend (t h : N) (ns : list name) (l : log) : log :=
  mkLog (ticks l + t) (hops l + h) (ns ++ names l).

Definition runs {A} (m : M A) (c : cur) (a : A) (c' : cur) (t h : N) (ns : list name) : Prop :=
  forall l, m c l = (Ok a, c', spend t h ns l).

Lemma runs_ticks {A} {m : M A} {c a c' t} :
  (forall l, m c l = (Ok a, c', mkLog (ticks l + t) (hops l) (names l))) -> runs m c a c' t 0 [].
Proof. intros H l. rewrite H. unfold spend. now rewrite N.add_0_r. Qed.

Lemma runs_ret {A} (a : A) c : runs (ret a) c a c 0 0 [].
Proof. intros [t h ns]. unfold ret, spend. cbn. now rewrite !N.add_0_r. Qed.

Lemma runs_bind {A B} {m : M A} {f : A -> M B} {c a c1 t1 h1 n1 b c2 t2 h2 n2} :
  runs m c a c1 t1 h1 n1 -> runs (f a) c1 b c2 t2 h2 n2 ->
  runs (bind m f) c b c2 (t1 + t2) (h1 + h2) (n2 ++ n1).
Proof.
  intros H1 H2 l. rewrite (bind_eq (H1 l)), H2. unfold spend. cbn. now rewrite !N.add_assoc, app_assoc.
Qed.

Lemma runs_eq {A} {m : M A} {c a c1 t h ns} a' c' t' h' ns' :
  runs m c a c1 t h ns -> a = a' -> c1 = c' -> t = t' -> h = h' -> ns = ns' -> runs m c a' c' t' h' ns'.
Proof. now intros H <- <- <- <- <-. Qed.

(* [t] derives the run; the rest says that value, decoder and sums are the ones stated *)
Tactic Notation "runs_by" tactic3(t) :=
  eapply runs_eq; [t|first [reflexivity|lia|f_equal; lia|cbn [app]; now rewrite ?app_nil_r|idtac]..].

Lemma runs_if_true {A} (b : bool) (m1 m2 : M A) c a c' t h ns :
  b = true -> runs m1 c a c' t h ns -> runs (if b then m1 else m2) c a c' t h ns.
Proof. now intros ->. Qed.
Lemma runs_if_false {A} (b : bool) (m1 m2 : M A) c a c' t h ns :
  b = false -> runs m2 c a c' t h ns -> runs (if b then m1 else m2) c a c' t h ns.
Proof. now intros ->. Qed.
(* a test on the decoder, as the pointer arm of [rd] makes one *)
Lemma runs_when {A} (b : cur -> bool) (m e : M A) c a c' t h ns :
  b c = true -> runs m c a c' t h ns -> runs (fun c l => if b c then m c l else e c l) c a c' t h ns.
Proof. intros Hb H l. now rewrite Hb. Qed.

Lemma runs_tick c : runs tick c tt c 1 0 [].
Proof. now apply runs_ticks. Qed.
Lemma runs_hop c : runs hop c tt c 0 1 [].
Proof. intros l. unfold hop, spend. now rewrite N.add_0_r. Qed.
Lemma runs_get_len c : runs get_len c (dlen c) c 0 0 [].
Proof. exact (runs_ret (dlen c) c). Qed.

Lemma runs_slice n c : n <= dlen c -> runs (read_slice n) c (firstn (N.to_nat n) (rem c)) (advance c n) 1 0 [].
Proof.
  intros H. apply runs_ticks. intros l. unfold read_slice, bind, tick, tick_n. cbn. apply N.leb_le in H. now rewrite H.
Qed.
Lemma runs_peek {c b r} : rem c = b :: r -> pos c < lim c -> runs peek c (Some b) c 1 0 [].
Proof.
  intros E H. apply runs_ticks. intros l. unfold peek, bind, tick, tick_n. cbn. apply N.ltb_lt in H. now rewrite H, E.
Qed.
Lemma runs_pop {c b r} : rem c = b :: r -> pos c < lim c -> runs pop c b (advance c 1) 1 0 [].
Proof.
  intros E H. apply runs_ticks. intros l. unfold pop, bind, tick, tick_n, advance. cbn. apply N.ltb_lt in H.
  now rewrite H, E.
Qed.
Lemma runs_u16 {c a b r} : rem c = a :: b :: r -> pos c + 2 <= lim c -> runs read_u16 c (be [a; b]) (advance c 2) 1 0 [].
Proof.
  intros E H. runs_by (eapply runs_bind; [apply (runs_slice 2); unfold dlen; lia|apply runs_ret]). now rewrite E.
Qed.

Lemma runs_pop_at B T F cp L p b r :
  p < L -> runs pop (mkCur B T F cp L p (b :: r)) b (mkCur B T F cp L (p + 1) r) 1 0 [].
Proof. exact (runs_pop (c := mkCur B T F cp L p (b :: r)) eq_refl). Qed.
Lemma runs_u16_at B T F cp L p a b r :
  p + 2 <= L -> runs read_u16 (mkCur B T F cp L p (a :: b :: r)) (be [a; b]) (mkCur B T F cp L (p + 2) r) 1 0 [].
Proof. exact (runs_u16 (c := mkCur B T F cp L p (a :: b :: r)) eq_refl). Qed.
Lemma runs_u32_at B T F cp L p a b x y r :
  p + 4 <= L ->
  runs read_u32 (mkCur B T F cp L p (a :: b :: x :: y :: r)) (be [a; b; x; y]) (mkCur B T F cp L (p + 4) r) 1 0 [].
Proof. intros H. runs_by (eapply runs_bind; [apply (runs_slice 4); unfold dlen; cbn; lia|apply runs_ret]). Qed.

(* 10 is NULL, a type without a decoder of its own: its RDATA is the rest of the record, opaque *)
Lemma runs_null_rdata B T F cp L p r n ty :
  (ty =? 10) = true -> p + n <= L ->
  runs (with_sub n (read_rdata ty)) (mkCur B T F cp L p r) (dbytes (firstn (N.to_nat n) r))
       (mkCur B T F cp L (p + n) (skipn (N.to_nat n) r)) 2 0 [].
Proof.
  intros ->%N.eqb_eq H. apply runs_ticks. intros l. unfold with_sub. rewrite (bind_eq eq_refl).
  replace (n <=? dlen _) with true by (symmetry; apply N.leb_le; unfold dlen; cbn; lia).
  unfold read_rdata. change (read_rdata_body 10) with read_opaque.
  change ((10 =? 255) || (10 =? 251) || (10 =? 252)) with false. cbv iota.
  unfold read_opaque, read_to_end, bind, tick, tick_n, ret, dlen, advance. cbn.
  replace (p + n - p) with n by lia. replace (p + n - (p + n) =? 0) with true by (symmetry; apply N.eqb_eq; lia).
  do 2 f_equal. lia.
Qed.

(* opcode 5 is UPDATE, where a record may be empty; 41, 24, 250 are OPT, SIG, TSIG *)
Lemma runs_update_record {s c r c' t h ns} :
  runs read_record c r c' t h ns -> s_sig s = None ->
  (r_type r =? 41) || (r_type r =? 24) || (r_type r =? 250) = false ->
  runs (records_step false 5 s) c (mkSec (r_dump r :: s_recs s) (s_edns s) None) c' t h ns.
Proof. intros E Hs Ht l. unfold records_step. rewrite (bind_eq (E l)), Hs, Ht. reflexivity. Qed.

(* a message of nothing but an update section (flags octet 40: opcode 5) *)
Lemma runs_update_message {c id b2 k c1 s c2 t h ns} :
  runs read_header c (mkHeader id 40 b2 0 0 k 0) c1 7 0 [] ->
  runs (repeat_m (N.to_nat k) (records_step false 5) (mkSec [] None None)) c1 s c2 t h ns ->
  exists d, runs read_message c d c2 (7 + t) h ns.
Proof.
  intros H R. unfold read_message, read_sections. eexists.
  runs_by (eapply runs_bind; [exact H|];
           eapply runs_bind; [apply runs_ret|];
           eapply runs_bind; [apply runs_ret|];
           eapply runs_bind; [exact R|];
           eapply runs_bind; apply runs_ret).
Qed.

Lemma be_w16 v : be [v / 256; v mod 256] = v.
Proof. unfold be. cbn. rewrite N.mul_comm. symmetry. apply N.div_mod. discriminate. Qed.

Create HintDb rundb discriminated.
#[export] Hint Constants Opaque : rundb.
#[export] Hint Transparent byte : rundb.
#[export] Hint Resolve runs_bind runs_ret runs_tick runs_get_len runs_pop_at runs_u16_at runs_u32_at
  runs_null_rdata : rundb.
#[export] Hint Resolve runs_if_true runs_if_false | 2 : rundb.
#[export] Hint Extern 1 (_ <= _) => rewrite ?be_w16; lia : rundb.
#[export] Hint Extern 1 (_ < _) => lia : rundb.
#[export] Hint Extern 1 (@eq bool _ _) => reflexivity : rundb.
#[export] Hint Extern 2 ((_ <? _) = false) => apply N.ltb_ge; unfold dlen; rewrite ?be_w16; cbn; lia : rundb.
#[export] Hint Extern 2 ((_ =? _) = false) => apply N.eqb_neq; rewrite ?be_w16; lia : rundb.

Ltac run_auto := runs_by (eauto 30 with rundb nocore).

(* the decoder [on_clone loc] runs its argument on; the caller's is untouched *)
Definition clone (c : cur) (loc : N) : cur :=
  mkCur (buf c) (tbl c) (fuel0 c) (cap c) (lim c) loc (suffix_at c loc).

Lemma runs_on_clone {A} {m : M A} {c loc a c' t h ns} :
  loc <= lim c -> runs m (clone c loc) a c' t h ns -> runs (on_clone loc m) c a c t h ns.
Proof.
  intros Hl H l. unfold on_clone. replace (lim c <? loc) with false by (symmetry; apply N.ltb_ge; exact Hl).
  fold (clone c loc). now rewrite H.
Qed.

(* the head of a turn of the name loop [rd]: tick, index, overlap test, peek; [K] is the rest of the turn *)
Lemma rd_head {A} {pm : option N} {c b r} (K : option byte -> M A) {x c' t h n} :
  rem c = b :: r -> pos c < lim c ->
  match pm with Some mx => pos c < mx | None => True end ->
  runs (K (Some b)) c x c' t h n ->
  runs (tick ;;; p <- get_pos ;;
        if (match pm with Some mx => mx <=? p | None => false end) then fail EOverlap else
        ob <- peek ;; K ob) c x c' (2 + t) h n.
Proof.
  intros Hr Hl Hpm H.
  runs_by (eapply runs_bind; [apply runs_tick|];
           eapply runs_bind; [apply runs_ret|];
           apply runs_if_false;
           [|eapply runs_bind; [apply (runs_peek Hr Hl)|exact H]]).
  destruct pm; [apply N.leb_gt; exact Hpm|reflexivity].
Qed.

Lemma rd_root {f acc ns pm nh c} r :
  rem c = 0 :: r -> pos c < lim c ->
  match pm with Some mx => pos c < mx | None => True end ->
  runs (rd (S f) acc ns pm nh) c (rev acc) (advance c 1) 3 0 [].
Proof.
  intros Hr Hl Hpm. cbn [rd].
  runs_by (eapply (rd_head _ Hr Hl Hpm); eapply runs_bind; [apply (runs_pop Hr Hl)|apply runs_ret]).
Qed.

(* 49152 = 0xC000: the two top bits that make the octet pair a pointer *)
Lemma ptr_hi t : 192 <= (49152 + t) / 256.
Proof. change 49152 with (192 * 256). rewrite N.div_add_l by discriminate. apply N.le_add_r. Qed.

Lemma ptr_target t : t < 16384 -> N.land (49152 + t) 16383 = t.
Proof.
  intros Ht. change 16383 with (N.ones 14). rewrite N.land_ones. change (2 ^ 14) with 16384.
  change 49152 with (3 * 16384). rewrite N.add_comm, N.mod_add by discriminate. now apply N.mod_small.
Qed.

Lemma rd_pointer {f acc ns pm nh c t r x c' t0 h0 n0} :
  rem c = (49152 + t) / 256 :: (49152 + t) mod 256 :: r -> t < 16384 -> pos c + 2 <= lim c ->
  match pm with Some mx => pos c < mx | None => True end ->
  t < ns -> cap_allows c nh = true -> t <= lim c ->
  runs (rd f acc t (Some ns) (nh + 1)) (clone c t) x c' t0 h0 n0 ->
  runs (rd (S f) acc ns pm nh) c x (advance c 2) (3 + t0) (1 + h0) n0.
Proof.
  intros Hr Ht Hl Hpm Hns Hcap Htl W. pose proof (ptr_hi t) as Hhi. cbn [rd].
  runs_by (eapply (rd_head _ Hr ltac:(lia) Hpm);
           apply runs_if_false; [apply N.eqb_neq; lia|];
           apply runs_if_true; [apply N.leb_le, Hhi|];
           eapply runs_bind; [apply (runs_u16 Hr Hl)|];
           rewrite be_w16, ptr_target by exact Ht;
           apply runs_when; [apply andb_true_iff; split; [apply N.ltb_lt, Hns|exact Hcap]|];
           eapply runs_bind; [apply runs_hop|];
           eapply runs_on_clone; [exact Htl|exact W]).
Qed.

Lemma runs_read_name {c ls c' t h} :
  runs (rd (fuel0 c) [] (pos c) None 0) c ls c' t h [] -> (255 <=? name_len ls) = false ->
  runs read_name c ls c' t h [ls].
Proof. intros W E l. unfold read_name, bind at 1. rewrite W, E. reflexivity. Qed.

(* a decoder of the code as it is (no cap), by its fields; [init_cap None] makes one *)
Definition cur_at (B : list byte) (T : table) (F : nat) (L p : N) (r : list byte) : cur :=
  mkCur B T (S F) None L p r.

Lemma init_cap_at b :
  init_cap None b = cur_at b (tbl (init_cap None b)) (length b) (N.of_nat (length b)) 0 b.
Proof. unfold init_cap at 1, cur_at. cbn [tbl init_cap]. reflexivity. Qed.

(* C01 — Name::read (read_inner): termination, no panic, bounds on the decoded name, on the
   pointer hops and on the ticks.  The measure is phi = name_start + (upper - index), where
   upper = ptr_max_idx (or the end of the buffer before the first pointer): a label advances
   the index, a pointer replaces (name_start, upper, index) by (loc, name_start, loc) with
   loc < name_start and index < upper. *)
From HV Require Import Lib.Base Lib.ListX C01.Model C01.StepProofs C01.BaseProofs.
Open Scope N_scope.

Definition upper (pmax : option N) (c : cur) : N := match pmax with Some mx => mx | None => lim c end.
Definition phi (nstart : N) (pmax : option N) (c : cur) : N := nstart + (upper pmax c - pos c).

Lemma enc_len_cons lb acc : enc_len (lb :: acc) = 1 + N.of_nat (length lb) + enc_len acc.
Proof. reflexivity. Qed.
Lemma enc_len_pos acc : 1 <= enc_len acc.
Proof. induction acc as [|x acc IH]; [cbn; lia|rewrite enc_len_cons; lia]. Qed.
Lemma enc_len_app a b : enc_len (a ++ b) + 1 = enc_len a + enc_len b.
Proof.
  induction a as [|y a IHa]; [cbn [app]; change (enc_len []) with 1; lia|].
  cbn [app]. rewrite !enc_len_cons. lia.
Qed.
Lemma enc_len_rev acc : enc_len (rev acc) = enc_len acc.
Proof.
  induction acc as [|x acc IH]; [reflexivity|]. cbn [rev].
  pose proof (enc_len_app (rev acc) [x]) as E. rewrite !enc_len_cons in *.
  change (enc_len []) with 1 in E. lia.
Qed.

Lemma land_16383 x : N.land x 16383 < 16384.
Proof.
  change 16383 with (N.ones 14). rewrite N.land_ones. apply N.mod_lt. discriminate.
Qed.

(* hops the name can still make: every target lies below the last one and below 2^14; of a cap
   of k, nh are spent *)
Definition hb (c : cur) (nstart nh : N) : N :=
  match cap c with
  | Some k => N.min (N.min nstart 16384) (k - nh)
  | None => N.min nstart 16384
  end.

Lemma hb_same c c' nstart nh : same c c' -> hb c' nstart nh = hb c nstart nh.
Proof. intros (_ & _ & _ & _ & Ecap). unfold hb. now rewrite Ecap. Qed.

Lemma hb_hcap c : hb c (pos c) 0 <= hcap c.
Proof. unfold hb, hcap. destruct (cap c); lia. Qed.

Lemma hb_hop c nstart nh loc : loc < nstart -> loc < 16384 -> cap_allows c nh = true ->
  1 + hb c loc (nh + 1) <= hb c nstart nh.
Proof.
  unfold hb, cap_allows. intros Hl H14 Hc. destruct (cap c); [apply N.ltb_lt in Hc|]; lia.
Qed.

(* The tick budget: a label of n >= 1 octets costs 4 ticks and adds n + 1 to [enc_len acc], a
   pointer costs 3, which the 6 per hop pay, the root 3, a failing leaf at most 4; [enc_len] stays
   within 255: 2 * 255 + 4 = 514. *)
Record rdpost (acc : name) (nstart nh : N) (c : cur) (l : log) (r : res name) (c' : cur) (l' : log) : Prop := mkRd {
  r_wf : wf c';
  r_same : same c c';
  r_pos : pos c <= pos c';
  r_names : names l' = names l;
  r_total : total r;
  r_ok : forall ls, r = Ok ls -> pos c + 1 <= pos c' /\ Forall wf_label ls /\ enc_len ls <= 255;
  r_hmono : hops l <= hops l';
  r_hops : hops l' <= hops l + hb c nstart nh;
  r_ticks : ticks l' + 6 * hops l + 2 * enc_len acc <= ticks l + 6 * hops l' + 514 }.

(* between two tests of the round [rd_spec] unfolds, the code only needs beta and iota *)
Ltac run := cbv beta iota; cbn [ticks hops names app].

Lemma rd_leaf acc nstart nh c l e c' l' :
  enc_len acc <= 255 -> wf c' -> same c c' -> pos c <= pos c' ->
  names l' = names l -> hops l' = hops l -> ticks l' <= ticks l + 4 ->
  rdpost acc nstart nh c l (Err e) c' l'.
Proof. intros. constructor; try assumption; try exact I; try discriminate; lia. Qed.

Ltac rd_triv := run; apply rd_leaf; cbn; try assumption; try (repeat split; fail); try reflexivity; try lia.

Lemma rd_spec : forall fuel acc nstart pmax nh c l,
  wf c -> (N.to_nat (phi nstart pmax c) < fuel)%nat ->
  nstart <= pos c -> (forall mx, pmax = Some mx -> mx <= lim c) ->
  Forall wf_label acc -> enc_len acc <= 255 ->
  match rd fuel acc nstart pmax nh c l with
  | (r, c', l') => rdpost acc nstart nh c l r c' l'
  end.
Proof.
  induction fuel as [|fuel IH]; intros acc nstart pmax nh c l Hc Hphi Hns Hmx Hacc Hlen; [lia|].
  pose proof (enc_len_pos acc) as Hpos1. pose proof (wf_pos _ Hc) as Hpl.
  cbn [rd]. unfold read_u16, read_chardata, peek, read_slice, tick, bind, tick_n, get_pos, ret, fail, bad, hop. run.
  destruct (match pmax with Some mx => mx <=? pos c | None => false end) eqn:Eov; [rd_triv|].
  destruct (pos c <? lim c) eqn:Elt; [destruct (rem c) as [|b r] eqn:Er|]; run; try rd_triv.
  pose proof (proj1 (N.ltb_lt _ _) Elt) as Hlt.
  assert (Hup : pos c < upper pmax c).
  { unfold upper. destruct pmax as [mx|]; [apply N.leb_gt in Eov|]; lia. }
  destruct (wf_advance c 1 Hc) as [Hw1 Hs1]; [unfold dlen; lia|].
  destruct (b =? 0) eqn:Eb0; run.
  { rewrite (runs_pop Er Hlt). unfold spend. rewrite N.add_0_r. run.
    constructor; cbn; try assumption; try reflexivity; try exact I; try lia.
    intros ls [= <-]. split; [lia|]. split; [apply Forall_rev; exact Hacc|]. rewrite enc_len_rev. exact Hlen. }
  destruct (192 <=? b) eqn:Eptr; run.
  { (* pointer: `clone(loc)` cannot panic since loc < name_start <= pos c <= lim c; the name
       continues there *)
    destruct (2 <=? dlen c) eqn:E2; run; [|rd_triv].
    apply N.leb_le in E2. destruct (wf_advance c 2 Hc E2) as [Hw2 Hs2].
    set (loc := N.land (be (firstn (N.to_nat 2) (rem c))) 16383).
    pose proof (land_16383 (be (firstn (N.to_nat 2) (rem c)))) as Hl14. fold loc in Hl14.
    destruct ((loc <? nstart) && cap_allows (advance c 2) nh) eqn:Econd; [|rd_triv].
    apply andb_true_iff in Econd. destruct Econd as [Eloc%N.ltb_lt Ecap].
    unfold on_clone.
    destruct (lim (advance c 2) <? loc) eqn:Elim; [apply N.ltb_lt in Elim; cbn in Elim; lia|].
    destruct (wf_clone (advance c 2) loc Hw2) as [Hwc Hsc]; [cbn; lia|].
    fold (clone (advance c 2) loc). set (cc := clone _ _) in *.
    set (l1 := mkLog (ticks l + 1 + 1 + 1) (hops l + 1) (names l)).
    assert (Hphi' : (N.to_nat (phi loc (Some nstart) cc) < fuel)%nat).
    { unfold phi, upper in *. cbn [pos cc clone]. destruct pmax as [mx|]; lia. }
    specialize (IH acc loc (Some nstart) (nh + 1) cc l1 Hwc Hphi' ltac:(cbn; lia)
                   ltac:(intros mx [= <-]; cbn; lia) Hacc Hlen).
    destruct (rd fuel acc loc (Some nstart) (nh + 1) cc l1) as [[r0 c0] l0].
    destruct IH as [Iwf Isame Ipos Inames Itot Iok Ihm Ihops Itk]. cbn [ticks hops names l1] in *.
    rewrite (hb_same c cc) in Ihops by (eapply same_trans; eassumption).
    pose proof (hb_hop c nstart nh loc Eloc Hl14 Ecap).
    constructor; cbn; try assumption; try lia.
    intros ls E. destruct (Iok ls E) as (_ & F1 & F2). split; [lia|]. split; assumption. }
  destruct (b <? 64) eqn:E64; run; [|rd_triv].
  rewrite (runs_pop Er Hlt). unfold spend. rewrite N.add_0_r. run. set (c1 := advance c 1) in *.
  destruct (b <=? dlen c1) eqn:Eb; run; [|rd_triv].
  apply N.leb_le in Eb. destruct (wf_advance c1 b Hw1 Eb) as [Hw2 Hs2].
  pose proof (firstn_rem_len c1 b Hw1 Eb) as Hlb. set (lb := firstn (N.to_nat b) (rem c1)) in *.
  destruct (63 <? N.of_nat (length lb)) eqn:E63; run; [rd_triv|].
  destruct (255 <? enc_len acc + N.of_nat (length lb) + 1) eqn:E255; run; [rd_triv|].
  apply N.ltb_ge in E63. apply N.ltb_ge in E255. apply N.eqb_neq in Eb0.
  set (l1 := mkLog (ticks l + 1 + 1 + 1 + 1) (hops l) (names l)).
  assert (Hphi' : (N.to_nat (phi nstart pmax (advance c1 b)) < fuel)%nat).
  { unfold phi, upper in *. cbn [pos advance c1 lim]. destruct pmax as [mx|]; lia. }
  assert (Hacc' : Forall wf_label (lb :: acc)) by (constructor; [unfold wf_label; lia|exact Hacc]).
  specialize (IH (lb :: acc) nstart pmax nh (advance c1 b) l1 Hw2 Hphi' ltac:(cbn; lia) Hmx Hacc'
                 ltac:(rewrite enc_len_cons; lia)).
  destruct (rd fuel (lb :: acc) nstart pmax nh (advance c1 b) l1) as [[r0 c0] l0].
  destruct IH as [Iwf Isame Ipos Inames Itot Iok Ihm Ihops Itk]. cbn [ticks hops names l1 pos advance c1] in *.
  rewrite enc_len_cons in Itk. rewrite (hb_same c (advance c1 b)) in Ihops by (eapply same_trans; eassumption).
  constructor; cbn; try assumption; try lia.
  intros ls E. destruct (Iok ls E) as (P & F1 & F2). cbn [pos advance c1] in P. split; [lia|split; assumption].
Qed.

Lemma ok_read_name a : ok a 514 1 read_name.
Proof.
  apply ok_slope. intros c l Hc Hl. unfold read_name. unfold bind at 1.
  pose proof (rd_spec (fuel0 c) [] (pos c) None 0 c l Hc) as R.
  assert (Hphi : (N.to_nat (phi (pos c) None c) < fuel0 c)%nat).
  { unfold phi, upper. pose proof (wf_fuel _ Hc). pose proof (wf_lim _ Hc). pose proof (wf_pos _ Hc). lia. }
  specialize (R Hphi (N.le_refl _) ltac:(discriminate) (Forall_nil _) ltac:(cbn; lia)).
  destruct (rd (fuel0 c) [] (pos c) None 0 c l) as [[r c1] l1].
  destruct R as [Rwf Rsame Rpos Rnames Rtot Rok Rhm Rhops Rtk]. change (enc_len []) with 1 in Rtk.
  assert (Hl1 : names_ok l1) by (unfold names_ok; rewrite Rnames; exact Hl).
  pose proof (hb_hcap c) as Hh. pose proof (N.le_0_l (hcap c * (pos c1 - pos c))) as Hnn.
  assert (F : forall f, total (@Bad name f) -> post 0 514 1 c l (@Bad name f) c1 l1).
  { intros f Hf. constructor; cbn; try assumption; try discriminate; rewrite ?Rnames; lia. }
  destruct r as [ls|flt]; [|exact (F flt Rtot)].
  destruct (Rok ls eq_refl) as (P & F1 & F2).
  destruct (255 <=? name_len ls); cbn; [apply F; exact I|].
  constructor; cbn -[N.of_nat]; try assumption; try exact I; try lia.
  - constructor; [split; assumption|exact Hl1].
  - assert (hcap c * 1 <= hcap c * (pos c1 - pos c)) by (apply N.mul_le_mono_l; lia). lia.
  - rewrite Rnames, Nat2N.inj_succ. lia.
Qed.
#[export] Hint Resolve ok_read_name : okdb.

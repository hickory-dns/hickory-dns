From HV Require Import Lib.Base Lib.ListX C01.Model C01.BaseProofs C01.NameProofs C01.CombProofs C01.RDataProofs.
Open Scope N_scope.

(* Record::read: owner name, 10 bytes of fixed fields, RDATA: 514 + 4 + (KR + 1) ticks, rounded up *)
Definition KREC : N := 1565.
#[export] Hint Unfold KREC : okdb.

Lemma ok_read_record a : AR <= a -> ok a KREC 11 read_record.
Proof. intros Ha. unfold read_record. ok_auto. Qed.
#[export] Hint Resolve ok_read_record : okdb.

Lemma ok_records_step a add op s : AR <= a -> ok a KREC 11 (records_step add op s).
Proof. intros Ha. unfold records_step. ok_auto. Qed.

(* section loops: slope = per-record constant (a record is at least 11 bytes, KREC + 1 <= 143 * 11) *)
Definition AS : N := AR + 143.

Lemma ok_read_records count add op : ok AS (KREC + 1) 0 (read_records count add op).
Proof.
  unfold read_records, AS.
  apply (ok_repeat_q AR KREC 11 143); [intros; apply ok_records_step, N.le_refl|unfold KREC; lia].
Qed.

Lemma ok_read_query a : ok a 516 5 read_query.
Proof. unfold read_query. ok_auto. Qed.

Lemma ok_read_header a : ok a 7 12 read_header.
Proof. unfold read_header. ok_auto. Qed.
#[export] Hint Resolve ok_read_records ok_read_query ok_read_header : okdb.

Lemma ok_read_sections h q : ok AS (3 * (KREC + 1)) 0 (read_sections h q).
Proof. unfold read_sections. ok_auto. Qed.
#[export] Hint Resolve ok_read_sections : okdb.

(* header 7, question loop 517: 524, rounded up *)
Definition KM : N := 3 * (KREC + 1) + 600.
#[export] Hint Unfold AS KM : okdb.

Lemma ok_read_message : ok AS KM 12 read_message.
Proof.
  assert (Q : forall n x, ok AS 517 0 (repeat_m n (fun acc => q <- read_query ;; ret (q :: acc)) x)).
  { intros n x. apply (ok_weaken (0 + 104) (516 + 1) 0); [|unfold AS, AR; lia|lia..].
    (* a question is at least 5 bytes: 104 ticks per byte pay for its constant *)
    apply (ok_repeat_q 0 516 5 104); [intros; ok_auto|lia]. }
  unfold read_message. ok_auto.
Qed.

Lemma ok_slice_from a start : ok a 0 0 (slice_from start).
Proof. apply ok_slope. intros c l Hc Hl. unfold slice_from. destruct (pos c <? start); triv_post. Qed.
#[export] Hint Resolve ok_slice_from : okdb.

Lemma ok_read_request : ok AS KM 17 read_request.
Proof. unfold read_request. ok_auto. Qed.
#[export] Hint Resolve ok_read_message ok_read_request : okdb.

Lemma ok_entry e : ok AS KM 0 (entry_m e).
Proof. destruct e; cbn [entry_m]; ok_auto. Qed.

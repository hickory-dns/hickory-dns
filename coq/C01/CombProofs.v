From HV Require Import Lib.Base Lib.ListX C01.Model C01.StepProofs C01.BaseProofs.
Open Scope N_scope.

(* the d bytes a successful step consumed pay, at q more ticks each, for its constant *)
Lemma post_absorb {A a k d} q {c l} {x : A} {c' l'} :
  post a k d c l (Ok x) c' l' -> k <= q * d -> post (a + q) 0 d c l (Ok x) c' l'.
Proof.
  intros [Pwf Psame Ppos Pnames Ptot Pprog Phm Ptk Phops Phn] Hq. specialize (Pprog eq_refl).
  constructor; try assumption.
  - intros _. exact Pprog.
  - rewrite N.mul_add_distr_r.
    assert (q * d <= q * (pos c' - pos c)) by (apply N.mul_le_mono_l; lia). lia.
Qed.

Lemma ok_bind_abs {A B} a k1 d1 q k2 d2 (m : M A) (f : A -> M B) :
  ok a k1 d1 m -> k1 <= q * d1 -> k1 <= k2 ->
  (forall x, ok (a + q) k2 d2 (f x)) -> ok (a + q) k2 (d1 + d2) (bind m f).
Proof.
  intros Hm Hq Hk Hf c l Hc Hl. unfold bind. specialize (Hm c l Hc Hl).
  destruct (m c l) as [[[x|flt] c1] l1].
  - apply (post_absorb q) in Hm; [|exact Hq].
    specialize (Hf x c1 l1 (p_wf Hm) (p_names Hm)).
    destruct (f x c1 l1) as [[r2 c2] l2]. exact (post_seq Hm Hf).
  - (* a failing first step consumed nothing to pay with: k1 <= k2 covers it *)
    apply (post_bad B (a + q) k2 (d1 + d2) Hm); lia.
Qed.

Lemma bind_assoc {A B C} (m : M A) (f : A -> M B) (g : B -> M C) c l :
  bind (bind m f) g c l = bind m (fun x => bind (f x) g) c l.
Proof. unfold bind. destruct (m c l) as [[[x|flt] c1] l1]; reflexivity. Qed.

Lemma ok_ext {A a k d} {m m' : M A} : (forall c l, m c l = m' c l) -> ok a k d m -> ok a k d m'.
Proof. intros E Hm c l Hc Hl. rewrite <- E. exact (Hm c l Hc Hl). Qed.

Lemma ok_repeat_q {A} a k d q (body : A -> M A) :
  (forall x, ok a k d (body x)) -> k + 1 <= q * d ->
  forall count x, ok (a + q) (k + 1) 0 (repeat_m count body x).
Proof.
  intros Hb Hq. induction count as [|n IH]; intros x; cbn [repeat_m].
  - apply (ok_weaken (a + q) 0 0); [apply ok_ret|lia..].
  - apply (ok_ext (bind_assoc _ _ _)), ok_d0 with (d := d + 0).
    apply (ok_bind_abs a (k + 1) d q); [|exact Hq|lia|exact IH].
    apply (ok_weaken a (1 + k) (0 + d)); [|lia..].
    apply ok_bind; [apply ok_tick|intros _; apply Hb].
Qed.

Lemma ok_repeat {A} a k d (body : A -> M A) :
  (forall x, ok a k d (body x)) -> 1 <= d ->
  forall count x, ok (a + (k + 1)) (k + 1) 0 (repeat_m count body x).
Proof. intros Hb Hd. apply (ok_repeat_q a k d); [exact Hb|nia]. Qed.

Lemma ok_while_ {A} ks a k d (stop : M bool) (body : A -> M A) :
  ok 0 ks 0 stop -> (forall x, ok a k d (body x)) -> 1 <= d ->
  forall fuel x c l, wf c -> names_ok l -> (N.to_nat (dlen c) < fuel)%nat ->
  match while_ fuel stop body x c l with
  | (r, c', l') => post (a + (k + ks + 1)) (k + ks + 1) 0 c l r c' l'
  end.
Proof.
  intros Hs Hb Hd. induction fuel as [|fuel IH]; intros x c l Hc Hl Hf; [lia|].
  cbn [while_]. rewrite <- bind_assoc. unfold bind at 1.
  assert (St : ok a (1 + ks) (0 + 0) (tick ;;; stop))
    by (apply ok_bind; [apply ok_tick|intros _; apply ok_slope, Hs]).
  specialize (St c l Hc Hl). destruct ((tick ;;; stop) c l) as [[[e|flt] cs] ls].
  2:{ apply (post_bad A _ _ 0 St); lia. }
  pose proof (p_wf St) as Hcs. pose proof (p_names St) as Hls.
  destruct e.
  - pose proof (post_seq St (ok_ret a x cs ls Hcs Hls)) as P. apply (post_weaken _ _ _ P); lia.
  - unfold bind at 1. pose proof (Hb x cs ls Hcs Hls) as B.
    destruct (body x cs ls) as [[[x'|flt] c1] l1]; pose proof (post_seq St B) as P.
    2:{ apply (post_bad A _ _ 0 P); lia. }
    apply (post_absorb (k + ks + 1)) in P; [|nia].
    pose proof (p_prog P eq_refl) as Hp. pose proof (wf_pos _ (p_wf P)) as Hp1.
    destruct (p_same P) as (_ & _ & _ & Hlim & _).
    assert (Hf1 : (N.to_nat (dlen c1) < fuel)%nat) by (unfold dlen in *; lia).
    specialize (IH x' c1 l1 (p_wf P) (p_names P) Hf1).
    destruct (while_ fuel stop body x' c1 l1) as [[r2 c2] l2].
    apply (post_weaken _ _ _ (post_seq P IH)); lia.
Qed.

Lemma ok_while_m {A} ks a k d (stop : M bool) (body : A -> M A) x :
  ok 0 ks 0 stop -> (forall x, ok a k d (body x)) -> 1 <= d ->
  ok (a + (k + ks + 1)) (k + ks + 1) 0 (while_m stop body x).
Proof.
  intros Hs Hb Hd c l Hc Hl. unfold while_m. apply (ok_while_ ks a k d stop body Hs Hb Hd); try assumption. lia.
Qed.

Lemma ok_while0 {A} a k d (body : A -> M A) x :
  (forall y, ok 0 k d (body y)) -> 1 <= d -> k + 1 <= a -> ok a (k + 1) 0 (while_nonempty body x).
Proof.
  intros Hb Hd Ha. unfold while_nonempty. apply (ok_weaken (0 + (k + 0 + 1)) (k + 0 + 1) 0); [|lia..].
  apply (ok_while_m 0 0 k d); [apply ok_is_empty|exact Hb|exact Hd].
Qed.

(* what [on_bytes] asks of the decoder it runs: the bytes that one consumes are not the caller's *)
Definition nohop {A} (m : M A) : Prop := forall c l, hops (snd (m c l)) = hops l.

Lemma nohop_ret {A} (a : A) : nohop (ret a). Proof. intros c l; reflexivity. Qed.
Lemma nohop_bad {A} f : nohop (@bad A f). Proof. intros c l; reflexivity. Qed.
Lemma nohop_fail {A} e : nohop (@fail A e). Proof. intros c l; reflexivity. Qed.
Lemma nohop_bind {A B} (m : M A) (f : A -> M B) : nohop m -> (forall x, nohop (f x)) -> nohop (bind m f).
Proof.
  intros Hm Hf c l. unfold bind. specialize (Hm c l). destruct (m c l) as [[r c1] l1]. cbn in Hm.
  destruct r as [x|flt]; [|exact Hm]. rewrite Hf. exact Hm.
Qed.
Lemma nohop_tick_n n : nohop (tick_n n). Proof. intros c l; reflexivity. Qed.
Lemma nohop_tick : nohop tick. Proof. intros c l; reflexivity. Qed.
Lemma nohop_get_len : nohop get_len. Proof. intros c l; reflexivity. Qed.
Lemma nohop_get_pos : nohop get_pos. Proof. intros c l; reflexivity. Qed.
Lemma nohop_is_empty : nohop is_empty. Proof. intros c l; reflexivity. Qed.
Lemma nohop_pop : nohop pop.
Proof. intros c l. unfold pop, bind, tick, tick_n. destruct (pos c <? lim c); [destruct (rem c)|]; reflexivity. Qed.
Lemma nohop_read_u8 : nohop read_u8.
Proof. exact nohop_pop. Qed.
Lemma nohop_read_slice n : nohop (read_slice n).
Proof. intros c l. unfold read_slice, bind, tick, tick_n. destruct (n <=? dlen c); reflexivity. Qed.
Lemma nohop_read_to_end : nohop read_to_end.
Proof. intros c l. reflexivity. Qed.
Lemma nohop_if {A} (b : bool) (m1 m2 : M A) : nohop m1 -> nohop m2 -> nohop (if b then m1 else m2).
Proof. destruct b; auto. Qed.

Create HintDb nohopdb discriminated.
#[export] Hint Constants Opaque : nohopdb.
#[export] Hint Resolve nohop_ret nohop_bad nohop_fail nohop_bind nohop_tick_n nohop_tick nohop_get_len nohop_get_pos
  nohop_is_empty nohop_pop nohop_read_u8 nohop_read_slice nohop_read_to_end nohop_if : nohopdb.

Lemma nohop_read_u16 : nohop read_u16.
Proof. unfold read_u16. auto with nohopdb. Qed.
Lemma nohop_read_chardata : nohop read_chardata.
Proof. unfold read_chardata. auto with nohopdb. Qed.
Lemma nohop_read_octets k : forall acc, nohop (read_octets k acc).
Proof. induction k as [|k IH]; intros acc; cbn [read_octets]; auto with nohopdb. Qed.
#[export] Hint Resolve nohop_read_u16 nohop_read_chardata nohop_read_octets : nohopdb.

Lemma ok_on_bytes {A} a k d bs (m : M A) : ok 0 k d m -> nohop m -> ok a k 0 (on_bytes bs m).
Proof.
  intros Hm Hn. apply ok_slope. intros c l Hc Hl. unfold on_bytes.
  set (cs := mkCur bs no_table (S (length bs)) (cap c) (N.of_nat (length bs)) 0 bs).
  specialize (Hm cs l (wf_fresh bs (cap c)) Hl). specialize (Hn cs l).
  destruct (m cs l) as [[r c1] l1]. cbn [snd] in Hn.
  destruct Hm as [Pwf Psame Ppos Pnames Ptot Pprog Phm Ptk Phops Phn].
  constructor; try assumption; try apply same_refl; try lia.
Qed.

Definition ticked (l : log) : log := mkLog (ticks l + 1) (hops l) (names l).

(* [m] ran on a decoder [cs] of its own with n bytes left while [c] moves by n: these n bytes pay
   for what [m] is charged per byte *)
Lemma post_window {A a k d c l cs} {r : res A} {c1 l1 c' n} :
  post a k d cs (ticked l) r c1 l1 ->
  hcap cs = hcap c -> lim cs = pos cs + n -> wf c' -> same c c' -> pos c' = pos c + n ->
  post a (k + 1) n c l r c' l1.
Proof.
  intros [Pwf Psame Ppos Pnames Ptot Pprog Phm Ptk Phops Phn] Hh Hn Hw Hs Hp. rewrite Hh in *.
  cbn [ticks hops names ticked] in *.
  assert (Hm : pos c1 - pos cs <= n) by (pose proof (wf_pos _ Pwf); destruct Psame as (_ & _ & _ & Hl & _); lia).
  assert (a * (pos c1 - pos cs) <= a * n) by (apply N.mul_le_mono_l; exact Hm).
  assert (hcap c * (pos c1 - pos cs) <= hcap c * n) by (apply N.mul_le_mono_l; exact Hm).
  replace (pos c' - pos c) with n by lia. constructor; try assumption; lia.
Qed.

Lemma ok_sub_bytes {A} a k d n (m : M A) : ok a k d m -> ok a (k + 1) n (sub_bytes n m).
Proof.
  intros Hm c l Hc Hl. unfold sub_bytes, bind, read_slice, bind, tick, tick_n, on_bytes.
  destruct (n <=? dlen c) eqn:E; [|triv_post].
  apply N.leb_le in E. destruct (wf_advance c n Hc E) as [Hw Hs].
  pose proof (firstn_rem_len c n Hc E) as Hlen. set (data := firstn (N.to_nat n) (rem c)) in *.
  specialize (Hm _ (ticked l) (wf_fresh data (cap c)) Hl).
  destruct (m _ _) as [[r c1] l1]. apply (post_window Hm); try assumption; try reflexivity.
  cbn [lim pos]. lia.
Qed.

Lemma ok_with_sub {A} a k d n (m : M A) : ok a k d m -> ok a (k + 1) n (with_sub n m).
Proof.
  intros Hm c l Hc Hl. unfold with_sub, bind, tick, tick_n.
  destruct (n <=? dlen c) eqn:E; [|triv_post].
  apply N.leb_le in E. destruct (wf_advance c n Hc E) as [Hw Hs].
  set (cs := mkCur (buf c) (tbl c) (fuel0 c) (cap c) (pos c + n) (pos c) (rem c)).
  assert (Hcs : wf cs).
  { destruct Hc as [Hpos Hlim Hrem Htbl Hfuel]. unfold dlen in E. constructor; cbn; try assumption; lia. }
  specialize (Hm cs (ticked l) Hcs Hl).
  destruct (m cs _) as [[r c1] l1]. apply (post_window Hm); try assumption; reflexivity.
Qed.

Lemma ok_read_octets a k : forall acc, ok a (N.of_nat k) (N.of_nat k) (read_octets k acc).
Proof.
  induction k as [|k IH]; intros acc; cbn [read_octets]; [apply ok_ret|].
  rewrite Nat2N.inj_succ, <- N.add_1_l. apply ok_bind; [apply ok_pop|intros; apply IH].
Qed.

Lemma ok_read_tag a k : 1 <= a -> forall acc, ok a 1 (N.of_nat k) (read_tag k acc).
Proof.
  intros Ha acc. apply (ok_weaken (0 + 1) 1 (N.of_nat k)); [|lia..]. revert acc.
  induction k as [|k IH]; intros acc; cbn [read_tag].
  - apply (ok_weaken 0 0 0); [apply ok_ret|lia..].
  - rewrite Nat2N.inj_succ, <- N.add_1_l.
    apply (ok_bind_abs 0 1 1 1); [apply ok_pop|lia..|intros b].
    apply ok_if_fail_r; intros _; apply IH.
Qed.

Lemma ok_read_type_bitmap a : 1 <= a -> ok a 1 0 read_type_bitmap.
Proof.
  intros Ha. apply (ok_weaken 1 1 0); [|lia..].
  intros c l Hc Hl. unfold read_type_bitmap. unfold bind at 1. unfold read_to_end, bind, tick, tick_n.
  destruct (wf_advance c (dlen c) Hc (N.le_refl _)) as [Hw Hs].
  set (bs := firstn (N.to_nat (dlen c)) (rem c)).
  assert (Hlen : N.of_nat (length bs) = dlen c) by (unfold bs; rewrite (firstn_rem_len c _ Hc (N.le_refl _)); lia).
  cbn [ticks hops names]. rewrite Hlen. pose proof (wf_pos _ Hc). unfold dlen in *.
  destruct (bm_run bs BWindow []); cbn; triv_post.
Qed.

#[export] Hint Resolve ok_while0 ok_on_bytes ok_sub_bytes ok_with_sub ok_read_octets ok_read_tag ok_read_type_bitmap : okdb.

(* a level of depth per step of a bind chain; [nocore]: these two databases only *)
Ltac ok_auto := eapply ok_le; [cbv zeta; eauto 60 with okdb nohopdb nocore | autounfold with okdb; lia ..].

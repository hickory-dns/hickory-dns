(* C09 — what a matching / covering decision of the code means for a genuine record of a zone:
   a label matches one digest only, a cover (per RFC 5155) excludes the target from the zone.
   Before that, the list searches, names and candidate lists the later files reason about. *)
From HV Require Import Lib.Base C09.Model C09.B32Proofs C09.SpecDec.
From HV Require Lib.Wire.
Open Scope N_scope.

Lemma existsb_find {A} (f : A -> bool) l : existsb f l = is_some (find f l).
Proof. induction l as [|x l IH]; cbn; [reflexivity|]. now destruct (f x). Qed.

Lemma lower_name_length n : length (lower_name n) = length n.
Proof. apply map_length. Qed.

Lemma lower_name_skipn k q : lower_name (skipn k q) = skipn k (lower_name q).
Proof. unfold lower_name. now rewrite skipn_map. Qed.

Lemma lower_name_idem n : lower_name (lower_name n) = lower_name n.
Proof. exact (Wire.map_map_idem _ n Wire.lower_idem). Qed.

Lemma lower_star n : lower_name (star n) = star (lower_name n).
Proof. reflexivity. Qed.

Lemma lower_star_skipn k q : lower_name (star (skipn k q)) = star (skipn k (lower_name q)).
Proof. now rewrite lower_star, lower_name_skipn. Qed.

Lemma name_eqb_lc a b : name_eqb a b = true <-> lower_name a = lower_name b.
Proof. apply list_eqb_map, label_eqb_lc. Qed.

Lemma name_eqb_length a b : name_eqb a b = true -> length a = length b.
Proof. rewrite name_eqb_lc. intros E. now rewrite <- (lower_name_length a), E, lower_name_length. Qed.

Lemma suffixes_skipn q k : In (skipn k q) (suffixes q).
Proof.
  revert k; induction q as [|l q IH]; intros k.
  - destruct k; cbn; auto.
  - destruct k as [|k]; cbn [skipn suffixes]; [now left|]. right. apply IH.
Qed.

Lemma relevant_suffix q k : In (skipn k q) (relevant q).
Proof. apply in_or_app. left. apply suffixes_skipn. Qed.

Lemma relevant_star q k : In (star (skipn k q)) (relevant q).
Proof. apply in_or_app. right. apply in_map, suffixes_skipn. Qed.

Lemma skipn_tl {A} (l : list A) j : skipn j (tl l) = skipn (S j) l.
Proof. destruct l; [now rewrite !skipn_nil|reflexivity]. Qed.

Lemma cand_loop_seq soa : forall fuel cur,
  exists n, (n <= fuel)%nat /\ cand_loop fuel cur soa = map (fun j => skipn j cur) (seq 0 n).
Proof.
  induction fuel as [|fuel IH]; intros cur; cbn [cand_loop]; [now exists 0%nat|].
  destruct (name_eqb cur soa); [exists 1%nat; split; [lia|reflexivity]|].
  destruct (IH (base_name cur)) as (n & Hn & ->). exists (S n). split; [lia|].
  cbn [seq map skipn]. f_equal. rewrite <- seq_shift, map_map. apply map_ext. intros j. apply skipn_tl.
Qed.

Lemma nth_map_seq {A} (g : nat -> A) n k d : (k < n)%nat -> nth k (map g (seq 0 n)) d = g k.
Proof.
  intros Hk. rewrite (nth_indep _ d (g 0%nat)) by (rewrite map_length, seq_length; lia).
  now rewrite map_nth, seq_nth.
Qed.

Section Cover.
  Variable h : name -> list byte.
  Variable WC : label -> label -> list byte -> list byte -> bool.
  Hypothesis Hh : hash_ok h.

  (* 20 bytes, written as the 5 * k of b32_cmp, b32_eqb and b32_length (k = 4) *)
  Lemma h_len n : length (h n) = (5 * 4)%nat.
  Proof. apply Hh. Qed.
  Lemma h_ok n : bytes_ok (h n).
  Proof. apply Hh. Qed.

  Lemma b32_h_cmp a b : label_cmp (b32 (h a)) (b32 (h b)) = bytes_cmp (h a) (h b).
  Proof. apply (b32_cmp _ _ 4); auto using h_ok, h_len. Qed.

  Lemma b32_h_eqb l a b :
    label_eqb l (b32 (h a)) = true -> label_eqb l (b32 (h b)) = true -> h a = h b.
  Proof.
    intros Ea Eb. apply (b32_eqb _ _ 4); auto using h_ok, h_len.
    now rewrite <- (label_eqb_eqb_l _ _ _ Ea).
  Qed.

  Lemma next_b32_h r n : n3_next r = h n -> next_b32 r = Some (b32 (h n)).
  Proof.
    intros E. unfold next_b32. rewrite E. rewrite (b32_length _ 4) by apply h_len. reflexivity.
  Qed.

  Lemma covers1_digests W p t n n' :
    label_eqb (fst p) (b32 (h n)) = true -> n3_next (snd p) = h n' ->
    covers1 W (h t) (b32 (h t)) p =
      if label_eqb (fst p) (b32 (h t)) then false
      else if is_lt (bytes_cmp (h n) (h n'))
      then is_lt (bytes_cmp (h n) (h t)) && is_lt (bytes_cmp (h t) (h n'))
      else W (fst p) (b32 (h t)) (h t) (h n').
  Proof.
    intros El En. unfold covers1.
    now rewrite (next_b32_h _ _ En), !(label_cmp_eqb_l _ _ _ El), !b32_h_cmp, En.
  Qed.

  Lemma wrap_rfc_digests l t n nx :
    label_eqb l (b32 (h n)) = true ->
    wrap_covers_rfc l (b32 (h t)) (h t) nx = is_lt (bytes_cmp (h n) (h t)) || is_lt (bytes_cmp (h t) nx).
  Proof. intros El. unfold wrap_covers_rfc. now rewrite (label_cmp_eqb_l _ _ _ El), b32_h_cmp. Qed.

  Lemma wrap_v0_digests l t n nx :
    label_eqb l (b32 (h n)) = true ->
    wrap_covers_v0 l (b32 (h t)) (h t) nx = is_gt (bytes_cmp (h n) (h t)) || is_gt (bytes_cmp (h t) nx).
  Proof. intros El. unfold wrap_covers_v0. now rewrite (label_cmp_eqb_l _ _ _ El), b32_h_cmp. Qed.

  (* a pair as produced by mk_pairs from a genuine record *)
  Definition gpair (z : zone) (p : pair) : Prop :=
    exists n ts n',
      In (n, ts) (z_nodes z) /\ label_eqb (fst p) (b32 (h n)) = true /\
      n3_types (snd p) = ts /\ n3_next (snd p) = h n' /\
      (forall m, In m (z_names z) -> ~ rfc_covers (h n) (n3_next (snd p)) (h m)).

  Lemma genuine_gpair z salt iter r : genuine h z salt iter r -> gpair z (hd [] (n3_owner r), r).
  Proof.
    intros (n & ts & l & base & Hn & Eo & El & _Hbase & Et & _Halg & _Hsalt & _Hiter & (n' & _ & En') & Hgap).
    exists n, ts, n'. cbn [fst snd]. rewrite Eo. now repeat split.
  Qed.

  Lemma genuine_params z salt iter r :
    genuine h z salt iter r -> n3_alg r = 1 /\ n3_salt r = salt /\ n3_iter r = iter.
  Proof. intros (n & ts & l & base & _Hn & _Eo & _El & _Hbase & _Et & Ha & Es & Ei & _). auto. Qed.

  Lemma covers_rfc z p t :
    gpair z p -> covers1 wrap_covers_rfc (h t) (b32 (h t)) p = true ->
    exists n, In n (z_names z) /\ label_eqb (fst p) (b32 (h n)) = true /\
              rfc_covers (h n) (n3_next (snd p)) (h t).
  Proof.
    intros (n & ts & n' & Hn & El & _Et & En' & _Hgap) Hc.
    exists n. split; [apply in_map_iff; now exists (n, ts)|]. split; [exact El|].
    rewrite (covers1_digests _ _ _ _ _ El En'), (wrap_rfc_digests _ _ _ _ El) in Hc.
    destruct (label_eqb (fst p) (b32 (h t))); [discriminate|]. rewrite En'. now apply rfc_coversb_iff.
  Qed.

  Lemma covered_absent z p t :
    gpair z p -> covers1 wrap_covers_rfc (h t) (b32 (h t)) p = true -> ~ In t (z_names z).
  Proof.
    intros Hg Hc Hin. pose proof Hg as (n & ts & n' & _Hn & El & _Et & _En' & Hgap).
    destruct (covers_rfc _ _ _ Hg Hc) as (n2 & Hn2 & El2 & Hcov).
    rewrite (b32_h_eqb _ _ _ El2 El) in Hcov. exact (Hgap t Hin Hcov).
  Qed.

  Lemma find_cover_absent z ps t p :
    (forall p, In p ps -> gpair z p) -> right_cover h WC ps t = true ->
    find_cover WC ps (h t) (b32 (h t)) = Some p -> ~ In t (z_names z).
  Proof.
    intros Hg Hw Hf. destruct (find_some _ _ Hf) as [Hp Hc].
    apply (covered_absent z p t (Hg p Hp)).
    unfold right_cover in Hw. now rewrite Hf in Hw.
  Qed.

  Lemma right_cover_rfc ps t : right_cover h wrap_covers_rfc ps t = true.
  Proof.
    unfold right_cover. destruct (find_cover wrap_covers_rfc ps (h t) (b32 (h t))) as [p|] eqn:E; [|reflexivity].
    now destruct (find_some _ _ E).
  Qed.

  Lemma known_wrap_encloser_rfc ps wc q : known_wrap_encloser h wrap_covers_rfc ps wc q = false.
  Proof.
    unfold known_wrap_encloser. apply not_true_iff_false. intros Hx. apply existsb_exists in Hx.
    destruct Hx as (i & _ & Hx). rewrite !right_cover_rfc in Hx. rewrite orb_true_r in Hx. cbn in Hx.
    now rewrite andb_false_r in Hx.
  Qed.

  Lemma known_wrap_encloser_false ps wc q i :
    known_wrap_encloser h WC ps wc q = false -> (1 <= i <= length q)%nat -> matched h ps (skipn i q) = true ->
    right_cover h WC ps (skipn (i - 1) q) = true /\ (wc = true -> right_cover h WC ps (star (skipn i q)) = true).
  Proof.
    intros Hk Hi Hm. unfold known_wrap_encloser in Hk.
    destruct (right_cover h WC ps (skipn (i - 1) q) &&
              (negb wc || right_cover h WC ps (star (skipn i q)))) eqn:E.
    - apply andb_true_iff in E. destruct E as [-> E]. split; [reflexivity|]. now intros ->.
    - exfalso. apply not_true_iff_false in Hk. apply Hk, existsb_exists. exists i.
      split; [apply in_seq; lia|]. unfold star in E. now rewrite Hm, E.
  Qed.
End Cover.

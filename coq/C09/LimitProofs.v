(* C09 — proofs about the head of verify_nsec3: record-name sanity, parameter agreement,
   iteration limits.  All statements hold for every hash function. *)
From HV Require Import Lib.Base C09.Model.
Open Scope N_scope.

Section Limits.
  Variable H : list byte -> N -> name -> list byte.
  Variable WC : label -> label -> list byte -> list byte -> bool.

  (* the part of verify_nsec3 after the limits *)
  Definition dispatch (qname : name) (qtype : N) (soa : option name) (rcode : N)
             (answers : list (option N)) (ps : list pair) (salt : list byte) (iter : N) : result :=
    let cx := mkCtx qname soa ps salt iter in
    if rcode =? 3 then validate_nxdomain H WC cx
    else if rcode =? 0 then validate_nodata H WC qtype (wildcard_labels answers) cx
    else R Bogus.

  Lemma verify_unfold qname qtype soa rcode answers first rs soft hard :
    verify_nsec3_gen H WC qname qtype soa rcode answers (first :: rs) soft hard =
      match mk_pairs soa (first :: rs) with
      | None => R Bogus
      | Some ps =>
          if negb (forallb (same_params first) (first :: rs)) then R Bogus
          else if hard <? n3_iter first then R Bogus
          else if soft <? n3_iter first then R Insecure
          else dispatch qname qtype soa rcode answers ps (n3_salt first) (n3_iter first)
      end.
  Proof. reflexivity. Qed.

  Lemma same_params_spec a b :
    same_params a b = true <->
    n3_alg a = n3_alg b /\ n3_salt a = n3_salt b /\ n3_iter a = n3_iter b.
  Proof.
    unfold same_params. rewrite !andb_true_iff, !N.eqb_eq, bytes_eqb_eq. tauto.
  Qed.

  (* what [mk_pairs] = Some says about every record *)
  Definition owner_ok (soa : option name) (r : nsec3) : Prop :=
    exists l base, n3_owner r = l :: base /\
      (1 <= length l <= 63)%nat /\
      match soa with Some s => name_eqb base s = true | None => True end.

  Lemma mk_pairs_some soa rs ps :
    mk_pairs soa rs = Some ps ->
    Forall (owner_ok soa) rs /\ ps = map (fun r => (hd [] (n3_owner r), r)) rs.
  Proof.
    revert ps; induction rs as [|r rs IH]; intros ps Hm; cbn [mk_pairs] in Hm.
    - injection Hm as <-. auto.
    - destruct (n3_owner r) as [|l base] eqn:Eo; [discriminate|].
      destruct (match soa with Some s => negb (name_eqb base s) | None => false end) eqn:Es; [discriminate|].
      destruct ((length l =? 0)%nat || (63 <? length l)%nat) eqn:El; [discriminate|].
      destruct (mk_pairs soa rs) as [ps'|]; [|discriminate].
      injection Hm as <-. destruct (IH ps' eq_refl) as [IH1 ->]. cbn [map]. rewrite Eo. split; [|reflexivity].
      constructor; [|exact IH1]. exists l, base.
      apply orb_false_iff in El. destruct El as [El1%Nat.eqb_neq El2%Nat.ltb_ge].
      repeat split; try lia; [exact Eo|]. destruct soa; [now apply negb_false_iff in Es|exact I].
  Qed.

  Lemma mk_pairs_ok soa rs :
    Forall (owner_ok soa) rs -> mk_pairs soa rs = Some (map (fun r => (hd [] (n3_owner r), r)) rs).
  Proof.
    induction 1 as [|r rs (l & base & Eo & Hl & Hs) _ IH]; [reflexivity|]. cbn [mk_pairs map]. rewrite Eo, IH.
    replace (match soa with Some s => negb (name_eqb base s) | None => false end) with false
      by (destruct soa; [now rewrite Hs|reflexivity]).
    destruct (Nat.eqb_spec (length l) 0); [lia|]. destruct (Nat.ltb_spec 63 (length l)); [lia|reflexivity].
  Qed.

  Lemma mk_pairs_none_or soa rs :
    mk_pairs soa rs = None \/ exists ps, mk_pairs soa rs = Some ps.
  Proof. destruct (mk_pairs soa rs) as [ps|]; [right; now exists ps|now left]. Qed.

  Lemma same_params_in first rs r :
    forallb (same_params first) rs = true -> In r rs ->
    n3_alg first = n3_alg r /\ n3_salt first = n3_salt r /\ n3_iter first = n3_iter r.
  Proof. intros Hf Hr. rewrite forallb_forall in Hf. now apply same_params_spec, Hf. Qed.

  Lemma over_hard_bogus qname qtype soa rcode answers rs soft hard :
    rs <> [] -> Exists (fun r => hard < n3_iter r) rs ->
    verify_nsec3_gen H WC qname qtype soa rcode answers rs soft hard = R Bogus.
  Proof.
    intros Hne Hex. destruct rs as [|first rs]; [congruence|]. rewrite verify_unfold.
    destruct (mk_pairs soa (first :: rs)) as [ps|]; [|reflexivity].
    destruct (forallb (same_params first) (first :: rs)) eqn:Ef; cbn [negb]; [|reflexivity].
    apply Exists_exists in Hex. destruct Hex as (r & Hin & Hr).
    destruct (same_params_in _ _ _ Ef Hin) as (_ & _ & ->). apply N.ltb_lt in Hr. now rewrite Hr.
  Qed.

  Lemma between_limits_insecure qname qtype soa rcode answers first rs soft hard ps :
    mk_pairs soa (first :: rs) = Some ps ->
    forallb (same_params first) (first :: rs) = true ->
    soft < n3_iter first <= hard ->
    verify_nsec3_gen H WC qname qtype soa rcode answers (first :: rs) soft hard = R Insecure.
  Proof.
    intros Hp Hf [Hs Hh]. rewrite verify_unfold, Hp, Hf. cbn [negb].
    apply N.ltb_ge in Hh. rewrite Hh. apply N.ltb_lt in Hs. now rewrite Hs.
  Qed.

  Lemma not_bogus_sane qname qtype soa rcode answers rs soft hard p :
    verify_nsec3_gen H WC qname qtype soa rcode answers rs soft hard = R p -> p <> Bogus ->
    exists first rs' ps, rs = first :: rs' /\ mk_pairs soa rs = Some ps /\
      forallb (same_params first) rs = true /\ n3_iter first <= hard /\
      (p = Secure -> n3_iter first <= soft /\
                     dispatch qname qtype soa rcode answers ps (n3_salt first) (n3_iter first) = R Secure).
  Proof.
    intros Hv Hp. destruct rs as [|first rs]; [cbn in Hv; discriminate|]. rewrite verify_unfold in Hv.
    destruct (mk_pairs soa (first :: rs)) as [ps|] eqn:Em; [|inversion Hv; congruence].
    destruct (forallb (same_params first) (first :: rs)) eqn:Ef; cbn [negb] in Hv; [|inversion Hv; congruence].
    destruct (hard <? n3_iter first) eqn:Eh; [inversion Hv; congruence|].
    apply N.ltb_ge in Eh.
    exists first, rs, ps. repeat (split; [assumption||reflexivity|]). intros ->.
    destruct (soft <? n3_iter first) eqn:Es; [discriminate|]. apply N.ltb_ge in Es. now split.
  Qed.

  Lemma over_soft_not_secure qname qtype soa rcode answers rs soft hard :
    Exists (fun r => soft < n3_iter r) rs ->
    verify_nsec3_gen H WC qname qtype soa rcode answers rs soft hard <> R Secure.
  Proof.
    intros Hex Hv.
    apply not_bogus_sane in Hv as (first & rs' & ps & _Ers & _Hmk & Hf & _Hhard & Hsec); [|discriminate].
    destruct (Hsec eq_refl) as [Hle _]. apply Exists_exists in Hex. destruct Hex as (r & Hin & Hr).
    destruct (same_params_in _ _ _ Hf Hin) as (_ & _ & Ei). lia.
  Qed.
End Limits.

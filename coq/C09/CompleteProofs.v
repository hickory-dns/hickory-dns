(* C09 — completeness of the validator: the RFC 5155 7.2.2 proof of a name error taken from the
   zone's genuine chain (closest encloser matched, next closer and wildcard covered), in any
   order and with any other genuine records around it, is accepted; so is the record of an
   existing name that lacks the type. *)
From HV Require Import Lib.Base Lib.ListX C09.Model C09.B32Proofs C09.LimitProofs C09.CoverProofs
  C09.ShapeProofs C09.SoundProofs.
Open Scope N_scope.

Lemma name_eqb_refl n : name_eqb n n = true.
Proof. now apply name_eqb_lc. Qed.

(* zip_all compares as far as the shorter list goes *)
Lemma zip_all_prefix a : forall b pre, name_eqb a b = true -> zip_all a (b ++ pre) = true.
Proof.
  induction a as [|x a IH]; intros [|y b] pre E; try discriminate; [reflexivity|].
  apply andb_true_iff in E. destruct E as [Exy E]. cbn [app zip_all]. now rewrite Exy, IH.
Qed.

Lemma zip_all_lower a pre : zip_all (rev (lower_name a)) (rev a ++ pre) = true.
Proof.
  apply zip_all_prefix, name_eqb_lc. unfold lower_name at 2. rewrite <- map_rev. apply lower_name_idem.
Qed.

Lemma zone_of_suffix apex q pre :
  lower_name q = pre ++ apex -> zone_of apex q = true.
Proof.
  intros E. unfold zone_of. destruct apex as [|a apex']; [reflexivity|].
  assert (length q = (length pre + length (a :: apex'))%nat) as Hl.
  { rewrite <- app_length, <- E. unfold lower_name. now rewrite map_length. }
  destruct q as [|l q']; [cbn in Hl; lia|].
  assert ((length (l :: q') <? length (a :: apex'))%nat = false) as -> by (apply Nat.ltb_ge; lia).
  (* split q into the part above the apex and the part that lower-cases to the apex *)
  set (qq := l :: q') in *.
  assert (lower_name (skipn (length pre) qq) = a :: apex') as Es.
  { rewrite lower_name_skipn, E. rewrite skipn_app, Nat.sub_diag, skipn_all. reflexivity. }
  rewrite <- (firstn_skipn (length pre) qq) at 1. rewrite rev_app_distr.
  rewrite <- Es. apply zip_all_lower.
Qed.

Lemma cand_loop_long soa : forall k fuel cur,
  (forall j, (j < k)%nat -> name_eqb (skipn j cur) soa = false) -> (k < fuel)%nat ->
  (k < length (cand_loop fuel cur soa))%nat.
Proof.
  induction k as [|k IH]; intros [|fuel] cur Hne Hf; cbn [cand_loop length]; try lia.
  rewrite (Hne 0%nat ltac:(lia) : name_eqb cur soa = false). apply -> Nat.succ_lt_mono. apply IH; [|lia].
  intros j Hj. unfold base_name. rewrite skipn_tl. apply Hne. lia.
Qed.

(* the wrap-around test accepts at least what RFC 5155 covers *)
Definition wrap_accepts (h : name -> list byte) (WC : label -> label -> list byte -> list byte -> bool) : Prop :=
  forall l t n n', label_eqb l (b32 (h n)) = true ->
    bytes_cmp (h n) (h n') <> Lt -> bytes_cmp (h n) (h t) = Lt \/ bytes_cmp (h t) (h n') = Lt ->
    WC l (b32 (h t)) (h t) (h n') = true.

Section WrapTests.
  Variable h : name -> list byte.
  Hypothesis Hh : hash_ok h.

  Lemma wrap_rfc_accepts : wrap_accepts h wrap_covers_rfc.
  Proof.
    intros l t n n' El _ Hor. rewrite (wrap_rfc_digests h Hh _ _ _ _ El).
    destruct Hor as [-> | ->]; [reflexivity|apply orb_true_r].
  Qed.

  Lemma wrap_v0_accepts : wrap_accepts h wrap_covers_v0.
  Proof.
    intros l t n n' El Hw Hor. rewrite (wrap_v0_digests h Hh _ _ _ _ El).
    (* both comparisons are the wrong way round, but past the end of the chain that comes to the same *)
    assert (bytes_cmp (h n') (h n) <> Gt) as Hle
      by (rewrite (bytes_cmp_antisym (h n) (h n')); destruct (bytes_cmp (h n) (h n')); cbn; congruence).
    destruct Hor as [E|E].
    - (* next <= owner < target *)
      rewrite (bytes_cmp_antisym (h n') (h t)), (bytes_cmp_le_lt_trans _ _ _ Hle E). apply orb_true_r.
    - (* target < next <= owner *)
      now rewrite (bytes_cmp_antisym (h t) (h n)), (bytes_cmp_lt_le_trans _ _ _ E Hle).
  Qed.
End WrapTests.

Section Complete.
  Variable H : list byte -> N -> name -> list byte.
  Variable WC : label -> label -> list byte -> list byte -> bool.
  Variable z : zone.
  Variable salt : list byte.
  Variable iter : N.
  Let h := H salt iter.
  Hypothesis Hh : hash_ok h.
  Hypothesis Hz : wf_zone z.
  Hypothesis HWC : wrap_accepts h WC.

  Lemma covers1_complete p t n :
    gpair h z p -> label_eqb (fst p) (b32 (h n)) = true ->
    rfc_covers (h n) (n3_next (snd p)) (h t) -> covers1 WC (h t) (b32 (h t)) p = true.
  Proof.
    intros (n0 & ts & n' & _Hn & _El & _Et & En' & _Hgap) El Hc.
    rewrite (covers1_digests h Hh _ _ _ _ _ El En'). rewrite En' in Hc. unfold rfc_covers in Hc.
    assert (label_eqb (fst p) (b32 (h t)) = false) as ->.
    { apply not_true_iff_false. intros Em.
      rewrite <- (b32_h_eqb h Hh _ _ _ El Em), bytes_cmp_refl in Hc. destruct Hc as [(_ & ? & _)|(? & [?|?])]; congruence. }
    destruct Hc as [(-> & -> & ->)|(Hnl & Hor)]; [reflexivity|].
    destruct (bytes_cmp (h n) (h n')) eqn:E0; try congruence;
      (apply (HWC _ _ n n'); [exact El|congruence|exact Hor]).
  Qed.

  Lemma genuine_owner_ok r : genuine h z salt iter r -> owner_ok (Some (z_apex z)) r.
  Proof.
    intros (n & ts & l & base & _ & Eo & El & Eb & _). exists l, base.
    apply label_eqb_length in El. rewrite (b32_length _ 4) in El by apply (h_len h Hh).
    repeat split; try assumption; lia.
  Qed.

  Lemma verify_genuine qname qtype rcode answers rs soft hard :
    rs <> [] -> Forall (genuine h z salt iter) rs -> iter <= soft -> iter <= hard ->
    verify_nsec3_gen H WC qname qtype (Some (z_apex z)) rcode answers rs soft hard =
    dispatch H WC qname qtype (Some (z_apex z)) rcode answers (map pair_of rs) salt iter.
  Proof.
    intros Hne Hg Hsoft Hhard. destruct rs as [|first rs']; [congruence|]. rewrite verify_unfold.
    rewrite mk_pairs_ok by (eapply Forall_impl; [|exact Hg]; apply genuine_owner_ok).
    rewrite Forall_forall in Hg.
    destruct (genuine_params h z salt iter first) as (Ea & Es & Ei); [apply Hg; now left|].
    replace (forallb (same_params first) (first :: rs')) with true.
    2:{ symmetry. apply forallb_forall. intros r Hr. apply same_params_spec.
        destruct (genuine_params h z salt iter r (Hg r Hr)) as (Ea' & Es' & Ei'). repeat split; congruence. }
    rewrite Es, Ei. apply N.ltb_ge in Hhard, Hsoft. now rewrite Hhard, Hsoft.
  Qed.

  Section Run.
    Variables (qname : name) (rs : list nsec3).
    Hypothesis Hgen : Forall (genuine h z salt iter) rs.
    Let soa := Some (z_apex z).
    Let ps := map pair_of rs.
    Let cx := mkCtx qname soa ps salt iter.
    Let lq := lower_name qname.
    Hypothesis Hcf : collision_free h (z_names z ++ relevant lq).

    Lemma lq_len : length lq = length qname.
    Proof. apply lower_name_length. Qed.

    Lemma no_match_absent n :
      In (lower_name n) (relevant lq) -> ~ In (lower_name n) (z_names z) -> match_of H cx n = None.
    Proof.
      intros Hr Hn. destruct (match_of H cx n) as [p|] eqn:E; [|reflexivity].
      destruct Hn. apply (in_map fst _ (lower_name n, n3_types (snd p))).
      eapply (match_of_node H z salt iter Hh); [exact Hgen|exact Hcf|reflexivity|exact Hr|exact E].
    Qed.

    Lemma match_some n r :
      In r rs -> label_eqb (hd [] (n3_owner r)) (b32 (h (lower_name n))) = true ->
      exists p, match_of H cx n = Some p.
    Proof.
      intros Hr. apply (find_exists (fun p => label_eqb (fst p) (b32 (h (lower_name n)))) ps (pair_of r)).
      now apply in_map.
    Qed.

    Lemma cover_some t r n :
      In r rs -> label_eqb (hd [] (n3_owner r)) (b32 (h n)) = true ->
      rfc_covers (h n) (n3_next r) (h (lower_name t)) -> exists p, cover_of H WC cx t = Some p.
    Proof.
      intros Hr El Hc. pose proof (in_map pair_of _ _ Hr) as Hp.
      exact (find_exists _ _ _ Hp (covers1_complete _ _ n (genuine_pairs H z salt iter rs Hgen _ Hp) El Hc)).
    Qed.

    Lemma nodata_complete qtype wl ts r :
      In (lq, ts) (z_nodes z) -> lacks ts qtype -> lacks ts T_CNAME ->
      In r rs -> label_eqb (hd [] (n3_owner r)) (b32 (h lq)) = true ->
      validate_nodata H WC qtype wl cx = R Secure.
    Proof.
      intros Hnode Hl1 Hl2 Hr Hlq. destruct (match_some qname r Hr Hlq) as (qr & Eqr).
      unfold validate_nodata. cbv zeta. rewrite find_match_info, (Eqr : match_of H cx (c_qname cx) = _).
      assert (In (lq, n3_types (snd qr)) (z_nodes z)) as Hn2
        by (eapply (match_of_node H z salt iter Hh); [exact Hgen|exact Hcf|reflexivity|apply (relevant_suffix _ 0)|exact Eqr]).
      destruct Hz as (_ & _ & _ & Huniq). rewrite (Huniq _ _ _ Hnode Hn2) in Hl1, Hl2.
      now rewrite (proj2 (has_type_false _ _) Hl1), (proj2 (has_type_false _ _) Hl2).
    Qed.

    Variable k : nat.
    Hypothesis Hk : (1 <= k)%nat.
    Hypothesis Henc : encloser z lq k.
    Hypothesis Hapex : z_apex z <> [].

    Lemma candidates_long : exists cs, candidates cx = Some cs /\ (k < length cs)%nat.
    Proof.
      destruct Henc as (Hkl & Hin & _). rewrite lq_len in Hkl.
      pose proof (names_in_zone z Hz _ Hin) as Hinz.
      pose proof (in_zone_length z _ Hinz) as Hal. rewrite skipn_length, lq_len in Hal.
      destruct Hinz as (pre & Epre).
      unfold candidates. cbn [c_soa c_qname cx soa].
      rewrite (zone_of_suffix _ _ (firstn k lq ++ pre))
        by (fold lq; now rewrite <- app_assoc, <- Epre, firstn_skipn).
      replace (is_root (z_apex z)) with false by now destruct (z_apex z).
      eexists. split; [reflexivity|]. apply cand_loop_long; [|lia].
      intros j Hj. apply not_true_iff_false. intros E%name_eqb_length. rewrite skipn_length in E. lia.
    Qed.

    Variables (rce rnc rwc : nsec3) (nnc nwc : name).
    Hypothesis Hlen : (enc_len qname + 2 <= 255)%nat.
    Hypothesis Hce : In rce rs.
    Hypothesis Hlce : label_eqb (hd [] (n3_owner rce)) (b32 (h (skipn k lq))) = true.
    Hypothesis Hnc : In rnc rs.
    Hypothesis Hlnc : label_eqb (hd [] (n3_owner rnc)) (b32 (h nnc)) = true.
    Hypothesis Hcnc : rfc_covers (h nnc) (n3_next rnc) (h (skipn (k - 1) lq)).
    Hypothesis Hwc : In rwc rs.
    Hypothesis Hlwc : label_eqb (hd [] (n3_owner rwc)) (b32 (h nwc)) = true.
    Hypothesis Hcwc : rfc_covers (h nwc) (n3_next rwc) (h (star (skipn k lq))).

    Lemma nx_complete : validate_nxdomain H WC cx = R Secure.
    Proof.
      destruct candidates_long as (cs & Ecs & Hkcs). destruct Henc as (_ & _ & Hall).
      unfold lq in Hlce, Hcnc, Hcwc. rewrite <- lower_name_skipn in Hlce, Hcnc, Hcwc.
      destruct (match_some _ _ Hce Hlce) as (mrec & Emrec).
      destruct (cover_some _ _ _ Hnc Hlnc Hcnc) as (ncr & Encr).
      destruct (cover_some (star _) _ _ Hwc Hlwc Hcwc) as (wcr & Ewcr).
      apply nx_secure_iff. exists cs, k, mrec, ncr, wcr.
      split; [|split].
      - repeat split; try assumption; try lia.
        intros j Hj. apply no_match_absent; rewrite lower_name_skipn; [|now apply Hall].
        apply relevant_suffix.
      - pose proof (enc_len_skipn k qname). cbn [c_qname cx]. lia.
      - exact Ewcr.
    Qed.

    Lemma nx_verify_complete qtype answers soft hard :
      rs <> [] -> iter <= soft -> iter <= hard ->
      verify_nsec3_gen H WC qname qtype soa 3 answers rs soft hard = R Secure.
    Proof. intros. rewrite verify_genuine by assumption. exact nx_complete. Qed.
  End Run.

End Complete.

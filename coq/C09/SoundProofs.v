(* C09 — soundness of the Secure verdicts of verify_nsec3_gen against the zone the NSEC3 records
   genuinely come from. *)
From HV Require Import Lib.Base Lib.ListX C09.Model C09.B32Proofs C09.LimitProofs C09.CoverProofs C09.ShapeProofs.
Open Scope N_scope.

(* what [mk_pairs] makes of a record (LimitProofs.mk_pairs_some) *)
Definition pair_of (r : nsec3) : pair := (hd [] (n3_owner r), r).

Lemma num_labels_le n : (N.to_nat (num_labels n) <= length n)%nat.
Proof.
  unfold num_labels. destruct n as [|l n]; [cbn; lia|]. destruct (bytes_eqb l [42]); cbn [length]; lia.
Qed.

Lemma last_labels_skipn k (n : name) : last_labels k n = skipn (length n - k) n.
Proof. unfold last_labels. rewrite firstn_rev. apply rev_involutive. Qed.

Section Sound.
  Variable H : list byte -> N -> name -> list byte.
  Variable WC : label -> label -> list byte -> list byte -> bool.
  Variable z : zone.
  Variable salt : list byte.
  Variable iter : N.
  Let h := H salt iter.
  Hypothesis Hh : hash_ok h.
  Hypothesis Hz : wf_zone z.

  Lemma in_zone_length n : in_zone z n -> (length (z_apex z) <= length n)%nat.
  Proof. intros (pre & ->). rewrite app_length. lia. Qed.

  Lemma names_in_zone n : In n (z_names z) -> in_zone z n.
  Proof. intros Hin. destruct Hz as (_ & Hsuf & _). now destruct (Hsuf _ Hin). Qed.

  Lemma climb q i j : (j <= i)%nat -> (i <= length q)%nat -> (length (z_apex z) <= length q - i)%nat ->
    In (skipn j q) (z_names z) -> In (skipn i q) (z_names z).
  Proof.
    destruct Hz as (_ & _ & Hclosed & _).
    induction 1 as [|i Hj IH]; intros Hi Hlen Hin; [exact Hin|].
    destruct (nth_error q i) as [l|] eqn:El; [apply skipn_nth_cons in El|apply nth_error_None in El; lia].
    apply (Hclosed l); [rewrite <- El; apply IH; [lia|lia|exact Hin]|].
    intros Eap. apply (f_equal (@length _)) in Eap. cbn [length] in Eap. rewrite skipn_length in Eap. lia.
  Qed.

  Lemma encloser_from_proof q i :
    (1 <= i <= length q)%nat -> In (skipn i q) (z_names z) -> ~ In (skipn (i - 1) q) (z_names z) ->
    encloser z q i.
  Proof.
    intros Hi Hce Hnc. split; [lia|]. split; [exact Hce|].
    intros j Hj Hin. apply Hnc, (climb q (i - 1) j); try lia; try assumption.
    pose proof (in_zone_length _ (names_in_zone _ Hce)) as Hl. rewrite skipn_length in Hl. lia.
  Qed.

  Section Run.
    Variables (qname : name) (qtype : N) (soa : option name) (answers : list (option N)).
    Variables (rs : list nsec3) (soft hard : N).
    Hypothesis Hgen : Forall (genuine h z salt iter) rs.
    Let ps := map pair_of rs.
    Let cx := mkCtx qname soa ps salt iter.
    Let lq := lower_name qname.

    Lemma genuine_pairs p : In p ps -> gpair h z p.
    Proof.
      intros (r & <- & Hr)%in_map_iff. rewrite Forall_forall in Hgen. exact (genuine_gpair h z salt iter r (Hgen r Hr)).
    Qed.

    Lemma secure_dispatch rcode :
      verify_nsec3_gen H WC qname qtype soa rcode answers rs soft hard = R Secure ->
      dispatch H WC qname qtype soa rcode answers ps salt iter = R Secure.
    Proof.
      intros Hv.
      apply not_bogus_sane in Hv as (first & rs' & ps' & Ers & Hm & _Hf & _Hhard & Hsec); [|discriminate].
      destruct (Hsec eq_refl) as [_ Hd]. apply mk_pairs_some in Hm. destruct Hm as [_ ->].
      rewrite Ers in Hgen. inversion Hgen as [|? ? Hf _].
      apply genuine_params in Hf as (_ & Es & Ei). now rewrite Es, Ei in Hd.
    Qed.

    Lemma verify_nodata_shape :
      verify_nsec3_gen H WC qname qtype soa 0 answers rs soft hard = R Secure ->
      nodata_shape H WC qtype (wildcard_labels answers) cx.
    Proof. intros Hs%secure_dispatch. exact (validate_nodata_shape H WC _ _ _ Hs). Qed.

    Hypothesis Hcf : collision_free h (z_names z ++ relevant lq).

    (* the code hashes the lower-case form of a name; [t] is that form as the claims write it *)
    Lemma match_of_node n t qr :
      lower_name n = t -> In t (relevant lq) -> match_of H cx n = Some qr -> In (t, n3_types (snd qr)) (z_nodes z).
    Proof.
      intros <- Ht Hm. destruct (find_some _ _ Hm) as [Hp Hl].
      destruct (genuine_pairs qr Hp) as (n0 & ts & _ & Hn & El & <- & _).
      assert (n0 = lower_name n) as <-; [|exact Hn].
      apply Hcf; [| |exact (b32_h_eqb h Hh _ _ _ El Hl)]; apply in_or_app; [left; exact (in_map fst _ _ Hn)|now right].
    Qed.

    Lemma match_of_matched n t qr : lower_name n = t -> match_of H cx n = Some qr -> matched h ps t = true.
    Proof.
      intros <- Hm. unfold matched. rewrite existsb_find. change (is_some (match_of H cx n) = true). now rewrite Hm.
    Qed.

    Lemma cover_absent n t p :
      lower_name n = t -> right_cover h WC ps t = true -> cover_of H WC cx n = Some p -> ~ In t (z_names z).
    Proof. intros <-. apply find_cover_absent; [exact Hh|exact genuine_pairs]. Qed.

    Lemma ce_sound wc cs i mrec ncr :
      ce_at H WC cx cs i mrec ncr -> known_wrap_encloser h WC ps wc lq = false ->
      encloser z lq i /\ (wc = true -> right_cover h WC ps (star (skipn i lq)) = true).
    Proof.
      intros (Ecs & Hi & _ & Hm & Hnc) Hw. destruct (candidates_seq cx cs Ecs) as (n & Hle & ->).
      rewrite map_length, seq_length in Hi. cbn [c_qname cx] in *.
      pose proof (lower_name_length qname) as Ell. fold lq in Ell.
      destruct (known_wrap_encloser_false h WC ps wc lq i Hw ltac:(lia)
                  (match_of_matched _ _ _ (lower_name_skipn _ _) Hm)) as [Hr1 Hr2].
      split; [|exact Hr2]. apply encloser_from_proof; try lia.
      - apply (in_map fst _ (skipn i lq, n3_types (snd mrec))), (match_of_node _ _ _ (lower_name_skipn _ _)); [|exact Hm].
        apply relevant_suffix.
      - exact (cover_absent _ _ _ (lower_name_skipn _ _) Hr1 Hnc).
    Qed.

    Lemma nx_sound :
      known_wrap_encloser h WC ps true lq = false ->
      verify_nsec3_gen H WC qname qtype soa 3 answers rs soft hard = R Secure -> nx_claim z lq.
    Proof.
      intros Hw Hs%secure_dispatch.
      apply nx_secure_iff in Hs as (cs & i & mrec & ncr & wcr & Hce & _ & Hwc).
      destruct (ce_sound true cs i mrec ncr Hce Hw) as [Henc Hr].
      exists i. split; [apply Hce|]. split; [exact Henc|].
      exact (cover_absent (star _) _ _ (lower_star_skipn _ _) (Hr eq_refl) Hwc).
    Qed.

    (* NOERROR without RRSIGs among the answers; the negated hypothesis is [Props.known_apex_arm] *)
    Lemma nodata_sound :
      wildcard_labels answers = None ->
      ~ (soa_is cx qname = true /\ match_of H cx qname = None) ->
      known_wrap_encloser h WC ps false lq = false ->
      (qtype = T_DS -> right_cover h WC ps lq = true) ->
      verify_nsec3_gen H WC qname qtype soa 0 answers rs soft hard = R Secure ->
      nodata_claim z lq qtype \/ (qtype = T_DS /\ ~ In lq (z_names z)).
    Proof.
      intros Ewl Hapex Hw Hwq Hs%verify_nodata_shape. rewrite Ewl in Hs.
      destruct Hs as [qr Hm Ht Hc | p Hm Hds Hcov Hoo | w p Hm Hwl _ _ | cs i mrec ncr wr Hm _ Hce Hwm Ht Hc | Hm _ Hsoa];
        cbn [c_qname cx] in *.
      - left. left. exists (n3_types (snd qr)). split; [|split; assumption].
        exact (match_of_node qname _ _ eq_refl (relevant_suffix lq 0) Hm).
      - right. split; [exact Hds|].
        exact (cover_absent qname _ p eq_refl (Hwq Hds) Hcov).
      - discriminate.
      - left. right. exists i, (n3_types (snd wr)).
        destruct (ce_sound false cs i mrec ncr Hce Hw) as [Henc _].
        split; [apply Hce|]. split; [exact Henc|]. split; [|split; assumption].
        apply (match_of_node (star (skipn i qname)) _ wr (lower_star_skipn _ _)); [|exact Hwm].
        apply relevant_star.
      - exfalso. apply Hapex. now split.
    Qed.

    (* NOERROR with a wildcard-expanded answer, RRSIG label count w; the negated hypothesis is
       [Props.known_shortcut] *)
    Lemma wildcard_answer_sound w :
      wildcard_labels answers = Some w ->
      ~ (match_of H cx qname <> None \/
         (qtype = T_DS /\ exists p, cover_of H WC cx qname = Some p /\ n3_optout (snd p) = true)) ->
      in_zone z (skipn (length lq - S (N.to_nat w)) lq) ->
      right_cover h WC ps (skipn (length lq - S (N.to_nat w)) lq) = true ->
      verify_nsec3_gen H WC qname qtype soa 0 answers rs soft hard = R Secure ->
      wildcard_answer_claim z lq (N.to_nat w).
    Proof.
      intros Ewl Hks Hinz Hw Hs%verify_nodata_shape. rewrite Ewl in Hs.
      destruct Hs as [qr Hm _ _ | p Hm Hds Hcov Hoo | w' p Hm Hwl Hlt Hcov | cs i mrec ncr wr _ Hwl | _ Hwl _];
        cbn [c_qname cx] in *; try discriminate.
      - destruct Hks. left. congruence.
      - destruct Hks. right. split; [exact Hds|]. now exists p.
      - inversion Hwl; subst w'; clear Hwl.
        pose proof (lower_name_length qname) as Ell. fold lq in Ell.
        pose proof (num_labels_le qname) as Hnl.
        rewrite last_labels_skipn in Hcov.
        assert (~ In (skipn (length qname - S (N.to_nat w)) lq) (z_names z)) as Habs.
        { rewrite Ell in Hw. exact (cover_absent _ _ p (lower_name_skipn _ _) Hw Hcov). }
        split; [lia|]. split; [exact Hinz|]. rewrite Ell in *. intros j Hj Hin. apply Habs.
        pose proof (in_zone_length _ Hinz) as Hzone. rewrite skipn_length in Hzone.
        apply (climb lq _ j); try lia. exact Hin.
    Qed.
  End Run.
End Sound.

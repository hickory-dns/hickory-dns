(* C09 — boolean versions of the specification predicates with their reflection lemmas, so that
   the hypotheses of the soundness theorems can be discharged by evaluation on the concrete
   witnesses (Examples of non-vacuity, refutations of the unguarded statements).  The general
   proofs use two of the lemmas: [rfc_coversb_iff] (CoverProofs) and [existsb_eqb_false] (ShapeProofs). *)
From HV Require Import Lib.Base Lib.ListX C09.Model C09.B32Proofs.
Open Scope N_scope.

Lemma raw_name_eqb_eq a b : raw_name_eqb a b = true <-> a = b.
Proof. apply list_eqb_eq. intros x y. apply bytes_eqb_eq. Qed.

Definition inb (n : name) (l : list name) : bool := existsb (raw_name_eqb n) l.
Lemma inb_In n l : inb n l = true <-> In n l.
Proof. apply (existsb_eqb_in raw_name_eqb raw_name_eqb_eq). Qed.
Lemma inb_false n l : inb n l = false <-> ~ In n l.
Proof. rewrite <- inb_In. destruct (inb n l); split; congruence. Qed.

Definition in_zoneb (z : zone) (n : name) : bool :=
  (length (z_apex z) <=? length n)%nat && raw_name_eqb (skipn (length n - length (z_apex z)) n) (z_apex z).

Lemma in_zoneb_iff z n : in_zoneb z n = true <-> in_zone z n.
Proof.
  unfold in_zoneb, in_zone. rewrite andb_true_iff, Nat.leb_le, raw_name_eqb_eq. split.
  - intros [_ E]. exists (firstn (length n - length (z_apex z)) n). rewrite <- E at 2. symmetry. apply firstn_skipn.
  - intros (pre & ->). rewrite app_length. split; [lia|].
    replace (length pre + length (z_apex z) - length (z_apex z))%nat with (length pre) by lia.
    now rewrite skipn_app, Nat.sub_diag, skipn_all.
Qed.

Definition wf_zoneb (z : zone) : bool :=
  let ns := z_names z in
  let ap := z_apex z in
  inb ap ns &&
  forallb (fun n => raw_name_eqb (lower_name n) n && in_zoneb z n) ns &&
  forallb (fun n => raw_name_eqb n ap || match n with [] => false | _ :: p => inb p ns end) ns &&
  forallb (fun a => forallb (fun b => negb (raw_name_eqb (fst a) (fst b)) || list_eqb N.eqb (snd a) (snd b))
                            (z_nodes z)) (z_nodes z).

Lemma wf_zoneb_ok z : wf_zoneb z = true -> wf_zone z.
Proof.
  unfold wf_zoneb. cbv zeta. rewrite !andb_true_iff. intros [[[Hap Hsuf] Hcl] Hnd].
  rewrite forallb_forall in Hsuf, Hcl, Hnd. split; [now apply inb_In|]. split; [|split].
  - intros n Hn. specialize (Hsuf n Hn). now rewrite andb_true_iff, raw_name_eqb_eq, in_zoneb_iff in Hsuf.
  - intros l n Hin Hne. specialize (Hcl _ Hin). apply orb_true_iff in Hcl.
    destruct Hcl as [E%raw_name_eqb_eq|E]; [contradiction|now apply inb_In].
  - intros n t1 t2 H1 H2. specialize (Hnd _ H1). rewrite forallb_forall in Hnd. specialize (Hnd _ H2).
    cbn [fst snd] in Hnd. rewrite (proj2 (raw_name_eqb_eq n n) eq_refl) in Hnd. now apply bytes_eqb_eq.
Qed.

Definition rfc_coversb (o nx t : list byte) : bool :=
  if is_lt (bytes_cmp o nx)
  then is_lt (bytes_cmp o t) && is_lt (bytes_cmp t nx)
  else is_lt (bytes_cmp o t) || is_lt (bytes_cmp t nx).

Lemma is_lt_iff c : is_lt c = true <-> c = Lt.
Proof. destruct c; cbn; split; congruence. Qed.

Lemma rfc_coversb_iff o nx t : rfc_coversb o nx t = true <-> rfc_covers o nx t.
Proof.
  unfold rfc_coversb, rfc_covers. rewrite <- !is_lt_iff.
  destruct (is_lt (bytes_cmp o nx)); [rewrite andb_true_iff|rewrite orb_true_iff]; intuition congruence.
Qed.

Section Dec.
  Variable h : name -> list byte.

  Definition genuineb (z : zone) (salt : list byte) (iter : N) (r : nsec3) : bool :=
    match n3_owner r with
    | [] => false
    | l :: base =>
        existsb (fun nd => label_eqb l (b32 (h (fst nd))) && list_eqb N.eqb (n3_types r) (snd nd) &&
                           forallb (fun m => negb (rfc_coversb (h (fst nd)) (n3_next r) (h m))) (z_names z))
                (z_nodes z) &&
        name_eqb base (z_apex z) && (n3_alg r =? 1) && bytes_eqb (n3_salt r) salt && (n3_iter r =? iter) &&
        existsb (fun n' => bytes_eqb (n3_next r) (h n')) (z_names z)
    end.

  Lemma genuineb_ok z salt iter r : genuineb z salt iter r = true -> genuine h z salt iter r.
  Proof.
    unfold genuineb. destruct (n3_owner r) as [|l base] eqn:Eo; [discriminate|].
    rewrite !andb_true_iff, !N.eqb_eq, bytes_eqb_eq. intros [[[[[Hex Hb] Ha] Hs] Hi] Hn].
    apply existsb_exists in Hex. destruct Hex as ([n ts] & Hin & Hx). cbn [fst snd] in Hx.
    rewrite !andb_true_iff, bytes_eqb_eq in Hx. destruct Hx as [[Hl Ht] Hgap].
    apply existsb_exists in Hn. destruct Hn as (n' & Hn' & En'%bytes_eqb_eq).
    exists n, ts, l, base. repeat split; try assumption; [now exists n'|].
    intros m Hm Hc. rewrite forallb_forall in Hgap. specialize (Hgap m Hm).
    apply negb_true_iff in Hgap. apply rfc_coversb_iff in Hc. congruence.
  Qed.

  Definition collision_freeb (ns : list name) : bool :=
    let ds := map (fun a => (a, h a)) ns in
    forallb (fun x => forallb (fun y => negb (bytes_eqb (snd x) (snd y)) || raw_name_eqb (fst x) (fst y)) ds) ds.

  Lemma collision_freeb_ok ns : collision_freeb ns = true -> collision_free h ns.
  Proof.
    unfold collision_freeb, collision_free. cbv zeta. intros Hf a b Ha Hb E. rewrite forallb_forall in Hf.
    specialize (Hf _ (in_map (fun a => (a, h a)) _ _ Ha)). rewrite forallb_forall in Hf.
    specialize (Hf _ (in_map (fun a => (a, h a)) _ _ Hb)). cbn [fst snd] in Hf.
    rewrite (proj2 (bytes_eqb_eq _ _) E) in Hf. now apply raw_name_eqb_eq.
  Qed.
End Dec.

Definition table_okb (tbl : list (name * list byte)) : bool :=
  forallb (fun e => (length (snd e) =? 20)%nat && forallb (fun b => b <? 256) (snd e)) tbl.

Lemma table_hash_ok tbl salt iter : table_okb tbl = true -> hash_ok (Htab tbl salt iter).
Proof.
  intros Hok n. unfold Htab. destruct (find _ tbl) as [e|] eqn:Ef.
  - apply find_some in Ef. destruct Ef as [Hin _]. unfold table_okb in Hok. rewrite forallb_forall in Hok.
    specialize (Hok e Hin). apply andb_true_iff in Hok. destruct Hok as [Hl Hb].
    split; [now apply Nat.eqb_eq|]. exact (proj1 (forallb_Forall _ _ _ (fun b => N.ltb_lt b 256)) Hb).
  - split; [reflexivity|]. unfold zeros20. apply Forall_forall. intros b Hb. apply repeat_spec in Hb. subst. lia.
Qed.

(* the hypotheses the soundness theorems share, for a table hash, as one test *)
Lemma witness_ok tbl z salt iter rs q :
  let h := Htab tbl salt iter in
  table_okb tbl && wf_zoneb z && forallb (genuineb h z salt iter) rs &&
  collision_freeb h (z_names z ++ relevant (lower_name q)) = true ->
  hash_ok h /\ wf_zone z /\ Forall (genuine h z salt iter) rs /\
  collision_free h (z_names z ++ relevant (lower_name q)).
Proof.
  intros h. rewrite !andb_true_iff. intros [[[Ht Hz] Hg] Hc].
  split; [now apply table_hash_ok|]. split; [now apply wf_zoneb_ok|].
  split; [revert Hg; apply forallb_Forall_impl, genuineb_ok|now apply collision_freeb_ok].
Qed.

(* boolean tests implied by the claims: necessary conditions only, which is what a refutation needs *)

Definition encloserb (z : zone) (q : name) (k : nat) : bool :=
  (k <=? length q)%nat && inb (skipn k q) (z_names z) &&
  forallb (fun j => negb (inb (skipn j q) (z_names z))) (seq 0 k).

Lemma absent_b z q k :
  (forall j, (j < k)%nat -> ~ In (skipn j q) (z_names z)) ->
  forallb (fun j => negb (inb (skipn j q) (z_names z))) (seq 0 k) = true.
Proof.
  intros Hall. apply forallb_forall. intros j Hj. apply in_seq in Hj. apply negb_true_iff, inb_false, Hall. lia.
Qed.

Lemma encloser_b z q k : encloser z q k -> encloserb z q k = true.
Proof.
  intros (Hk & Hin & Hall). unfold encloserb. rewrite !andb_true_iff. repeat split.
  - now apply Nat.leb_le.
  - now apply inb_In.
  - now apply absent_b.
Qed.

Definition nx_claimb (z : zone) (q : name) : bool :=
  existsb (fun k => encloserb z q k && negb (inb (star (skipn k q)) (z_names z))) (seq 1 (length q)).

Lemma nx_claim_b z q : nx_claim z q -> nx_claimb z q = true.
Proof.
  intros (k & Hk & Henc & Hw). unfold nx_claimb. apply existsb_exists. exists k. split.
  - apply in_seq. destruct Henc as (Hle & _). lia.
  - rewrite (encloser_b _ _ _ Henc). cbn. now apply negb_true_iff, inb_false.
Qed.

Lemma existsb_eqb_false t (ts : list N) : existsb (N.eqb t) ts = false <-> ~ In t ts.
Proof. now rewrite <- not_true_iff_false, (existsb_eqb_in N.eqb N.eqb_eq). Qed.

Definition lacksb (ts : list N) (t : N) : bool := negb (existsb (N.eqb t) ts).
Lemma lacks_b ts t : lacks ts t -> lacksb ts t = true.
Proof. intros Hn. now apply negb_true_iff, existsb_eqb_false. Qed.

Definition node_lacksb (z : zone) (n : name) (qtype : N) : bool :=
  existsb (fun nd => raw_name_eqb (fst nd) n && lacksb (snd nd) qtype && lacksb (snd nd) T_CNAME) (z_nodes z).

Lemma node_lacks_b z n qtype ts :
  In (n, ts) (z_nodes z) -> lacks ts qtype -> lacks ts T_CNAME -> node_lacksb z n qtype = true.
Proof.
  intros Hin H1 H2. apply existsb_exists. exists (n, ts). split; [exact Hin|]. cbn [fst snd].
  now rewrite (proj2 (raw_name_eqb_eq n n) eq_refl), (lacks_b _ _ H1), (lacks_b _ _ H2).
Qed.

Definition nodata_claimb (z : zone) (q : name) (qtype : N) : bool :=
  node_lacksb z q qtype ||
  existsb (fun k => encloserb z q k && node_lacksb z (star (skipn k q)) qtype) (seq 1 (length q)).

Lemma nodata_claim_b z q qtype : nodata_claim z q qtype -> nodata_claimb z q qtype = true.
Proof.
  unfold nodata_claimb. intros [(ts & Hin & H1 & H2)|(k & ts & Hk & Henc & Hin & H1 & H2)]; apply orb_true_iff.
  - left. exact (node_lacks_b _ _ _ _ Hin H1 H2).
  - right. apply existsb_exists. exists k. split.
    + apply in_seq. destruct Henc as (Hle & _). lia.
    + now rewrite (encloser_b _ _ _ Henc), (node_lacks_b _ _ _ _ Hin H1 H2).
Qed.

Definition wildcard_answer_claimb (z : zone) (q : name) (w : nat) : bool :=
  (w <? length q)%nat && in_zoneb z (skipn (length q - S w) q) &&
  forallb (fun j => negb (inb (skipn j q) (z_names z))) (seq 0 (S (length q - S w))).

Lemma wildcard_answer_claim_b z q w : wildcard_answer_claim z q w -> wildcard_answer_claimb z q w = true.
Proof.
  intros (Hw & Hz & Hall). unfold wildcard_answer_claimb. rewrite !andb_true_iff. repeat split.
  - now apply Nat.ltb_lt.
  - now apply in_zoneb_iff.
  - apply absent_b. intros j Hj. apply Hall. lia.
Qed.

(* C09 — the validators in terms of the two questions they put to the record list: which record
   matches, and which is the first to cover, the digest of a name ([match_of], [cover_of]).
   What closest_encloser_proof_with_wildcard returns and when ([ce_view]); exactly which record
   lists make the name-error branch answer Secure ([nx_secure_iff]); what a Secure verdict of
   each NOERROR branch implies ([nodata_shape]).  Purely about the model; no zone involved. *)
From HV Require Import Lib.Base C09.Model C09.B32Proofs C09.SpecDec C09.CoverProofs.
Open Scope N_scope.

Section Shape.
  Variable H : list byte -> N -> name -> list byte.
  Variable WC : label -> label -> list byte -> list byte -> bool.

  Notation hashn := (hashn H).
  Notation mk_info := (mk_info H).

  Definition lbl (cx : ctx) (n : name) : label := b32 (hashn cx n).
  Definition cover_of (cx : ctx) (n : name) : option pair :=
    find_cover WC (c_pairs cx) (hashn cx n) (lbl cx n).
  Definition match_of (cx : ctx) (n : name) : option pair := find_match (c_pairs cx) (lbl cx n).

  Lemma find_match_info cx n : find_match (c_pairs cx) (hi_label (mk_info cx n)) = match_of cx n.
  Proof. reflexivity. Qed.
  Lemma find_cover_info cx n :
    find_cover WC (c_pairs cx) (hi_hash (mk_info cx n)) (hi_label (mk_info cx n)) = cover_of cx n.
  Proof. reflexivity. Qed.
  Lemma existsb_match_info cx n :
    existsb (fun p => label_eqb (fst p) (hi_label (mk_info cx n))) (c_pairs cx) = is_some (match_of cx n).
  Proof. apply existsb_find. Qed.

  Lemma candidates_seq cx cs :
    candidates cx = Some cs ->
    exists n, (n <= S (length (c_qname cx)))%nat /\ cs = map (fun j => skipn j (c_qname cx)) (seq 0 n).
  Proof.
    unfold candidates. intros E.
    destruct (c_soa cx) as [s|].
    - destruct (zone_of s (c_qname cx)).
      + destruct (is_root s && _); [discriminate|]. injection E as <-. exact (cand_loop_seq s _ _).
      + injection E as <-. exists 0%nat. split; [lia|reflexivity].
    - injection E as <-. exists 0%nat. split; [lia|reflexivity].
  Qed.

  (* The two searches of closest_encloser_proof over the candidates [g i], ..., [g (i + n - 1)]:
     find_map stops at the first one some record matches, find_idx then looks that candidate up
     again by the record's label, and finds the same one. *)
  Lemma ce_search ps (g : nat -> hinfo) : forall n i,
    let f := fun j => find_match ps (hi_label (g j)) in
    match find_map (fun c => find_match ps (hi_label c)) (map g (seq i n)) with
    | None => forall j, (i <= j < i + n)%nat -> f j = None
    | Some mrec =>
        exists k, (i <= k < i + n)%nat /\ (forall j, (i <= j < k)%nat -> f j = None) /\ f k = Some mrec /\
          find_idx (fun c => label_eqb (hi_label c) (fst mrec)) i (map g (seq i n)) = Some k
    end.
  Proof.
    induction n as [|n IH]; intros i f; cbn [seq map find_map find_idx]; [lia|].
    fold (f i). destruct (f i) as [p|] eqn:E.
    - exists i. destruct (find_some _ _ E) as [_ Hl]. rewrite label_eqb_sym, Hl.
      split; [lia|]. split; [lia|]. now split.
    - specialize (IH (S i)). cbv zeta in IH. destruct (find_map _ _) as [mrec|].
      + destruct IH as (k & Hk & Hno & Hm & Hi). exists k. destruct (find_some _ _ Hm) as [Hin _].
        (* candidate i does not bear mrec's label, or mrec would have matched it *)
        rewrite label_eqb_sym, (find_none _ _ E mrec Hin), Hi. split; [lia|]. split; [|now split].
        intros j Hj. destruct (Nat.eq_dec j i) as [->|]; [exact E|apply Hno; lia].
      + intros j Hj. destruct (Nat.eq_dec j i) as [->|]; [exact E|apply IH; lia].
  Qed.

  (* closest_encloser_proof_with_wildcard once QNAME itself is known to be unmatched (both
     validators test that first): the closest encloser is the first proper ancestor among the
     candidates that some record matches.  Without one all three components are None, so the
     arms [None, Some _, Some _] of the two validators are dead. *)
  Inductive ce_view (cx : ctx) (m : bool) : option (ceinfo * option (hinfo * pair)) -> Prop :=
  | CePanic : candidates cx = None -> ce_view cx m None
  | CeNone cs :
      candidates cx = Some cs ->
      (forall j, (j < length cs)%nat -> match_of cx (skipn j (c_qname cx)) = None) ->
      ce_view cx m (Some ((None, None), None))
  | CeAt cs k mrec :
      candidates cx = Some cs -> (1 <= k < length cs)%nat ->
      (forall j, (j < k)%nat -> match_of cx (skipn j (c_qname cx)) = None) ->
      match_of cx (skipn k (c_qname cx)) = Some mrec ->
      let with_info n := option_map (fun r : pair => (mk_info cx n, r)) in
      ce_view cx m
        (Some ((Some (mk_info cx (skipn k (c_qname cx)), mrec),
                with_info (skipn (k - 1) (c_qname cx)) (cover_of cx (skipn (k - 1) (c_qname cx)))),
               match prepend_star (skipn k (c_qname cx)) with
               | None => None
               | Some wn => with_info wn (if m then match_of cx wn else cover_of cx wn)
               end)).

  Lemma ce_proof_wc_view cx m :
    match_of cx (c_qname cx) = None -> ce_view cx m (ce_proof_wc H WC cx m).
  Proof.
    intros Hq. unfold ce_proof_wc, ce_proof. destruct (candidates cx) as [cs|] eqn:Ecs; [|now apply CePanic].
    destruct (candidates_seq cx cs Ecs) as (n & _ & ->). cbv zeta. rewrite map_map.
    set (g := fun j => mk_info cx (skipn j (c_qname cx))).
    destruct n as [|n]; cbn [seq map find_map tl].
    { apply (CeNone cx m _ Ecs). cbn. lia. }
    change (find_match (c_pairs cx) (hi_label (g 0%nat))) with (match_of cx (c_qname cx)). rewrite Hq.
    pose proof (ce_search (c_pairs cx) g n 1) as Hs. cbv zeta in Hs.
    destruct (find_map _ (map g (seq 1 n))) as [mrec|].
    - destruct Hs as (k & Hk & Hno & Hm & ->). cbn [fst].
      change (g 0%nat :: map g (seq 1 n)) with (map g (seq 0 (S n))). rewrite !nth_map_seq by lia.
      assert (forall j, (j < k)%nat -> match_of cx (skipn j (c_qname cx)) = None) as Hno'
        by (intros [|j] Hj; [exact Hq|apply Hno; lia]).
      pose proof (fun Hlt => CeAt cx m _ k mrec Ecs Hlt Hno' Hm) as V. cbv zeta in V.
      specialize (V ltac:(rewrite map_length, seq_length; lia)). revert V.
      (* the model has the match on prepend_star around the result, the view inside its last component *)
      change (hi_name (g k)) with (skipn k (c_qname cx)). destruct (prepend_star _); intros V; exact V.
    - apply (CeNone cx m _ Ecs). intros [|j] Hj; [exact Hq|apply Hs; rewrite map_length, seq_length in Hj; lia].
  Qed.

  (* the closest-encloser proof the verdicts rest on: the candidate [k] is matched and none
     before it, the one before it is covered *)
  Definition ce_at (cx : ctx) (cs : list name) (k : nat) (mrec ncr : pair) : Prop :=
    candidates cx = Some cs /\ (1 <= k < length cs)%nat /\
    (forall j, (j < k)%nat -> match_of cx (skipn j (c_qname cx)) = None) /\
    match_of cx (skipn k (c_qname cx)) = Some mrec /\
    cover_of cx (skipn (k - 1) (c_qname cx)) = Some ncr.

  Lemma enc_len_skipn k n : (enc_len (skipn k n) <= enc_len n)%nat.
  Proof.
    unfold enc_len. revert k; induction n as [|l n IH]; intros k; [now rewrite skipn_nil|].
    destruct k as [|k]; cbn [skipn fold_right]; [lia|]. specialize (IH k). lia.
  Qed.

  (* + 2: room for the "*" label *)
  Lemma nx_secure_iff cx :
    validate_nxdomain H WC cx = R Secure <->
    exists cs k mrec ncr wcr, ce_at cx cs k mrec ncr /\
      (enc_len (skipn k (c_qname cx)) + 2 <= 255)%nat /\ cover_of cx (star (skipn k (c_qname cx))) = Some wcr.
  Proof.
    unfold validate_nxdomain. cbn zeta. rewrite existsb_match_info. split.
    - destruct (match_of cx (c_qname cx)) eqn:Hq; [discriminate|]. cbn [is_some].
      destruct (ce_proof_wc_view cx false Hq) as [Ec|cs Ec Hnone|cs k mrec Ec Hk Hno Hm]; try discriminate.
      unfold prepend_star, star.
      destruct (cover_of cx (skipn (k - 1) (c_qname cx))) as [ncr|] eqn:Enc; [|discriminate].
      destruct (Nat.ltb_spec 255 (enc_len (skipn k (c_qname cx)) + 2)); [discriminate|].
      destruct (cover_of cx ([42] :: skipn k (c_qname cx))) as [wcr|] eqn:Ewc; [|discriminate].
      intros _. exists cs, k, mrec, ncr, wcr. now repeat split.
    - intros (cs & k & mrec & ncr & wcr & (Ec & Hk & Hno & Hm & Hnc) & Hlen & Hwc).
      pose proof (Hno 0%nat ltac:(lia)) as Hq. cbn [skipn] in Hq. rewrite Hq. cbn [is_some].
      destruct (ce_proof_wc_view cx false Hq) as [Ec'|cs' Ec' Hnone|cs' k' mrec' Ec' Hk' Hno' Hm'];
        [congruence|replace cs' with cs in * by congruence; now rewrite Hnone in Hm by lia|].
      (* both are the first matched candidate *)
      assert (k' = k) as ->.
      { destruct (Nat.lt_total k' k) as [Hlt|[E|Hlt]].
        - rewrite (Hno k' Hlt) in Hm'. discriminate.
        - exact E.
        - rewrite (Hno' k Hlt) in Hm. discriminate. }
      unfold prepend_star. rewrite Hnc. destruct (Nat.ltb_spec 255 (enc_len (skipn k (c_qname cx)) + 2)); [lia|].
      unfold star in Hwc. now rewrite Hwc.
  Qed.

  Lemma has_type_false r t : has_type r t = false <-> ~ In t (n3_types r).
  Proof. apply existsb_eqb_false. Qed.

  Inductive nodata_shape (qtype : N) (wl : option N) (cx : ctx) : Prop :=
  | NdMatch qr :                                             (* case 2 *)
      match_of cx (c_qname cx) = Some qr ->
      ~ In qtype (n3_types (snd qr)) -> ~ In T_CNAME (n3_types (snd qr)) -> nodata_shape qtype wl cx
  | NdOptOut p :                                             (* case 3 *)
      match_of cx (c_qname cx) = None -> qtype = T_DS ->
      cover_of cx (c_qname cx) = Some p -> n3_optout (snd p) = true -> nodata_shape qtype wl cx
  | NdWildAnswer w p :                                       (* case 4 *)
      match_of cx (c_qname cx) = None -> wl = Some w -> w < num_labels (c_qname cx) ->
      cover_of cx (last_labels (S (N.to_nat w)) (c_qname cx)) = Some p -> nodata_shape qtype wl cx
  | NdWildNodata cs k mrec ncr wr :                          (* case 5, all three found *)
      match_of cx (c_qname cx) = None -> wl = None -> ce_at cx cs k mrec ncr ->
      match_of cx (star (skipn k (c_qname cx))) = Some wr ->
      ~ In qtype (n3_types (snd wr)) -> ~ In T_CNAME (n3_types (snd wr)) -> nodata_shape qtype wl cx
  | NdApexArm :                                              (* case 5, none found *)
      match_of cx (c_qname cx) = None -> wl = None ->
      soa_is cx (c_qname cx) = true -> nodata_shape qtype wl cx.

  Lemma validate_nodata_shape qtype wl cx :
    validate_nodata H WC qtype wl cx = R Secure -> nodata_shape qtype wl cx.
  Proof.
    unfold validate_nodata. cbn zeta. rewrite find_match_info, find_cover_info.
    destruct (match_of cx (c_qname cx)) as [qr|] eqn:Eq.
    { destruct (has_type (snd qr) qtype) eqn:E1; [discriminate|].
      destruct (has_type (snd qr) T_CNAME) eqn:E2; [discriminate|]. intros _.
      apply has_type_false in E1, E2. eapply NdMatch; eauto. }
    destruct ((qtype =? T_DS) && match cover_of cx (c_qname cx) with Some p => n3_optout (snd p) | None => false end) eqn:E3.
    { intros _. apply andb_true_iff in E3. destruct E3 as [Eds Eoo]. apply N.eqb_eq in Eds.
      destruct (cover_of cx (c_qname cx)) as [p|] eqn:Ec; [|discriminate].
      eapply NdOptOut; eauto. }
    destruct wl as [w|].
    { destruct (num_labels (c_qname cx) <=? w) eqn:El; [discriminate|]. apply N.leb_gt in El.
      rewrite find_cover_info.
      destruct (cover_of cx (last_labels (S (N.to_nat w)) (c_qname cx))) as [p|] eqn:Ec; [|discriminate].
      intros _. eapply NdWildAnswer; eauto. }
    destruct (ce_proof_wc_view cx true Eq) as [Ec|cs Ec Hnone|cs k mrec Ec Hk Hno Hm]; cbv zeta; [discriminate| |].
    { destruct (soa_is cx (c_qname cx)) eqn:Es; [|discriminate]. intros _. now apply NdApexArm. }
    unfold prepend_star.
    destruct (cover_of cx (skipn (k - 1) (c_qname cx))) as [ncr|] eqn:Enc; [|discriminate].
    destruct (255 <? _)%nat; [discriminate|].
    destruct (match_of cx ([42] :: skipn k (c_qname cx))) as [wr|] eqn:Ewr; [|discriminate].
    cbn [with_info option_map snd].
    destruct (has_type (snd wr) qtype) eqn:E1; [discriminate|].
    destruct (has_type (snd wr) T_CNAME) eqn:E2; [discriminate|]. apply has_type_false in E1, E2. intros _.
    now apply (NdWildNodata qtype None cx cs k mrec ncr wr).
  Qed.
End Shape.

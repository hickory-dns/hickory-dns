(* C09 — property theorems, with the two guard classes that are not in Model.v and the toy inputs
   of the small Examples; proofs are short applications of lemmas from the *Proofs.v files.  Every
   theorem quantifies over the hash function [H] (SHA-1 is not modelled), all queries, record
   lists, answers, limits and — for the soundness theorems — all well-formed zones.

   [verify_nsec3 H] is the model of the code as it is ([verify_nsec3_gen H wrap_covers] with
   [wrap_covers := wrap_covers_v0]); theorems about [verify_nsec3_gen H wrap_covers_rfc] say what
   holds once the wrap-around arm of find_covering_record is RFC 5155's.

   Soundness is stated against the zone as its NSEC3 chain sees it ([zone], [genuine]), modulo
   digest collisions ([collision_free]).  Where the faithful model violates the property there is
   a [_refuted] theorem (a witness found by the harness on the real code, with real SHA-1
   digests, in Witness.v) and a [_guarded] theorem whose guard is the known-finding class. *)
From HV Require Import Lib.Base C09.Model C09.LimitProofs C09.B32Proofs C09.CoverProofs C09.ShapeProofs
  C09.SoundProofs C09.SpecDec C09.Witness C09.OptOutProofs C09.CompleteProofs.
Open Scope N_scope.

(* a toy hash for the small Examples *)
Definition exH0 : list byte -> N -> name -> list byte := fun _ _ _ => repeat 7 20.

(* RFC 9276 3.2: any NSEC3 record with an iteration count above the hard limit makes the
   verdict Bogus. *)
Theorem C09_iterations_over_hard_bogus :
  forall H qname qtype soa rcode answers rs soft hard,
    rs <> [] -> Exists (fun r => hard < n3_iter r) rs ->
    verify_nsec3 H qname qtype soa rcode answers rs soft hard = R Bogus.
Proof. intros. now apply over_hard_bogus. Qed.
Print Assumptions C09_iterations_over_hard_bogus.

(* Any NSEC3 record with an iteration count above the soft limit: never Secure. *)
Theorem C09_iterations_over_soft_never_secure :
  forall H qname qtype soa rcode answers rs soft hard,
    Exists (fun r => soft < n3_iter r) rs ->
    verify_nsec3 H qname qtype soa rcode answers rs soft hard <> R Secure.
Proof. intros. now apply over_soft_not_secure. Qed.
Print Assumptions C09_iterations_over_soft_never_secure.

(* A record set that passes the name and parameter checks and whose iteration count lies in
   (soft, hard] is Insecure, whatever else the response contains. *)
Theorem C09_iterations_between_limits_insecure :
  forall H qname qtype soa rcode answers first rs soft hard ps,
    mk_pairs soa (first :: rs) = Some ps ->
    forallb (same_params first) (first :: rs) = true ->
    soft < n3_iter first <= hard ->
    verify_nsec3 H qname qtype soa rcode answers (first :: rs) soft hard = R Insecure.
Proof. intros. eapply between_limits_insecure; eassumption. Qed.
Print Assumptions C09_iterations_between_limits_insecure.

(* RFC 5155 8.2: Secure or Insecure only if all records share algorithm, salt and iterations, every owner
   name is <label>.<base> with a 1..63-byte label, and — when the response carries an SOA —
   every base is the SOA's owner name. *)
Theorem C09_params_and_zone :
  forall H qname qtype soa rcode answers rs soft hard p,
    verify_nsec3 H qname qtype soa rcode answers rs soft hard = R p -> p <> Bogus ->
    (forall a b, In a rs -> In b rs ->
       n3_alg a = n3_alg b /\ n3_salt a = n3_salt b /\ n3_iter a = n3_iter b) /\
    Forall (owner_ok soa) rs.
Proof.
  intros H qname qtype soa rcode answers rs soft hard p Hv Hp.
  apply not_bogus_sane in Hv as (first & rs' & ps & -> & Hm & Hf & _); [|exact Hp].
  split; [|now apply mk_pairs_some in Hm].
  intros a b Ha Hb. destruct (same_params_in _ _ a Hf Ha) as (A1 & A2 & A3), (same_params_in _ _ b Hf Hb) as (B1 & B2 & B3).
  repeat split; congruence.
Qed.
Print Assumptions C09_params_and_zone.

(* The model's base32hex encoder preserves order and is injective on digests of SHA-1 length:
   the code's mix of label comparisons and raw-digest comparisons is one order. *)
Theorem C09_base32hex_order :
  forall a b, bytes_ok a -> bytes_ok b -> length a = 20%nat -> length b = 20%nat ->
    label_cmp (b32 a) (b32 b) = bytes_cmp a b /\ (label_eqb (b32 a) (b32 b) = true -> a = b).
Proof.
  intros a b Ha Hb La Lb. split; [now apply (b32_cmp a b 4)|now apply (b32_eqb a b 4)].
Qed.
Print Assumptions C09_base32hex_order.

(* With RFC 5155's wrap-around arm, a genuine record that the covering test accepts for the
   digest of t covers it in the sense of RFC 5155 (last record of the chain included), and t is
   not a name of the zone. *)
Theorem C09_covering_is_rfc_interval_rfcwrap :
  forall h z salt iter r t,
    hash_ok h -> genuine h z salt iter r ->
    covers1 wrap_covers_rfc (h t) (b32 (h t)) (pair_of r) = true ->
    (exists n, In n (z_names z) /\ label_eqb (hd [] (n3_owner r)) (b32 (h n)) = true /\
               rfc_covers (h n) (n3_next r) (h t)) /\
    ~ In t (z_names z).
Proof.
  intros h z salt iter r t Hh Hg Hc.
  apply genuine_gpair in Hg.
  split; [exact (covers_rfc h Hh z _ t Hg Hc)|exact (covered_absent h Hh z _ t Hg Hc)].
Qed.
Print Assumptions C09_covering_is_rfc_interval_rfcwrap.

(* RFC 5155 8.4.  Secure NXDOMAIN from genuine records: QNAME does not exist, its closest
   encloser is in the zone and the wildcard at the closest encloser does not exist — outside the class of the
   wrap-around defect. *)
Theorem C09_nxdomain_sound_guarded :
  forall H z salt iter qname qtype soa answers rs soft hard,
    let h := H salt iter in
    hash_ok h -> wf_zone z -> Forall (genuine h z salt iter) rs ->
    collision_free h (z_names z ++ relevant (lower_name qname)) ->
    known_wrap_encloser h wrap_covers (map pair_of rs) true (lower_name qname) = false ->
    verify_nsec3 H qname qtype soa 3 answers rs soft hard = R Secure ->
    nx_claim z (lower_name qname).
Proof. intros. eapply nx_sound; eassumption. Qed.
Print Assumptions C09_nxdomain_sound_guarded.

(* The same, unguarded, for the RFC wrap-around arm. *)
Theorem C09_nxdomain_sound_rfcwrap :
  forall H z salt iter qname qtype soa answers rs soft hard,
    let h := H salt iter in
    hash_ok h -> wf_zone z -> Forall (genuine h z salt iter) rs ->
    collision_free h (z_names z ++ relevant (lower_name qname)) ->
    verify_nsec3_gen H wrap_covers_rfc qname qtype soa 3 answers rs soft hard = R Secure ->
    nx_claim z (lower_name qname).
Proof. intros. eapply nx_sound; try eassumption. apply known_wrap_encloser_rfc. Qed.
Print Assumptions C09_nxdomain_sound_rfcwrap.

(* Refutation of the unguarded statement for the code as it is: the last NSEC3 of a chain covers
   everything.  Zone {z., *.z.}: NXDOMAIN for a.a.z. is Secure on the apex record alone although
   *.z. exists; with the RFC arm the same input is Bogus. *)
Theorem C09_nxdomain_wrap_refuted :
  exists H z salt iter qname qtype soa answers rs soft hard,
    (hash_ok (H salt iter) /\ wf_zone z /\ Forall (genuine (H salt iter) z salt iter) rs /\
     collision_free (H salt iter) (z_names z ++ relevant (lower_name qname))) /\
    verify_nsec3_gen H wrap_covers_v0 qname qtype soa 3 answers rs soft hard = R Secure /\
    ~ nx_claim z (lower_name qname) /\
    verify_nsec3_gen H wrap_covers_rfc qname qtype soa 3 answers rs soft hard = R Bogus.
Proof.
  exists WWrap.H, WWrap.z, WWrap.salt, WWrap.iter, WWrap.q, WWrap.qt, WWrap.soa, WWrap.answers,
         WWrap.recs, WWrap.soft, WWrap.hard.
  split; [apply witness_ok; vm_compute; reflexivity|]. split; [vm_compute; reflexivity|]. split; [|vm_compute; reflexivity].
  intros Hc. apply nx_claim_b in Hc. vm_compute in Hc. discriminate.
Qed.
Print Assumptions C09_nxdomain_wrap_refuted.

(* Completeness for name errors: the RFC 5155 7.2.2 proof taken from the zone's own chain — a
   record matching the closest encloser, a record whose RFC interval contains the next closer
   name and one whose interval contains the wildcard at the closest encloser — is accepted, in
   any order and with any other genuine records of the zone around it (iterations within the soft
   limit, SOA = apex and not the root (where encloser_candidates would panic), QNAME short enough
   for "*." to be prepended).  Holds for the code as it is
   and for the RFC wrap-around arm: both accept at least what RFC 5155 covers. *)
Theorem C09_nxdomain_complete :
  forall H z salt iter qname qtype answers rs soft hard k rce rnc rwc nnc nwc,
    let h := H salt iter in
    let lq := lower_name qname in
    hash_ok h -> wf_zone z -> rs <> [] -> Forall (genuine h z salt iter) rs ->
    collision_free h (z_names z ++ relevant lq) ->
    iter <= soft -> iter <= hard -> z_apex z <> [] -> (enc_len qname + 2 <= 255)%nat ->
    (1 <= k)%nat -> encloser z lq k -> ~ In (star (skipn k lq)) (z_names z) ->
    In rce rs -> label_eqb (hd [] (n3_owner rce)) (b32 (h (skipn k lq))) = true ->
    In rnc rs -> label_eqb (hd [] (n3_owner rnc)) (b32 (h nnc)) = true ->
    rfc_covers (h nnc) (n3_next rnc) (h (skipn (k - 1) lq)) ->
    In rwc rs -> label_eqb (hd [] (n3_owner rwc)) (b32 (h nwc)) = true ->
    rfc_covers (h nwc) (n3_next rwc) (h (star (skipn k lq))) ->
    verify_nsec3 H qname qtype (Some (z_apex z)) 3 answers rs soft hard = R Secure /\
    verify_nsec3_gen H wrap_covers_rfc qname qtype (Some (z_apex z)) 3 answers rs soft hard = R Secure.
Proof.
  intros H z salt iter qname qtype answers rs soft hard k rce rnc rwc nnc nwc h lq Hh Hz. intros.
  assert (forall WC, wrap_accepts h WC ->
            verify_nsec3_gen H WC qname qtype (Some (z_apex z)) 3 answers rs soft hard = R Secure) as Hall
    by (intros WC HWC; apply (nx_verify_complete H WC z salt iter Hh Hz HWC) with k rce rnc rwc nnc nwc; assumption).
  split; apply Hall; [exact (wrap_v0_accepts h Hh)|exact (wrap_rfc_accepts h Hh)].
Qed.
Print Assumptions C09_nxdomain_complete.

(* the class of the apex arm: QNAME is the SOA owner and no record matches it *)
Definition known_apex_arm (H : list byte -> N -> name -> list byte) (qname : name) (soa : option name)
           (rs : list nsec3) (salt : list byte) (iter : N) : Prop :=
  soa_is (mkCtx qname soa (map pair_of rs) salt iter) qname = true /\
  match_of H (mkCtx qname soa (map pair_of rs) salt iter) qname = None.

(* RFC 5155 8.5-8.7.  Secure NODATA (no RRSIG among the answers) from genuine records: QNAME
   exists without QTYPE and CNAME, or it does not exist and the wildcard at its closest encloser exists without them;
   for QTYPE DS the Opt-Out shortcut only yields that QNAME owns no NSEC3.  Guards: the apex arm
   and the wrap-around defect. *)
Theorem C09_nodata_sound_guarded :
  forall H z salt iter qname qtype soa answers rs soft hard,
    let h := H salt iter in
    hash_ok h -> wf_zone z -> Forall (genuine h z salt iter) rs ->
    collision_free h (z_names z ++ relevant (lower_name qname)) ->
    wildcard_labels answers = None ->
    ~ known_apex_arm H qname soa rs salt iter ->
    known_wrap_encloser h wrap_covers (map pair_of rs) false (lower_name qname) = false ->
    (qtype = T_DS -> right_cover h wrap_covers (map pair_of rs) (lower_name qname) = true) ->
    verify_nsec3 H qname qtype soa 0 answers rs soft hard = R Secure ->
    nodata_claim z (lower_name qname) qtype \/
    (qtype = T_DS /\ ~ In (lower_name qname) (z_names z)).
Proof. intros. eapply nodata_sound; eassumption. Qed.
Print Assumptions C09_nodata_sound_guarded.

(* Completeness for NODATA at an existing name: a genuine record matching QNAME whose node lacks
   QTYPE and CNAME is accepted, whatever other genuine records come with it. *)
Theorem C09_nodata_complete :
  forall H z salt iter qname qtype answers rs soft hard ts rq,
    let h := H salt iter in
    let lq := lower_name qname in
    hash_ok h -> wf_zone z -> rs <> [] -> Forall (genuine h z salt iter) rs ->
    collision_free h (z_names z ++ relevant lq) ->
    iter <= soft -> iter <= hard ->
    In (lq, ts) (z_nodes z) -> lacks ts qtype -> lacks ts T_CNAME ->
    In rq rs -> label_eqb (hd [] (n3_owner rq)) (b32 (h lq)) = true ->
    verify_nsec3 H qname qtype (Some (z_apex z)) 0 answers rs soft hard = R Secure.
Proof.
  intros H z salt iter qname qtype answers rs soft hard ts rq h lq Hh Hz Hne Hg Hcf Hs Hha Hnode Hl1 Hl2 Hrq Hlq.
  unfold verify_nsec3. rewrite (verify_genuine H _ z salt iter Hh) by assumption.
  eapply (nodata_complete H _ z salt iter); eassumption.
Qed.
Print Assumptions C09_nodata_complete.

(* With the RFC arm and QTYPE other than DS only the apex guard is left. *)
Theorem C09_nodata_sound_rfcwrap_guarded :
  forall H z salt iter qname qtype soa answers rs soft hard,
    let h := H salt iter in
    hash_ok h -> wf_zone z -> Forall (genuine h z salt iter) rs ->
    collision_free h (z_names z ++ relevant (lower_name qname)) ->
    wildcard_labels answers = None -> qtype <> T_DS ->
    ~ known_apex_arm H qname soa rs salt iter ->
    verify_nsec3_gen H wrap_covers_rfc qname qtype soa 0 answers rs soft hard = R Secure ->
    nodata_claim z (lower_name qname) qtype.
Proof.
  (* QTYPE is not DS: neither the hypothesis nor the disjunct of nodata_sound about DS applies *)
  intros. edestruct nodata_sound as [Hc|[E _]]; try eassumption; try contradiction.
  apply known_wrap_encloser_rfc.
Qed.
Print Assumptions C09_nodata_sound_rfcwrap_guarded.

(* Refutation without the apex guard (independent of the wrap-around arm): zone {z. (A NS SOA),
   a.z., c.a.z.}; NODATA for z. A is Secure on the NSEC3 of a.z. alone although z. has an A. *)
Theorem C09_nodata_apex_refuted :
  exists H z salt iter qname qtype soa answers rs soft hard,
    (hash_ok (H salt iter) /\ wf_zone z /\ Forall (genuine (H salt iter) z salt iter) rs /\
     collision_free (H salt iter) (z_names z ++ relevant (lower_name qname))) /\
    wildcard_labels answers = None /\ qtype <> T_DS /\
    verify_nsec3_gen H wrap_covers_v0 qname qtype soa 0 answers rs soft hard = R Secure /\
    verify_nsec3_gen H wrap_covers_rfc qname qtype soa 0 answers rs soft hard = R Secure /\
    ~ nodata_claim z (lower_name qname) qtype.
Proof.
  exists WApex.H, WApex.z, WApex.salt, WApex.iter, WApex.q, WApex.qt, WApex.soa, WApex.answers,
         WApex.recs, WApex.soft, WApex.hard.
  split; [apply witness_ok; vm_compute; reflexivity|]. split; [reflexivity|]. split; [vm_compute; discriminate|].
  split; [vm_compute; reflexivity|]. split; [vm_compute; reflexivity|].
  intros Hc. apply nodata_claim_b in Hc. vm_compute in Hc. discriminate.
Qed.
Print Assumptions C09_nodata_apex_refuted.

(* the class of the case-2/3 shortcut: a record matches QNAME, or QTYPE is DS and the first record
   covering QNAME has Opt-Out — the verdict is taken before the answers are looked at *)
Definition known_shortcut (H : list byte -> N -> name -> list byte)
           (WC : label -> label -> list byte -> list byte -> bool) (qname : name) (qtype : N)
           (soa : option name) (rs : list nsec3) (salt : list byte) (iter : N) : Prop :=
  let cx := mkCtx qname soa (map pair_of rs) salt iter in
  match_of H cx qname <> None \/
  (qtype = T_DS /\ exists p, cover_of H WC cx qname = Some p /\ n3_optout (snd p) = true).

(* RFC 5155 8.8.  Secure for an answer whose first RRSIG has w labels (w below QNAME's label
   count), from genuine records: the next closer name (w+1 labels) is inside the zone and neither it nor anything below
   it, QNAME included, exists.  Guards: the shortcut, the missing zone check (next closer name not
   in the records' zone) and the wrap-around defect. *)
Theorem C09_wildcard_answer_sound_guarded :
  forall H z salt iter qname qtype soa answers rs soft hard w,
    let h := H salt iter in
    let lq := lower_name qname in
    hash_ok h -> wf_zone z -> Forall (genuine h z salt iter) rs ->
    collision_free h (z_names z ++ relevant lq) ->
    wildcard_labels answers = Some w ->
    ~ known_shortcut H wrap_covers qname qtype soa rs salt iter ->
    in_zone z (skipn (length lq - S (N.to_nat w)) lq) ->
    right_cover h wrap_covers (map pair_of rs) (skipn (length lq - S (N.to_nat w)) lq) = true ->
    verify_nsec3 H qname qtype soa 0 answers rs soft hard = R Secure ->
    wildcard_answer_claim z lq (N.to_nat w).
Proof.
  intros. eapply wildcard_answer_sound; eassumption.
Qed.
Print Assumptions C09_wildcard_answer_sound_guarded.

(* With the RFC arm the cover guard goes. *)
Theorem C09_wildcard_answer_sound_rfcwrap_guarded :
  forall H z salt iter qname qtype soa answers rs soft hard w,
    let h := H salt iter in
    let lq := lower_name qname in
    hash_ok h -> wf_zone z -> Forall (genuine h z salt iter) rs ->
    collision_free h (z_names z ++ relevant lq) ->
    wildcard_labels answers = Some w ->
    ~ known_shortcut H wrap_covers_rfc qname qtype soa rs salt iter ->
    in_zone z (skipn (length lq - S (N.to_nat w)) lq) ->
    verify_nsec3_gen H wrap_covers_rfc qname qtype soa 0 answers rs soft hard = R Secure ->
    wildcard_answer_claim z lq (N.to_nat w).
Proof.
  intros. eapply wildcard_answer_sound; try eassumption. apply right_cover_rfc.
Qed.
Print Assumptions C09_wildcard_answer_sound_rfcwrap_guarded.

(* Refutation without the shortcut guard: zone {z., a.z., *.a.z.}; an answer for a.z. with RRSIG
   labels 1 (synthesised from *.z.) is Secure because an NSEC3 matches a.z. and lacks the type,
   although the matching record proves that a.z. exists. *)
Theorem C09_wildcard_answer_shortcut_refuted :
  exists H z salt iter qname qtype soa answers rs soft hard w,
    (hash_ok (H salt iter) /\ wf_zone z /\ Forall (genuine (H salt iter) z salt iter) rs /\
     collision_free (H salt iter) (z_names z ++ relevant (lower_name qname))) /\
    wildcard_labels answers = Some w /\
    in_zone z (skipn (length (lower_name qname) - S (N.to_nat w)) (lower_name qname)) /\
    verify_nsec3_gen H wrap_covers_v0 qname qtype soa 0 answers rs soft hard = R Secure /\
    verify_nsec3_gen H wrap_covers_rfc qname qtype soa 0 answers rs soft hard = R Secure /\
    ~ wildcard_answer_claim z (lower_name qname) (N.to_nat w).
Proof.
  exists WShort.H, WShort.z, WShort.salt, WShort.iter, WShort.q, WShort.qt, WShort.soa, WShort.answers,
         WShort.recs, WShort.soft, WShort.hard, 1.
  split; [apply witness_ok; vm_compute; reflexivity|]. split; [reflexivity|]. split; [exists [[97]]; reflexivity|].
  split; [vm_compute; reflexivity|]. split; [vm_compute; reflexivity|].
  intros Hc. apply wildcard_answer_claim_b in Hc. vm_compute in Hc. discriminate.
Qed.
Print Assumptions C09_wildcard_answer_shortcut_refuted.

(* Refutation without the zone guard: records of zone z. (SOA z.) make an answer for a.a.y. with
   RRSIG labels 1 Secure: nothing relates the records' zone to the query name. *)
Theorem C09_wildcard_answer_zone_refuted :
  exists H z salt iter qname qtype soa answers rs soft hard w,
    (hash_ok (H salt iter) /\ wf_zone z /\ Forall (genuine (H salt iter) z salt iter) rs /\
     collision_free (H salt iter) (z_names z ++ relevant (lower_name qname))) /\
    wildcard_labels answers = Some w /\
    ~ known_shortcut H wrap_covers_rfc qname qtype soa rs salt iter /\
    verify_nsec3_gen H wrap_covers_v0 qname qtype soa 0 answers rs soft hard = R Secure /\
    verify_nsec3_gen H wrap_covers_rfc qname qtype soa 0 answers rs soft hard = R Secure /\
    ~ in_zone z (skipn (length (lower_name qname) - S (N.to_nat w)) (lower_name qname)).
Proof.
  exists WZone.H, WZone.z, WZone.salt, WZone.iter, WZone.q, WZone.qt, WZone.soa, WZone.answers,
         WZone.recs, WZone.soft, WZone.hard, 1.
  split; [apply witness_ok; vm_compute; reflexivity|]. split; [reflexivity|]. split.
  { intros [Hm|[Hds _]]; [apply Hm; vm_compute; reflexivity|vm_compute in Hds; discriminate]. }
  split; [vm_compute; reflexivity|]. split; [vm_compute; reflexivity|].
  intros Hc. apply in_zoneb_iff in Hc. vm_compute in Hc. discriminate.
Qed.
Print Assumptions C09_wildcard_answer_zone_refuted.

(* RFC 5155 6, 8.6, "Opt-out only for DS": unless the response is NOERROR and QTYPE is DS, the
   verdict is the same for every assignment of the Opt-Out flags of the records.  (Read the other way round this is
   also the known finding C09-optout-cover-secure: a name error or wildcard proof whose covering
   records have Opt-Out is Secure although such records say nothing about unsigned delegations.) *)
Theorem C09_optout_consulted_only_for_ds :
  forall H (newflag : nsec3 -> bool) qname qtype soa rcode answers rs soft hard,
    qtype <> T_DS \/ rcode <> 0 ->
    verify_nsec3 H qname qtype soa rcode answers (map (reflag newflag) rs) soft hard =
    verify_nsec3 H qname qtype soa rcode answers rs soft hard.
Proof. intros. now apply optout_irrelevant. Qed.
Print Assumptions C09_optout_consulted_only_for_ds.

(* and for DS it is consulted: the same records with the flags cleared are not accepted
   (harness corpus W6: DS NODATA below a signed delegation "proved" by an Opt-Out cover alone) *)
Example C09_optout_ds_example :
  let rs := [mkN3 [[48; 49]; [122]] 1 true 0 [] (repeat 9 20) [1]] in
  verify_nsec3 exH0 [[97]; [122]] T_DS (Some [[122]]) 0 [] rs 5 10 = R Secure /\
  verify_nsec3 exH0 [[97]; [122]] T_DS (Some [[122]]) 0 [] (map (reflag (fun _ => false)) rs) 5 10 = R Bogus /\
  verify_nsec3 exH0 [[97]; [122]] 1 (Some [[122]]) 0 [] rs 5 10 = R Bogus.
Proof. vm_compute. auto. Qed.

(* RFC 5155 8.3, RFC 6840 4.1.  What the chain proves (the claims above) is a statement about
   the zone only where the zone is authoritative.  The code never looks at the NS/SOA/DNAME bits: the parent-side NSEC3 of the
   unsigned-or-signed delegation c.a.z. (types {NS}) "proves" NODATA for c.a.z. TXT. *)
Theorem C09_ancestor_delegation_refuted :
  exists H z salt iter qname qtype soa answers rs soft hard,
    (hash_ok (H salt iter) /\ wf_zone z /\ Forall (genuine (H salt iter) z salt iter) rs /\
     collision_free (H salt iter) (z_names z ++ relevant (lower_name qname))) /\
    wildcard_labels answers = None /\ qtype <> T_DS /\
    verify_nsec3_gen H wrap_covers_v0 qname qtype soa 0 answers rs soft hard = R Secure /\
    verify_nsec3_gen H wrap_covers_rfc qname qtype soa 0 answers rs soft hard = R Secure /\
    ~ authoritative z (lower_name qname) qtype.
Proof.
  exists WDeleg.H, WDeleg.z, WDeleg.salt, WDeleg.iter, WDeleg.q, WDeleg.qt, WDeleg.soa, WDeleg.answers,
         WDeleg.recs, WDeleg.soft, WDeleg.hard.
  split; [apply witness_ok; vm_compute; reflexivity|]. split; [reflexivity|]. split; [vm_compute; discriminate|].
  split; [vm_compute; reflexivity|]. split; [vm_compute; reflexivity|].
  intros [_ Ha]. specialize (Ha [2]). assert (WDeleg.qt = T_DS) as Hx; [|vm_compute in Hx; discriminate].
  apply Ha.
  - vm_compute. auto.
  - split; [vm_compute; auto|]. vm_compute. intros [E|[]]. discriminate.
Qed.
Print Assumptions C09_ancestor_delegation_refuted.

Definition exH : list byte -> N -> name -> list byte := fun _ _ _ => repeat 7 20.
Definition ex_rec (it : N) : nsec3 := mkN3 [[48; 49]; [122]] 1 false it [] (repeat 9 20) [1].

Example C09_limits_example :
  verify_nsec3 exH [[97]; [122]] 1 (Some [[122]]) 3 [] [ex_rec 11; ex_rec 11] 5 10 = R Bogus /\
  verify_nsec3 exH [[97]; [122]] 1 (Some [[122]]) 3 [] [ex_rec 7; ex_rec 7] 5 10 = R Insecure /\
  (exists ps, mk_pairs (Some [[122]]) [ex_rec 7; ex_rec 7] = Some ps) /\
  forallb (same_params (ex_rec 7)) [ex_rec 7; ex_rec 7] = true /\
  verify_nsec3 exH [[97]; [122]] 1 (Some [[122]]) 3 [] [ex_rec 7; ex_rec 8] 5 10 = R Bogus.
Proof. vm_compute. repeat split; try reflexivity. eexists; reflexivity. Qed.

(* the hypotheses of the guarded NXDOMAIN theorem hold on a real three-record proof
   (closest encloser c.z. matched, a.c.z. and *.c.z. covered, the chain's last record among them) *)
Example C09_nxdomain_example :
  let h := GNx.H GNx.salt GNx.iter in
  (hash_ok h /\ wf_zone GNx.z /\ Forall (genuine h GNx.z GNx.salt GNx.iter) GNx.recs /\
   collision_free h (z_names GNx.z ++ relevant (lower_name GNx.q))) /\
  known_wrap_encloser h wrap_covers (map pair_of GNx.recs) true (lower_name GNx.q) = false /\
  verify_nsec3 GNx.H GNx.q GNx.qt GNx.soa 3 GNx.answers GNx.recs GNx.soft GNx.hard = R Secure /\
  length GNx.recs = 3%nat /\ nx_claimb GNx.z (lower_name GNx.q) = true.
Proof. cbv zeta. split; [apply witness_ok; vm_compute; reflexivity|]. vm_compute. auto. Qed.

(* the hypotheses of the completeness theorem on the same proof: closest encloser c.z. (k = 1)
   matched by the first record, a.c.z. inside the interval of the record of a.z., *.c.z. inside the
   interval of the record of b.a.z. *)
Example C09_nxdomain_complete_example :
  let h := GNx.H GNx.salt GNx.iter in
  let lq := lower_name GNx.q in
  let rce := nth 0 GNx.recs (ex_rec 0) in
  let rnc := nth 1 GNx.recs (ex_rec 0) in
  let rwc := nth 2 GNx.recs (ex_rec 0) in
  GNx.soa = Some (z_apex GNx.z) /\ GNx.iter <= GNx.soft /\ GNx.iter <= GNx.hard /\
  encloserb GNx.z lq 1 = true /\ inb (star (skipn 1 lq)) (z_names GNx.z) = false /\
  label_eqb (hd [] (n3_owner rce)) (b32 (h (skipn 1 lq))) = true /\
  label_eqb (hd [] (n3_owner rnc)) (b32 (h [[97]; [122]])) = true /\
  rfc_coversb (h [[97]; [122]]) (n3_next rnc) (h (skipn 0 lq)) = true /\
  label_eqb (hd [] (n3_owner rwc)) (b32 (h [[98]; [97]; [122]])) = true /\
  rfc_coversb (h [[98]; [97]; [122]]) (n3_next rwc) (h (star (skipn 1 lq))) = true.
Proof. vm_compute. repeat split; try reflexivity; intros Hx; discriminate. Qed.

Example C09_nodata_example :
  let h := GNodata.H GNodata.salt GNodata.iter in
  (hash_ok h /\ wf_zone GNodata.z /\ Forall (genuine h GNodata.z GNodata.salt GNodata.iter) GNodata.recs /\
   collision_free h (z_names GNodata.z ++ relevant (lower_name GNodata.q))) /\
  wildcard_labels GNodata.answers = None /\
  ~ known_apex_arm GNodata.H GNodata.q GNodata.soa GNodata.recs GNodata.salt GNodata.iter /\
  known_wrap_encloser h wrap_covers (map pair_of GNodata.recs) false (lower_name GNodata.q) = false /\
  verify_nsec3 GNodata.H GNodata.q GNodata.qt GNodata.soa 0 GNodata.answers GNodata.recs GNodata.soft GNodata.hard = R Secure.
Proof.
  cbv zeta. split; [apply witness_ok; vm_compute; reflexivity|]. split; [reflexivity|]. split; [|vm_compute; auto].
  intros [Hs _]. vm_compute in Hs. discriminate.
Qed.

(* ... and those of the NODATA completeness theorem: the node of b.z. is (b.z., {A, RRSIG}), the
   query is for MX, the single record matches b.z. *)
Example C09_nodata_complete_example :
  let h := GNodata.H GNodata.salt GNodata.iter in
  let lq := lower_name GNodata.q in
  GNodata.soa = Some (z_apex GNodata.z) /\ In (lq, [1; 46]) (z_nodes GNodata.z) /\
  lacks [1; 46] GNodata.qt /\ lacks [1; 46] T_CNAME /\
  label_eqb (hd [] (n3_owner (nth 0 GNodata.recs (ex_rec 0)))) (b32 (h lq)) = true.
Proof.
  cbv zeta. split; [reflexivity|]. split; [vm_compute; auto|].
  split; [vm_compute; intuition discriminate|]. split; [vm_compute; intuition discriminate|].
  vm_compute. reflexivity.
Qed.

(* wildcard NODATA: closest encloser matched, next closer covered, wildcard matched without the type *)
Example C09_wildcard_nodata_example :
  let h := GWildNodata.H GWildNodata.salt GWildNodata.iter in
  (hash_ok h /\ wf_zone GWildNodata.z /\
   Forall (genuine h GWildNodata.z GWildNodata.salt GWildNodata.iter) GWildNodata.recs /\
   collision_free h (z_names GWildNodata.z ++ relevant (lower_name GWildNodata.q))) /\
  wildcard_labels GWildNodata.answers = None /\
  ~ known_apex_arm GWildNodata.H GWildNodata.q GWildNodata.soa GWildNodata.recs GWildNodata.salt GWildNodata.iter /\
  known_wrap_encloser h wrap_covers (map pair_of GWildNodata.recs) false (lower_name GWildNodata.q) = false /\
  verify_nsec3 GWildNodata.H GWildNodata.q GWildNodata.qt GWildNodata.soa 0 GWildNodata.answers
               GWildNodata.recs GWildNodata.soft GWildNodata.hard = R Secure /\
  length GWildNodata.recs = 3%nat.
Proof.
  cbv zeta. split; [apply witness_ok; vm_compute; reflexivity|]. split; [reflexivity|]. split; [|vm_compute; auto].
  intros [Hs _]. vm_compute in Hs. discriminate.
Qed.

Example C09_wildcard_answer_example :
  let h := GWild.H GWild.salt GWild.iter in
  let lq := lower_name GWild.q in
  (hash_ok h /\ wf_zone GWild.z /\ Forall (genuine h GWild.z GWild.salt GWild.iter) GWild.recs /\
   collision_free h (z_names GWild.z ++ relevant lq)) /\
  wildcard_labels GWild.answers = Some 1 /\
  ~ known_shortcut GWild.H wrap_covers GWild.q GWild.qt GWild.soa GWild.recs GWild.salt GWild.iter /\
  in_zone GWild.z (skipn (length lq - 2) lq) /\
  right_cover h wrap_covers (map pair_of GWild.recs) (skipn (length lq - 2) lq) = true /\
  verify_nsec3 GWild.H GWild.q GWild.qt GWild.soa 0 GWild.answers GWild.recs GWild.soft GWild.hard = R Secure.
Proof.
  cbv zeta. split; [apply witness_ok; vm_compute; reflexivity|]. split; [reflexivity|]. split.
  { intros [Hm|[Hds _]]; [apply Hm; vm_compute; reflexivity|vm_compute in Hds; discriminate]. }
  split; [exists [[98]]; reflexivity|]. vm_compute. auto.
Qed.

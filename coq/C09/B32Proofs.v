(* C09 — base32hex preserves order: for byte strings of equal length divisible by 5 (SHA-1
   digests are 20 bytes) the case-insensitive label order of the encodings is the byte order
   of the digests.  This is what lets find_covering_record mix comparisons of base32 labels
   with comparisons of raw digests.  Then what the later files use: [bytes_cmp] is a strict
   total order, and [label_eqb], [label_cmp] are it on lower-cased bytes. *)
From HV Require Lib.LexOrd.
From HV Require Import Lib.Base C09.Model.
Open Scope N_scope.

Definition bcmp (x y : bool) : comparison :=
  match x, y with false, true => Lt | true, false => Gt | _, _ => Eq end.

(* bit strings, most significant bit first *)
Local Notation lex := (LexOrd.lex bcmp).

Lemma add_compare_l p n m : (p + n ?= p + m) = (n ?= m).
Proof.
  destruct (N.compare_spec n m) as [->|Hl|Hl];
    [apply N.compare_refl|apply N.compare_lt_iff; lia|apply N.compare_gt_iff; lia].
Qed.

Fixpoint val (bs : list bool) : N :=
  match bs with [] => 0 | b :: r => b2n b * 2 ^ N.of_nat (length r) + val r end.

Lemma val_lt bs : val bs < 2 ^ N.of_nat (length bs).
Proof.
  induction bs as [|b r IH]; [reflexivity|]. cbn [val length]. rewrite Nat2N.inj_succ, N.pow_succ_r'.
  destruct b; cbn [b2n]; lia.
Qed.

Lemma lex_val a : forall b, length a = length b -> lex a b = (val a ?= val b).
Proof.
  induction a as [|x a IH]; intros [|y b] Hl; try discriminate; [reflexivity|].
  injection Hl as Hl. cbn [lex val]. rewrite <- Hl.
  pose proof (val_lt a) as Ha. pose proof (val_lt b) as Hb. rewrite <- Hl in Hb.
  (* the first difference outweighs everything after it *)
  destruct x, y; cbn [bcmp b2n].
  - now rewrite add_compare_l, IH.
  - symmetry. apply N.compare_gt_iff. lia.
  - symmetry. apply N.compare_lt_iff. lia.
  - now rewrite add_compare_l, IH.
Qed.

Fixpoint bitsn (n : nat) (x : N) : list bool :=
  match n with O => [] | S n' => N.testbit x (N.of_nat n') :: bitsn n' x end.

Lemma bitsn_length n x : length (bitsn n x) = n.
Proof. induction n as [|n IH]; cbn [bitsn length]; congruence. Qed.

Lemma val_bitsn n x : val (bitsn n x) = x mod 2 ^ N.of_nat n.
Proof.
  induction n as [|n IH]; [now rewrite N.mod_1_r|].
  cbn [bitsn val]. rewrite bitsn_length, IH, Nat2N.inj_succ, N.pow_succ_r', (N.mul_comm 2).
  rewrite N.mod_mul_r by (try apply N.pow_nonzero; discriminate).
  change b2n with N.b2n. rewrite N.testbit_spec'. lia.
Qed.

Lemma bits8_cmp x y : x < 256 -> y < 256 -> lex (bits8 x) (bits8 y) = (x ?= y).
Proof.
  intros Hx Hy. change (lex (bitsn 8 x) (bitsn 8 y) = (x ?= y)).
  rewrite lex_val by now rewrite !bitsn_length. now rewrite !val_bitsn, !N.mod_small.
Qed.

Lemma bits_cmp a : forall b, bytes_ok a -> bytes_ok b -> length a = length b ->
  lex (bits a) (bits b) = bytes_cmp a b.
Proof.
  induction a as [|x a IH]; intros [|y b] Ha Hb Hl; try discriminate; [reflexivity|].
  inversion Ha; inversion Hb; subst. injection Hl as Hl. unfold bits. cbn [flat_map bytes_cmp].
  rewrite LexOrd.lex_app, bits8_cmp by (reflexivity || assumption).
  destruct (x ?= y); try reflexivity. now apply IH.
Qed.

Lemma bits_length a : length (bits a) = (8 * length a)%nat.
Proof. induction a as [|x a IH]; [reflexivity|]. unfold bits in *. cbn [flat_map]. rewrite app_length, IH. cbn [bits8 length]. lia. Qed.

Lemma lc_alpha v : lc (alpha v) = alpha v.
Proof.
  (* the alphabet is below 'A' or above 'Z' *)
  unfold lc, alpha. destruct (N.ltb_spec v 10).
  - destruct (N.leb_spec 65 (48 + v)); [lia|reflexivity].
  - destruct (N.leb_spec (87 + v) 90); [lia|now rewrite andb_false_r].
Qed.

Lemma alpha_mono u v : (lc (alpha u) ?= lc (alpha v)) = (u ?= v).
Proof.
  rewrite !lc_alpha. unfold alpha.
  destruct (N.ltb_spec u 10), (N.ltb_spec v 10); try apply add_compare_l.
  (* the digits come before the letters *)
  - transitivity Lt; [|symmetry]; apply N.compare_lt_iff; lia.
  - transitivity Gt; [|symmetry]; apply N.compare_gt_iff; lia.
Qed.

Lemma chunks5_step bs : (5 <= length bs)%nat ->
  chunks5 bs = alpha (val (firstn 5 bs)) :: chunks5 (skipn 5 bs).
Proof.
  destruct bs as [|b4 [|b3 [|b2 [|b1 [|b0 r]]]]]; cbn [length]; try lia. intros _.
  cbn [chunks5 firstn skipn]. do 2 f_equal. unfold val5. cbn. lia.
Qed.

Lemma chunks5_cmp n : forall bs1 bs2,
  length bs1 = (5 * n)%nat -> length bs2 = (5 * n)%nat ->
  label_cmp (chunks5 bs1) (chunks5 bs2) = lex bs1 bs2.
Proof.
  induction n as [|n IH]; intros bs1 bs2 H1 H2.
  - destruct bs1, bs2; try discriminate. reflexivity.
  - rewrite (chunks5_step bs1), (chunks5_step bs2) by lia. cbn [label_cmp].
    rewrite alpha_mono, <- lex_val by (rewrite !firstn_length; lia).
    rewrite IH by (rewrite skipn_length; lia).
    rewrite <- LexOrd.lex_app by (rewrite !firstn_length; lia). now rewrite !firstn_skipn.
Qed.

Lemma chunks5_length n : forall bs, length bs = (5 * n)%nat -> length (chunks5 bs) = n.
Proof.
  induction n as [|n IH]; intros bs Hl.
  - destruct bs; [reflexivity|discriminate].
  - rewrite chunks5_step by lia. cbn [length]. f_equal. apply IH. rewrite skipn_length. lia.
Qed.

Theorem b32_cmp a b k :
  bytes_ok a -> bytes_ok b -> length a = (5 * k)%nat -> length b = (5 * k)%nat ->
  label_cmp (b32 a) (b32 b) = bytes_cmp a b.
Proof.
  intros Ha Hb La Lb. unfold b32.
  rewrite (chunks5_cmp (8 * k)%nat).
  - apply bits_cmp; try assumption. lia.
  - rewrite bits_length. unfold byte in *. lia.
  - rewrite bits_length. unfold byte in *. lia.
Qed.

Lemma b32_length a k : length a = (5 * k)%nat -> length (b32 a) = (8 * k)%nat.
Proof. intros La. unfold b32. apply chunks5_length. rewrite bits_length. lia. Qed.

Lemma bytes_cmp_eq a b : bytes_cmp a b = Eq <-> a = b.
Proof. apply LexOrd.lex_eq, N.compare_eq_iff. Qed.

Lemma bytes_cmp_refl a : bytes_cmp a a = Eq.
Proof. now apply bytes_cmp_eq. Qed.

Lemma bytes_cmp_antisym a b : bytes_cmp b a = CompOpp (bytes_cmp a b).
Proof. apply LexOrd.lex_anti, N.compare_antisym. Qed.

Lemma bytes_cmp_trans a b c : bytes_cmp a b = Lt -> bytes_cmp b c = Lt -> bytes_cmp a c = Lt.
Proof. apply LexOrd.lex_trans; [apply N.compare_eq_iff|exact N.lt_trans]. Qed.

Lemma bytes_cmp_le_lt_trans a b c :
  bytes_cmp a b <> Gt -> bytes_cmp b c = Lt -> bytes_cmp a c = Lt.
Proof.
  destruct (bytes_cmp a b) eqn:E; [apply bytes_cmp_eq in E; now subst|intros _; now apply bytes_cmp_trans|congruence].
Qed.

Lemma bytes_cmp_lt_le_trans a b c :
  bytes_cmp a b = Lt -> bytes_cmp b c <> Gt -> bytes_cmp a c = Lt.
Proof.
  destruct (bytes_cmp b c) eqn:E; [apply bytes_cmp_eq in E; now subst|intros; now apply (bytes_cmp_trans a b)|congruence].
Qed.

Lemma label_cmp_lc a b : label_cmp a b = bytes_cmp (map lc a) (map lc b).
Proof. revert b; induction a as [|x a IH]; intros [|y b]; cbn; try reflexivity. now rewrite IH. Qed.

Lemma label_eqb_lc a b : label_eqb a b = true <-> map lc a = map lc b.
Proof.
  revert b; induction a as [|x a IH]; intros [|y b]; cbn; try (split; congruence).
  rewrite andb_true_iff, N.eqb_eq, IH. split; [intros [-> ->]; reflexivity|intros [= E1 E2]; auto].
Qed.

Lemma label_eqb_cmp a b : label_eqb a b = true <-> label_cmp a b = Eq.
Proof. now rewrite label_eqb_lc, label_cmp_lc, bytes_cmp_eq. Qed.

Lemma label_eqb_refl a : label_eqb a a = true.
Proof. now apply label_eqb_lc. Qed.

Lemma label_eqb_sym a b : label_eqb a b = label_eqb b a.
Proof. apply eq_true_iff_eq. rewrite !label_eqb_lc. split; congruence. Qed.

Lemma label_eqb_trans a b c : label_eqb a b = true -> label_eqb b c = true -> label_eqb a c = true.
Proof. rewrite !label_eqb_lc. congruence. Qed.

Lemma label_eqb_length a b : label_eqb a b = true -> length a = length b.
Proof. rewrite label_eqb_lc. intros E. apply (f_equal (@length _)) in E. now rewrite !map_length in E. Qed.

Lemma label_cmp_eqb_l a a' b : label_eqb a a' = true -> label_cmp a b = label_cmp a' b.
Proof. rewrite label_eqb_lc, !label_cmp_lc. now intros ->. Qed.
Lemma label_cmp_eqb_r a b b' : label_eqb b b' = true -> label_cmp a b = label_cmp a b'.
Proof. rewrite label_eqb_lc, !label_cmp_lc. now intros ->. Qed.
Lemma label_eqb_eqb_l a a' b : label_eqb a a' = true -> label_eqb a b = label_eqb a' b.
Proof. rewrite label_eqb_lc. intros E. apply eq_true_iff_eq. now rewrite !label_eqb_lc, E. Qed.

Theorem b32_eqb a b k :
  bytes_ok a -> bytes_ok b -> length a = (5 * k)%nat -> length b = (5 * k)%nat ->
  label_eqb (b32 a) (b32 b) = true -> a = b.
Proof.
  intros Ha Hb La Lb E. apply label_eqb_cmp in E. rewrite (b32_cmp a b k) in E by assumption.
  now apply bytes_cmp_eq.
Qed.

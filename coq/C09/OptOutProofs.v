(* C09 — the Opt-Out flag of the NSEC3 records is consulted for DS NODATA only: for every other
   (response code, query type) the verdict does not depend on the flags at all. *)
From HV Require Import Lib.Base C09.Model C09.LimitProofs.
Open Scope N_scope.

Lemma find_of_map {A} (f : A -> bool) (g : A -> A) l :
  (forall x, f (g x) = f x) -> find f (map g l) = option_map g (find f l).
Proof.
  intros Hfg. induction l as [|x l IH]; cbn [map find option_map]; [reflexivity|].
  rewrite Hfg. destruct (f x); [reflexivity|exact IH].
Qed.

Lemma existsb_of_map {A} (f : A -> bool) (g : A -> A) l :
  (forall x, f (g x) = f x) -> existsb f (map g l) = existsb f l.
Proof. intros Hfg. induction l as [|x l IH]; cbn [map existsb]; [reflexivity|]. now rewrite Hfg, IH. Qed.

Section OptOut.
  Variable H : list byte -> N -> name -> list byte.
  Variable WC : label -> label -> list byte -> list byte -> bool.
  Variable newflag : nsec3 -> bool.

  Definition reflag (r : nsec3) : nsec3 :=
    mkN3 (n3_owner r) (n3_alg r) (newflag r) (n3_iter r) (n3_salt r) (n3_next r) (n3_types r).
  Definition pflag (p : pair) : pair := (fst p, reflag (snd p)).

  Lemma mk_pairs_reflag soa rs :
    mk_pairs soa (map reflag rs) = option_map (map pflag) (mk_pairs soa rs).
  Proof.
    induction rs as [|r rs IH]; cbn [map mk_pairs option_map]; [reflexivity|].
    cbn [reflag n3_owner]. destruct (n3_owner r) as [|l base]; [reflexivity|].
    destruct (match soa with Some s => negb (name_eqb base s) | None => false end); [reflexivity|].
    destruct ((length l =? 0)%nat || (63 <? length l)%nat); [reflexivity|].
    rewrite IH. destruct (mk_pairs soa rs); reflexivity.
  Qed.

  Lemma same_params_reflag a b : same_params (reflag a) (reflag b) = same_params a b.
  Proof. reflexivity. Qed.

  Lemma forallb_reflag first rs :
    forallb (same_params (reflag first)) (map reflag rs) = forallb (same_params first) rs.
  Proof. induction rs as [|r rs IH]; cbn [map forallb]; [reflexivity|]. now rewrite same_params_reflag, IH. Qed.

  Definition cxflag (cx : ctx) : ctx :=
    mkCtx (c_qname cx) (c_soa cx) (map pflag (c_pairs cx)) (c_salt cx) (c_iter cx).

  Lemma find_match_flag ps l : find_match (map pflag ps) l = option_map pflag (find_match ps l).
  Proof. unfold find_match. apply find_of_map. reflexivity. Qed.

  Lemma find_cover_flag ps th tl : find_cover WC (map pflag ps) th tl = option_map pflag (find_cover WC ps th tl).
  Proof. unfold find_cover. apply find_of_map. reflexivity. Qed.

  Definition iflag (x : hinfo * pair) : hinfo * pair := (fst x, pflag (snd x)).
  Definition ceflag (c : ceinfo) : ceinfo := (option_map iflag (fst c), option_map iflag (snd c)).

  Lemma with_info_flag (i : hinfo) o :
    option_map (fun r => (i, r)) (option_map pflag o) = option_map iflag (option_map (fun r => (i, r)) o).
  Proof. now destruct o. Qed.

  Lemma find_map_flag (infos : list hinfo) ps :
    find_map (fun c => find_match (map pflag ps) (hi_label c)) infos =
    option_map pflag (find_map (fun c => find_match ps (hi_label c)) infos).
  Proof.
    induction infos as [|c infos IH]; cbn [find_map option_map]; [reflexivity|].
    rewrite find_match_flag. destruct (find_match ps (hi_label c)); cbn [option_map]; [reflexivity|exact IH].
  Qed.

  Lemma ce_proof_flag cx : ce_proof H WC (cxflag cx) = option_map ceflag (ce_proof H WC cx).
  Proof.
    unfold ce_proof. change (candidates (cxflag cx)) with (candidates cx).
    destruct (candidates cx) as [cs|]; [|reflexivity]. cbv zeta.
    change (mk_info H (cxflag cx)) with (mk_info H cx). cbn [c_pairs cxflag].
    rewrite find_map_flag.
    destruct (find_map (fun c => find_match (c_pairs cx) (hi_label c)) (map (mk_info H cx) cs)) as [mrec|];
      cbn [option_map]; [|reflexivity].
    change (fst (pflag mrec)) with (fst mrec).
    destruct (find_idx _ 1 (tl (map (mk_info H cx) cs))) as [i|]; cbn [option_map]; [|reflexivity].
    now rewrite find_cover_flag, with_info_flag.
  Qed.

  Definition wflag (x : ceinfo * option (hinfo * pair)) := (ceflag (fst x), option_map iflag (snd x)).

  Lemma ce_proof_wc_flag cx m : ce_proof_wc H WC (cxflag cx) m = option_map wflag (ce_proof_wc H WC cx m).
  Proof.
    unfold ce_proof_wc. rewrite ce_proof_flag.
    destruct (ce_proof H WC cx) as [[ce nc]|]; cbn [option_map]; [|reflexivity].
    unfold ceflag at 1. cbn [fst snd].
    destruct ce as [[cei mrec]|]; cbn [option_map iflag fst snd]; [|reflexivity].
    destruct (prepend_star (hi_name cei)) as [wn|]; [|reflexivity]. cbv zeta.
    change (mk_info H (cxflag cx) wn) with (mk_info H cx wn). cbn [c_pairs cxflag].
    destruct m; [rewrite find_match_flag|rewrite find_cover_flag]; now rewrite with_info_flag.
  Qed.

  Lemma nxdomain_flag cx : validate_nxdomain H WC (cxflag cx) = validate_nxdomain H WC cx.
  Proof.
    unfold validate_nxdomain. cbv zeta.
    change (mk_info H (cxflag cx) (c_qname (cxflag cx))) with (mk_info H cx (c_qname cx)).
    cbn [c_pairs cxflag]. rewrite existsb_of_map by reflexivity.
    destruct (existsb _ _); [reflexivity|].
    rewrite ce_proof_wc_flag. destruct (ce_proof_wc H WC cx false) as [[[ce nc] wc]|]; [|reflexivity].
    destruct ce, nc, wc; reflexivity.
  Qed.

  Lemma nodata_flag qtype wl cx :
    qtype <> T_DS -> validate_nodata H WC qtype wl (cxflag cx) = validate_nodata H WC qtype wl cx.
  Proof.
    intros Hds. unfold validate_nodata. cbv zeta.
    change (mk_info H (cxflag cx)) with (mk_info H cx). change (c_qname (cxflag cx)) with (c_qname cx).
    cbn [c_pairs cxflag]. rewrite find_match_flag.
    destruct (find_match (c_pairs cx) _) as [qr|]; [reflexivity|].
    apply N.eqb_neq in Hds. rewrite Hds. cbn [option_map andb].
    destruct wl as [w|].
    - destruct (num_labels (c_qname cx) <=? w); [reflexivity|].
      rewrite find_cover_flag. destruct (find_cover WC (c_pairs cx) _ _); reflexivity.
    - rewrite ce_proof_wc_flag. destruct (ce_proof_wc H WC cx true) as [[[ce nc] wc]|]; [|reflexivity].
      destruct ce, nc, wc as [[? ?]|]; reflexivity.
  Qed.

  Theorem optout_irrelevant qname qtype soa rcode answers rs soft hard :
    qtype <> T_DS \/ rcode <> 0 ->
    verify_nsec3_gen H WC qname qtype soa rcode answers (map reflag rs) soft hard =
    verify_nsec3_gen H WC qname qtype soa rcode answers rs soft hard.
  Proof.
    intros Hc. destruct rs as [|first rs]; [reflexivity|].
    cbn [map]. rewrite !verify_unfold.
    change (reflag first :: map reflag rs) with (map reflag (first :: rs)).
    rewrite mk_pairs_reflag, forallb_reflag.
    destruct (mk_pairs soa (first :: rs)) as [ps|]; cbn [option_map]; [|reflexivity].
    destruct (negb (forallb (same_params first) (first :: rs))); [reflexivity|].
    cbn [reflag n3_iter n3_salt].
    destruct (hard <? n3_iter first); [reflexivity|]. destruct (soft <? n3_iter first); [reflexivity|].
    unfold dispatch.
    change (mkCtx qname soa (map pflag ps) (n3_salt first) (n3_iter first))
      with (cxflag (mkCtx qname soa ps (n3_salt first) (n3_iter first))).
    destruct (rcode =? 3) eqn:E3; [apply nxdomain_flag|].
    destruct (rcode =? 0) eqn:E0; [|reflexivity].
    apply nodata_flag. destruct Hc as [Hc|Hc]; [exact Hc|]. apply N.eqb_eq in E0. contradiction.
  Qed.
End OptOut.

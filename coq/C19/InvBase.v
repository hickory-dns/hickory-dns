(* C19 — the frame [ext] and the judgement [sat] in which every operation of the resolver is
   specified; monotonicity in the log; send and lookup.  What [sat] says of each result, and the
   upstream queries not paid for by the alias counter: lookup, ns_fetch, final_fetch: [msg_ok], 1;
   addr_lookup: [addrs_ok], 1; ns_pool: [pool_for], [walk_cost depth]; resolve: [msg_legit], [res_cost]
   (its own walk and query; an alias chased is a resolution paid for by the counter's step: [pot], [ext_bump]). *)
From HV Require Import Lib.Base Lib.ListX C19.Model C19.BaseProofs.
Open Scope N_scope.

Lemma firstn_incl {A} n (l : list A) : incl (firstn n l) l.
Proof. rewrite <- (firstn_skipn n l) at 2. apply incl_appl, incl_refl. Qed.

Lemma assoc_In {K V} (eqb : K -> K -> bool) k (l : list (K * V)) v :
  assoc eqb k l = Some v -> exists k', In (k', v) l /\ eqb k k' = true.
Proof.
  induction l as [|[k' v'] l IH]; cbn [assoc]; [discriminate|].
  destruct (eqb k k') eqn:E.
  - intros [= ->]. exists k'. split; [left; reflexivity|exact E].
  - intros H. destruct (IH H) as (k2 & Hin & He). exists k2. split; [right; exact Hin|exact He].
Qed.

Definition fsub (m' m : msg) : Prop :=
  exists f, an m' = filter f (an m) /\ au m' = filter f (au m) /\ ad m' = filter f (ad m).

Lemma fsub_refl m : fsub m m.
Proof. exists (fun _ => true). now rewrite !filter_all by now apply Forall_forall. Qed.

Lemma fsub_trans a b d : fsub a b -> fsub b d -> fsub a d.
Proof.
  intros (f & H1 & H2 & H3) (g & G1 & G2 & G3). exists (fun x => g x && f x).
  rewrite H1, H2, H3, G1, G2, G3, !filter_filter_and. auto.
Qed.

Lemma msg_filter_fsub f m : fsub (msg_filter f m) m.
Proof. exists f. auto. Qed.

Lemma fsub_all_sections m' m : fsub m' m -> exists f, all_sections m' = filter f (all_sections m).
Proof.
  intros (f & H1 & H2 & H3). exists f. unfold all_sections. now rewrite H1, H2, H3, !filter_app.
Qed.

Lemma fsub_sections m' m : fsub m' m -> incl (all_sections m') (all_sections m).
Proof. intros H. apply fsub_all_sections in H as (f & ->). apply incl_filter. Qed.

Lemma fsub_ns_count m' m : fsub m' m -> (ns_count m' <= ns_count m)%nat.
Proof.
  intros H. apply fsub_all_sections in H as (f & H). unfold ns_count. rewrite H.
  rewrite filter_filter_and. apply filter_length_mono. now intros x [_ Hx]%andb_true_iff.
Qed.

Lemma fsub_an m' m : fsub m' m -> incl (an m') (an m).
Proof. intros (f & -> & _). apply incl_filter. Qed.

Section Net.
Variable net : ip -> query -> msg.
Variable choose : list ip -> query -> option ip.
Variable c : cfg.
Variable W : option nat.
Hypothesis Hchoose : choose_ok choose.
Hypothesis HW : forall a q, wbound W (net a q).

(* [xN] is [x] at [net], [c], [W] and strict = false, here and in the three files that follow:
   the invariant is proved for strict = false, and [Inv_strict] lifts it under [LooseFree] *)
Local Notation LegitN := (Legit net).
Local Notation LooseN := (Loose net).
Local Notation AddrOKN := (AddrOK net c false).
Local Notation PoolOKN := (PoolOK net c false).
Local Notation EvOKN := (EvOK net c false).
Local Notation msg_legitN := (msg_legit net c).
Local Notation neg_originN := (neg_origin net).
Local Notation InvN := (Inv net c W false).

Lemma Legit_mono es es' r : incl es es' -> LegitN es r -> LegitN es' r.
Proof. intros Hi (e & He & H). exists e. split; [apply Hi, He|exact H]. Qed.

Lemma Loose_mono es es' t r : incl es es' -> LooseN es t r -> LooseN es' t r.
Proof. intros Hi (e & He & H). exists e. split; [apply Hi, He|exact H]. Qed.

Lemma AddrOK_mono es es' Z a : incl es es' -> AddrOKN es Z a -> AddrOKN es' Z a.
Proof.
  intros Hi (Hd & rNS & t & rA & Hns & Ht & Hz & Hip & Haddr). split; [exact Hd|].
  exists rNS, t, rA. repeat (split; [eauto using Legit_mono|]).
  destruct Haddr as [[Hleg Ho]|[Hs Hloose]]; eauto using Legit_mono, Loose_mono.
Qed.

Lemma PoolOK_mono es es' p : incl es es' -> PoolOKN es p -> PoolOKN es' p.
Proof. intros Hi [H|H]; [left; exact H|right]. intros a Ha. eapply AddrOK_mono; eauto. Qed.

(* [p] is a justified pool whose zone encloses [z]: what a query for a name in [z] may go to *)
Definition serves (es : list event) (z : name) (p : pool) : Prop :=
  PoolOKN es p /\ is_subzone (pzone p) z = true.

Lemma serves_mono es es' z p : incl es es' -> serves es z p -> serves es' z p.
Proof. intros Hi [Hp Hz]. split; [eapply PoolOK_mono; eauto|exact Hz]. Qed.

Lemma serves_sub es z z' p : is_subzone z z' = true -> serves es z p -> serves es z' p.
Proof. intros Hzz [Hp Hz]. split; [exact Hp|eapply is_prefix_trans; eauto]. Qed.

Lemma EvOK_mono es es' e : incl es es' -> EvOKN es e -> EvOKN es' e.
Proof. intros Hi (H1 & H2 & H3). split; [exact H1|split; [exact H2|]]. eapply PoolOK_mono; eauto. Qed.

(* [msg_legit es m] unfolds to [recs_ok es (all_sections m)] *)
Definition recs_ok (es : list event) (l : list rr) : Prop :=
  forall x, In x l -> LegitN es x /\ ans_ok c x = true.

Lemma recs_ok_mono es es' l : incl es es' -> recs_ok es l -> recs_ok es' l.
Proof. intros Hi H x Hx. destruct (H x Hx). split; [eapply Legit_mono; eauto|assumption]. Qed.

Lemma neg_origin_mono es es' m : incl es es' -> neg_originN es m -> neg_originN es' m.
Proof. intros Hi [H|(e & nx & He & H)]; [left; exact H|right; exists e, nx; split; auto]. Qed.

Definition msg_ok (es : list event) (m : msg) : Prop := msg_legitN es m /\ wbound W m.

Definition centry_ok (es : list event) (e : centry) : Prop :=
  match e with
  | CPos m => msg_ok es m
  | CNeg _ m => neg_originN es m
  | CExpired => True
  end.

Lemma centry_ok_mono es es' e : incl es es' -> centry_ok es e -> centry_ok es' e.
Proof.
  intros Hi. destruct e; cbn [centry_ok]; [|eauto using neg_origin_mono..].
  intros [H1 H2]. split; [exact (recs_ok_mono _ _ _ Hi H1)|exact H2].
Qed.

Lemma Inv_rcache s q e : InvN s -> In (q, e) (rcache s) -> centry_ok (evs s) e.
Proof. intros (Ipos & Ineg & _) H. destruct e; cbn [centry_ok]; unfold msg_ok; eauto. Qed.

Lemma Inv_log_ev s e : InvN s -> EvOKN (e :: evs s) e -> InvN (log_ev s e).
Proof.
  intros Hi He. assert (Hm : incl (evs s) (e :: evs s)) by apply incl_tl, incl_refl.
  destruct Hi as (Ipos & Ineg & Ipools & Ievs). unfold Inv. cbn [log_ev rcache nscache evs].
  split; [|split; [|split]].
  - intros q m H. apply (centry_ok_mono (evs s) _ (CPos m) Hm), (Ipos q m H).
  - intros q nx m H. apply (neg_origin_mono _ _ _ Hm), (Ineg q nx m H).
  - intros z p H. destruct (Ipools z p H) as [Hz Hp]. eauto using PoolOK_mono.
  - intros e' [<-|Hin]; [exact He|]. eauto using EvOK_mono.
Qed.

Lemma Inv_cache_put s q e : InvN s -> centry_ok (evs s) e -> InvN (cache_put q e s).
Proof.
  intros (Ipos & Ineg & Ipools & Ievs) He. unfold Inv. cbn [cache_put rcache nscache evs].
  split; [|split; [|split]]; auto.
  - intros q' m' [[= _ ->]|H]; [exact He|eauto].
  - intros q' nx m' [[= _ ->]|H]; [exact He|eauto].
Qed.

Lemma Inv_set_cn s n : InvN s -> InvN (set_cn s n).
Proof. intros H. exact H. Qed.

Lemma Inv_put_pool s z p : InvN s -> pzone p = z -> PoolOKN (evs s) p -> InvN (put_pool z p s).
Proof.
  intros (Ipos & Ineg & Ipools & Ievs) Hz Hp. unfold Inv. cbn [put_pool rcache nscache evs].
  split; [|split; [|split]]; auto.
  intros z0 p0 [[= <- <-]|H]; auto.
Qed.

Lemma Inv_st0 : InvN st0.
Proof.
  unfold Inv, st0. cbn [rcache nscache evs].
  split; [intros q m []|]. split; [intros q nx m []|]. split; [intros z p []|intros e []].
Qed.

(* 0 when there is no bound: then no count is claimed *)
Definition wv : nat := match W with Some w => w | None => O end.

Definition walk_cost (d : N) : nat := walk_bound wv (N.to_nat (ns_limit c) - N.to_nat d).

(* queries of one zone walk from depth 0, plus the final one *)
Definition res_cost : nat := S (walk_cost 0).

(* upstream queries the alias counter still pays for: a walk and a query for each alias it lets
   through.  The subtraction stops at 0, so the step that finds the limit exceeded costs nothing. *)
Definition pot (s : st) : nat :=
  (res_cost * (N.to_nat MAX_CNAME_LOOKUPS - N.to_nat (cn s)))%nat.

(* the frame of every operation: the invariant holds afterwards, the log only grows, and, when NS
   records are counted, by at most [k] events beyond what the alias counter has paid for *)
Definition ext (k : nat) (s s' : st) : Prop :=
  InvN s' /\ incl (evs s) (evs s') /\
  (W <> None -> (length (evs s') + pot s' <= length (evs s) + k + pot s)%nat).

Lemma ext_refl k s : InvN s -> ext k s s.
Proof. intros H. split; [exact H|split; [apply incl_refl|intros _; lia]]. Qed.

Lemma ext_trans k1 k2 k s s1 s2 :
  ext k1 s s1 -> ext k2 s1 s2 -> (k1 + k2 <= k)%nat -> ext k s s2.
Proof.
  intros (_ & Hincl1 & Hlen1) (Hinv2 & Hincl2 & Hlen2) Hk.
  split; [exact Hinv2|split; [eapply incl_tran; eauto|]].
  intros Hw. specialize (Hlen1 Hw). specialize (Hlen2 Hw). lia.
Qed.

Lemma ext_weaken k k' s s' : (W <> None -> (k <= k')%nat) -> ext k s s' -> ext k' s s'.
Proof.
  intros Hk (Hinv & Hincl & Hlen). split; [exact Hinv|split; [exact Hincl|]].
  intros Hw. specialize (Hlen Hw). specialize (Hk Hw). lia.
Qed.

Lemma ext_inv k s s' : ext k s s' -> InvN s'.
Proof. intros H; apply H. Qed.

Lemma ext_incl k s s' : ext k s s' -> incl (evs s) (evs s').
Proof. intros H; apply H. Qed.

Lemma ext_cache_put k s s' q e :
  ext k s s' -> centry_ok (evs s') e -> ext k s (cache_put q e s').
Proof. intros (Hinv & Hframe) He. split; [apply Inv_cache_put; assumption|exact Hframe]. Qed.

Lemma ext_put_pool k s s' z p :
  ext k s s' -> pzone p = z -> PoolOKN (evs s') p -> ext k s (put_pool z p s').
Proof. intros (Hinv & Hframe) Hz Hp. split; [apply Inv_put_pool; assumption|exact Hframe]. Qed.

Lemma ext_set_cn s n : InvN s -> cn s <= n -> ext 0 s (set_cn s n).
Proof.
  intros Hi Hn. split; [exact Hi|split; [apply incl_refl|]].
  intros _. unfold pot. cbn [set_cn evs cn]. nia.
Qed.

(* an alias let through: the counter's step pays for the resolution that follows *)
Lemma ext_bump k s s' :
  cn s + 1 <= MAX_CNAME_LOOKUPS -> ext (k + res_cost) (set_cn s (cn s + 1)) s' -> ext k s s'.
Proof.
  intros Hl (Hinv & Hincl & Hpay). split; [exact Hinv|split; [exact Hincl|]].
  intros Hw. specialize (Hpay Hw). unfold pot in *. cbn [set_cn evs cn] in Hpay. nia.
Qed.

Lemma ext_count s s' :
  W <> None -> ext res_cost (set_cn s 0) s' ->
  (length (evs s') <= length (evs s) + res_cost * (1 + N.to_nat MAX_CNAME_LOOKUPS))%nat.
Proof.
  intros Hw (_ & _ & Hpay). specialize (Hpay Hw). unfold pot in Hpay. cbn [set_cn evs cn] in Hpay. nia.
Qed.

Definition rerr_origin (es : list event) (e : rerr) : Prop :=
  exists m0, neg_originN es m0 /\ incl (err_records e) (au m0 ++ ad m0).

Lemma rerr_origin_nil es e : err_records e = [] -> rerr_origin es e.
Proof. intros H. exists empty_msg. split; [left; reflexivity|]. rewrite H. intros x []. Qed.

Lemma rerr_origin_mono es es' e : incl es es' -> rerr_origin es e -> rerr_origin es' e.
Proof. intros Hi (m0 & H1 & H2). exists m0. split; [eapply neg_origin_mono; eauto|exact H2]. Qed.

(* The judgement in which every operation of the resolver is specified.  Started in a state that
   satisfies the invariant, the operation ends in an extension of it after at most [k] queries
   that the alias counter has not paid for, with a result of which [Q] holds over the log as it
   then stands, or with an error that comes from a logged reply.  An operation that returns
   something else than a [res] is read as one through [fetched], [found], [fueled], [cstep_res]. *)
Definition sat {A} (k : nat) (Q : list event -> A -> Prop) (s : st) (r : res A) : Prop :=
  match r with
  | Done s' a => ext k s s' /\ Q (evs s') a
  | Fail s' e => ext k s s' /\ rerr_origin (evs s') e
  | OutOfFuel => True
  end.

Lemma sat_done {A} (Q : list event -> A -> Prop) k s a : InvN s -> Q (evs s) a -> sat k Q s (Done s a).
Proof. intros Hi Ha. split; [apply ext_refl, Hi|exact Ha]. Qed.

Lemma sat_fail {A} (Q : list event -> A -> Prop) k s e :
  InvN s -> rerr_origin (evs s) e -> sat k Q s (Fail s e).
Proof. intros Hi He. split; [apply ext_refl, Hi|exact He]. Qed.

Lemma sat_seq {A} (Q : list event -> A -> Prop) k1 k2 k s s1 r :
  ext k1 s s1 -> sat k2 Q s1 r -> (k1 + k2 <= k)%nat -> sat k Q s r.
Proof.
  intros E1 H Hk. destruct r as [s2 a|s2 e|]; [| |exact I];
    destruct H as (E2 & H); (split; [exact (ext_trans _ _ _ _ _ _ E1 E2 Hk)|exact H]).
Qed.

Definition fetched (out : st * (msg + rerr)) : res msg :=
  match out with (s, inl m) => Done s m | (s, inr e) => Fail s e end.

Definition found {A} (out : st * A) : res A := let (s, a) := out in Done s a.

Definition fueled {A} (out : option (st * A)) : res A :=
  match out with Some (s, a) => Done s a | None => OutOfFuel end.

Definition cstep_res (r : cstep) : res (list rr) :=
  match r with CNext add s => Done s add | CStop s e => Fail s e | CFuel => OutOfFuel end.

Lemma glue_for_incl m r : incl (glue_for m r) (ad m).
Proof. unfold glue_for. destruct (rdat r); try (intros x []). apply incl_filter. Qed.

Definition perr_origin (es : list event) (e : perr) : Prop :=
  match e with PNoRec _ m => neg_originN es m | _ => True end.

Lemma to_rerr_origin es e : perr_origin es e -> rerr_origin es (to_rerr e).
Proof.
  destruct e as [nx m|code|]; cbn [to_rerr perr_origin]; try (intros _; apply rerr_origin_nil; reflexivity).
  intros H. exists m. split; [exact H|].
  destruct (negb (is_nil (filter is_ns (au m))) && negb nx); cbn [err_records]; apply incl_app.
  - apply incl_appl, incl_filter.
  - apply incl_appr. intros x Hx. apply in_flat_map in Hx as (r & _ & Hx). eapply glue_for_incl; eauto.
  - apply incl_appl. eapply incl_tran; [apply firstn_incl|apply incl_filter].
  - apply incl_appl, incl_refl.
Qed.

Lemma cache_get_ok q s x :
  InvN s -> cache_get q s = Some x ->
  match x with
  | inl m => msg_ok (evs s) m
  | inr e => rerr_origin (evs s) (to_rerr e)
  end.
Proof.
  intros Hi. unfold cache_get. destruct (assoc query_eqb q (rcache s)) as [e|] eqn:E; [|discriminate].
  apply assoc_In in E as (q' & Hin & _). apply (Inv_rcache _ _ _ Hi) in Hin.
  destruct e as [m|nx m|]; intros [= <-]; [exact Hin|apply to_rerr_origin, Hin].
Qed.

Lemma nscache_ok s z p :
  InvN s -> assoc name_eqb z (nscache s) = Some p -> serves (evs s) z p.
Proof.
  intros (_ & _ & Ipools & _) E. apply assoc_In in E as (z' & Hin & Ez).
  apply bytes_eqb_eq in Ez. subst z'. destruct (Ipools z p Hin) as [<- Hp].
  split; [exact Hp|apply is_prefix_refl].
Qed.

Lemma send_spec p q s s1 r :
  send net choose c p q s = (s1, r) ->
  (s1 = s /\ r = inr PNoConn) \/
  exists a, In a (pips p) /\ s1 = log_ev s (mkEv a q (pzone p) (pips p)) /\
            r = match classify q (net a q) with inl m => pool_filter c m | inr e => inr e end.
Proof.
  unfold send. destruct (pips p) as [|a0 l] eqn:Ep.
  - intros [= <- <-]; auto.
  - destruct (choose (a0 :: l) q) as [a|] eqn:Ec; intros [= <- <-]; [right|auto].
    exists a. split; [eapply Hchoose; eauto|split; reflexivity].
Qed.

Lemma classify_inl q m m' : classify q m = inl m' -> m' = m.
Proof.
  unfold classify. destruct (code_is_error (rcode m)); [discriminate|].
  destruct (_ && _); [discriminate|]. now intros [= <-].
Qed.

Lemma classify_inr q m e : classify q m = inr e -> (exists code, e = PCode code) \/ exists nx, e = PNoRec nx m.
Proof.
  unfold classify. destruct (code_is_error (rcode m)); [intros [= <-]; eauto|].
  destruct (_ && _); [|discriminate]. intros [= <-]; eauto.
Qed.

Lemma ans_ok_allows_all r : allows_all (ans_filter c) = true -> ans_ok c r = true.
Proof. intros H. unfold ans_ok, denied. rewrite H. now destruct (rd_ip (rdat r)). Qed.

Lemma pool_filter_inl m m' :
  pool_filter c m = inl m' -> fsub m' m /\ forall r, In r (all_sections m') -> ans_ok c r = true.
Proof.
  unfold pool_filter. destruct (allows_all (ans_filter c)) eqn:Ea.
  - intros [= <-]. split; [apply fsub_refl|]. intros r _. now apply ans_ok_allows_all.
  - destruct (_ || _); [discriminate|]. intros [= <-]. split; [apply (msg_filter_fsub (ans_ok c))|].
    intros r Hr. apply (In_msg_filter (ans_ok c) m r), Hr.
Qed.

Lemma pool_filter_inr m e : pool_filter c m = inr e -> e = PNoRec true empty_msg.
Proof.
  unfold pool_filter. destruct (allows_all (ans_filter c)); [discriminate|].
  destruct (_ || _); [|discriminate]. now intros [= <-].
Qed.

Lemma ext_sent s p q a :
  InvN s -> serves (evs s) (fst q) p -> In a (pips p) ->
  ext 1 s (log_ev s (mkEv a q (pzone p) (pips p))).
Proof.
  intros Hi [Hp Hz] Ha. split; [|split].
  - apply Inv_log_ev; [exact Hi|]. split; [|split]; cbn [e_zone e_q e_ip e_pool]; auto.
    eapply PoolOK_mono; [apply incl_tl, incl_refl|]. destruct p; exact Hp.
  - cbn [log_ev evs]. apply incl_tl, incl_refl.
  - intros _. unfold pot. cbn [log_ev evs cn length]. lia.
Qed.

Lemma send_inv p q s :
  InvN s -> serves (evs s) (fst q) p ->
  let (s1, r) := send net choose c p q s in
  ext 1 s s1 /\
  match r with
  | inl m => exists a, evs s1 = mkEv a q (pzone p) (pips p) :: evs s /\ fsub m (net a q) /\
                       forall x, In x (all_sections m) -> ans_ok c x = true
  | inr e => perr_origin (evs s1) e
  end.
Proof.
  intros Hi Hp. pose proof (send_spec p q s) as H. destruct (send net choose c p q s) as [s1 r].
  destruct (H _ _ eq_refl) as [[-> ->]|(a & Ha & -> & ->)]; [split; [apply ext_refl, Hi|exact I]|].
  split; [apply ext_sent; assumption|].
  destruct (classify q (net a q)) as [m|e] eqn:Ec.
  - apply classify_inl in Ec. subst m. destruct (pool_filter c (net a q)) as [m'|e] eqn:Ep.
    + apply pool_filter_inl in Ep as [Hf Ho]. exists a. auto.
    + apply pool_filter_inr in Ep. subst e. left. reflexivity.
  - destruct (classify_inr _ _ _ Ec) as [[code ->]|[nx ->]]; [exact I|].
    right. exists (mkEv a q (pzone p) (pips p)), nx. split; [left; reflexivity|auto].
Qed.

Lemma evs_cache_insert_err q e s : evs (cache_insert_err c q e s) = evs s.
Proof. now destruct e. Qed.

Lemma lookup_inv q zone p s :
  InvN s -> serves (evs s) zone p -> is_subzone zone (fst q) = true ->
  sat 1 msg_ok s (fetched (lookup net choose c q zone p s)).
Proof.
  intros Hi Hp Hzq. unfold lookup.
  pose proof (send_inv p q s Hi (serves_sub _ _ _ _ Hzq Hp)) as Hs. destruct Hp as [_ Hpz].
  destruct (send net choose c p q s) as [s1 [m|e]]; destruct Hs as (E1 & Hs).
  - destruct Hs as (a & Es & Hsub & Hans).
    destruct (_ || _); [split; [exact E1|apply rerr_origin_nil; reflexivity]|].
    change (mkMsg _ _ _ _ _) with (msg_filter (in_zone zone) m). set (m' := msg_filter (in_zone zone) m).
    pose proof (msg_filter_fsub (in_zone zone) m) as Hf. fold m' in Hf.
    pose proof (fsub_trans _ _ _ Hf Hsub) as Hraw.
    assert (Hm' : msg_ok (evs s1) m').
    { split.
      - intros x Hx. split; [|apply Hans, (fsub_sections _ _ Hf), Hx].
        exists (mkEv a q (pzone p) (pips p)). split; [rewrite Es; left; reflexivity|].
        split; [apply (fsub_sections _ _ Hraw), Hx|].
        apply In_msg_filter in Hx. eapply is_prefix_trans; [exact Hpz|apply Hx].
      - specialize (HW a q). unfold wbound in *. destruct W as [w|]; [|exact I].
        pose proof (fsub_ns_count _ _ Hraw). lia. }
    split; [|exact Hm']. apply ext_cache_put; [exact E1|].
    destruct (pos_cacheable c q m'); [exact Hm'|exact I].
  - split; cbn [fst snd]; [|rewrite evs_cache_insert_err; apply to_rerr_origin, Hs].
    destruct e as [nx m|code|]; cbn [cache_insert_err]; try exact E1.
    apply ext_cache_put; [exact E1|]. destruct (neg_cacheable c m); [exact Hs|exact I].
Qed.

(* the common shape of [ns_fetch] and [final_fetch]; [use] says whether a cached message will do *)
Lemma cached_or_lookup_inv (use : msg -> bool) q zone p s :
  InvN s -> serves (evs s) zone p -> is_subzone zone (fst q) = true ->
  sat 1 msg_ok s (fetched match cache_get q s with
                           | Some (inl m) => if use m then (s, inl m) else lookup net choose c q zone p s
                           | Some (inr e) => (s, inr (to_rerr e))
                           | None => lookup net choose c q zone p s
                           end).
Proof.
  intros Hi Hp Hzq. pose proof (lookup_inv q zone p s Hi Hp Hzq) as Hlk.
  pose proof (cache_get_ok q s) as Hc.
  destruct (cache_get q s) as [[m|e]|]; [| |exact Hlk]; specialize (Hc _ Hi eq_refl).
  - destruct (use m); [|exact Hlk]. split; [apply ext_refl, Hi|exact Hc].
  - split; [apply ext_refl, Hi|exact Hc].
Qed.

End Net.

Arguments AddrOK_mono {net c es es' Z a}.
Arguments PoolOK_mono {net c es es' p}.
Arguments serves_mono {net c es es' z p}.
Arguments serves_sub {net c es z z' p}.
Arguments cache_get_ok {net c W q s x}.
Arguments ext_trans {net c W k1 k2 k s s1 s2}.
Arguments ext_weaken {net c W k k' s s'}.
Arguments ext_inv {net c W k s s'}.
Arguments ext_incl {net c W k s s'}.

(* C19 — property theorems (statements only; proofs are in *Proofs.v / Inv*.v).

   Vocabulary (Model.v, section Spec):  the network [net] is ANY function from (server address,
   query) to a reply — an adversary controlling every server; [choose] is ANY rule picking the
   server of a pool that gets asked (it must pick a member: [choose_ok]).
   Legit es r  : some logged upstream query was answered with record r while the asked pool's
                 zone enclosed r's owner  (= "r is in bailiwick of the server that sent it").
   AddrOK      : address allowed by the server filter, named by an in-bailiwick NS record owned
                 inside the zone's parent, and carried by an in-bailiwick address record OWNED BY
                 the NS target (strict) or found in the answer to an address query for it (loose).
   EvOK        : an upstream query went to a member of a justified pool (roots, or all AddrOK)
                 whose zone encloses the query name.
   Inv W strict: every positive cache entry is Legit and passed the answer filter (and holds at
                 most W NS records; None = no bound); a negative entry holds a raw reply; every
                 cached pool is justified; every upstream query so far is EvOK (false = loose). *)
From HV Require Import Lib.Base C19.Model C19.BaseProofs C19.TermProofs C19.InvBase C19.InvWalk
  C19.InvResolve C19.FinalProofs.
Open Scope N_scope.

(* The bailiwick predicate is exactly "the child's labels end with the parent's labels"
   (names are root-first label lists, so: the parent is a prefix). *)
Theorem C19_is_subzone_spec : forall parent child,
  is_subzone parent child = true <-> exists below, child = parent ++ below.
Proof. exact is_prefix_spec. Qed.
Print Assumptions C19_is_subzone_spec.

(* Whatever the network sends and whichever server of the pool answers, every record of the
   message that [lookup] hands on (and caches) is owned by a name inside the zone it was given. *)
Theorem C19_lookup_filter_sound : forall net choose c q zone p s s' m,
  lookup net choose c q zone p s = (s', inl m) ->
  forall r, In r (all_sections m) -> exists below, owner r = zone ++ below.
Proof.
  intros net choose c q zone p s s' m H r Hr. apply is_prefix_spec.
  exact (lookup_in_zone net choose c q zone p s s' m H r Hr).
Qed.
Print Assumptions C19_lookup_filter_sound.

(* TERMINATION.  For every network (CNAME loops, NS loops, glueless cycles, lame and
   self-referential delegations are all just functions [net]), every server choice, every
   configuration, every cache state and every query, the resolution ends with an answer or an
   error: with fuel [fuel_for c] = recursion_limit + ns_recursion_limit + 2 the model never
   runs out of fuel. *)
Theorem C19_terminates : forall net choose c q s,
  resolve_top net choose c (fuel_for c) q s <> OutOfFuel.
Proof. exact resolve_top_fuel. Qed.
Print Assumptions C19_terminates.

(* BOUND.  If no reply carries more than [w] NS records, one resolution (after any history of
   earlier client queries) sends at most query_bound c w =
   66 * (walk_bound w ns_recursion_limit + 1) upstream queries, where walk_bound w k =
   1 + 2w + (w+1) * walk_bound w (k-1) bounds one delegation walk and 66 = 2 + MAX_CNAME_LOOKUPS. *)
Theorem C19_query_bound : forall net choose c w qs q,
  choose_ok choose ->
  (forall a q', (ns_count (net a q') <= w)%nat) ->
  let s := run_history net choose c qs st0 in
  (length (evs (state_after s (resolve_top net choose c (fuel_for c) q s)))
   <= length (evs s) + query_bound c w)%nat.
Proof.
  intros net choose c w qs q Hc Hw s.
  apply (resolve_top_count net choose c (Some w) Hc Hw w q s eq_refl), history_inv; assumption.
Qed.
Print Assumptions C19_query_bound.

(* BAILIWICK, all histories.  After any sequence of client queries against any network, the
   state satisfies Inv (loose reading of server addresses): nothing out of bailiwick is cached,
   every cached name-server pool and every server ever contacted is justified by in-bailiwick
   data, the pool's zone encloses the name asked. *)
Theorem C19_reachable_states_in_bailiwick : forall net choose c qs,
  choose_ok choose -> Inv net c None false (run_history net choose c qs st0).
Proof.
  intros net choose c qs Hc. apply history_inv; [exact Hc|intros a q; exact I].
Qed.
Print Assumptions C19_reachable_states_in_bailiwick.

(* BAILIWICK, returned data.  Every record of a successful answer (all three sections,
   including the records appended while chasing aliases) is in bailiwick of the server that sent
   it, and passed the answer filter. *)
Theorem C19_returned_in_bailiwick : forall net choose c qs q s' m,
  choose_ok choose ->
  let s := run_history net choose c qs st0 in
  resolve_top net choose c (fuel_for c) q s = Done s' m ->
  forall r, In r (all_sections m) -> Legit net (evs s') r /\ ans_ok c r = true.
Proof.
  intros net choose c qs q s' m Hc s E.
  pose proof (history_post net choose c None Hc (fun _ _ => I) qs q) as H. fold s in H.
  rewrite E in H. apply H.
Qed.
Print Assumptions C19_returned_in_bailiwick.

(* FILTERS / CONTACTED SERVERS.  Every upstream query ever sent went to a configured root or to
   an address the server filter allows, as a member of the pool that was asked, and that pool's
   zone encloses the query name. *)
Theorem C19_contacted_servers_allowed : forall net choose c qs e,
  choose_ok choose ->
  In e (evs (run_history net choose c qs st0)) ->
  (In (e_ip e) (roots c) \/ denied (srv_filter c) (e_ip e) = false) /\
  In (e_ip e) (e_pool e) /\
  exists below, fst (e_q e) = e_zone e ++ below.
Proof.
  intros net choose c qs e Hc He.
  destruct (C19_reachable_states_in_bailiwick net choose c qs Hc) as (_ & _ & _ & Ievs).
  pose proof (Ievs e He) as Hev. split; [eapply EvOK_filter; eauto|].
  destruct Hev as (Hz & Hin & _). split; [exact Hin|]. apply is_prefix_spec. exact Hz.
Qed.
Print Assumptions C19_contacted_servers_allowed.

(* SERVER ADDRESSES, strict reading — REFUTED.  "Records whose owner lies outside the zone the
   answering server was delegated are never used as nameserver addresses" does not hold: a
   server gets contacted although every record that ever carried its address was owned outside
   the zone of the pool that received it (glueless NS name, address taken from the answer
   section of the address lookup whatever its owner).  Replayed on the real Recursor by the
   harness (known finding C19-glueless-address-owner). *)
Theorem C19_server_address_owner_refuted :
  exists net choose c q, choose_ok choose /\
    let s := state_after st0 (resolve_top net choose c (fuel_for c) q st0) in
    exists e, In e (evs s) /\ ~ In (e_ip e) (roots c) /\
      forall e' r, In e' (evs s) -> delivered net e' r -> rd_ip (rdat r) = Some (e_ip e) ->
                   is_subzone (e_zone e') (owner r) = false.
Proof.
  exists (tnet wtab1), (tchoose wtab1), wcfg, wq1. split; [apply tchoose_ok|exact witness_glueless_owner].
Qed.
Print Assumptions C19_server_address_owner_refuted.

(* ... and GUARDED: outside the narrow class "some server answers an address query with an
   address record owned by another name" the strict reading holds for all histories. *)
Theorem C19_server_address_owner_guarded : forall net choose c qs,
  choose_ok choose -> LooseFree net ->
  Inv net c None true (run_history net choose c qs st0).
Proof.
  intros net choose c qs Hc Hf. apply Inv_strict; [exact Hf|].
  apply C19_reachable_states_in_bailiwick, Hc.
Qed.
Print Assumptions C19_server_address_owner_guarded.

(* ERROR RESULTS — REFUTED.  A negative or referral result hands the caller (and the cache)
   records that are out of bailiwick: NXDOMAIN / NODATA / referral replies are not filtered.
   Replayed on the real Recursor (known finding C19-negative-unfiltered). *)
Theorem C19_error_records_in_bailiwick_refuted :
  exists net choose c q s' e r, choose_ok choose /\
    resolve_top net choose c (fuel_for c) q st0 = Fail s' e /\
    In r (err_records e) /\ ~ Legit net (evs s') r.
Proof.
  destruct witness_negative_unfiltered as (s' & e & r & H1 & H2 & H3).
  exists (tnet wtab2), (tchoose wtab2), wcfg, wq2, s', e, r. split; [apply tchoose_ok|auto].
Qed.
Print Assumptions C19_error_records_in_bailiwick_refuted.

(* ... and GUARDED: if every no-records reply seen so far kept its authority and additional
   records inside the asked pool's zone, the records inside an error result are in bailiwick. *)
Theorem C19_error_records_in_bailiwick_guarded : forall net choose c qs q s' e,
  choose_ok choose ->
  let s := run_history net choose c qs st0 in
  resolve_top net choose c (fuel_for c) q s = Fail s' e ->
  NegClean net (evs s') ->
  forall r, In r (err_records e) -> Legit net (evs s') r.
Proof.
  intros net choose c qs q s' e Hc s E Hn.
  pose proof (history_post net choose c None Hc (fun _ _ => I) qs q) as H. fold s in H.
  rewrite E in H. apply (err_records_legit net (evs s') e Hn), H.
Qed.
Print Assumptions C19_error_records_in_bailiwick_guarded.

(* Stub resolver: for every upstream behaviour (alias loops included) the alias chase ends,
   after at most MAX_QUERY_DEPTH = 8 upstream queries. *)
Theorem C19_stub_chase_bounded : forall up q,
  exists l r, stub_chase 8 up q 0 = Some (l, r) /\ (length l <= 8)%nat.
Proof.
  intros up q. destruct (stub_chase_fuel up 8 q 0) as (l & r & E & Hl); [cbn; lia|lia|].
  exists l, r. split; [exact E|]. cbn in Hl. lia.
Qed.
Print Assumptions C19_stub_chase_bounded.

Example C19_is_subzone_examples :
  is_subzone [] [3] = true /\ is_subzone [3] [4; 5] = false /\
  is_subzone [3; 7] [3; 7; 9] = true /\ is_subzone [3; 7] [3; 8; 9] = false /\
  is_subzone [3; 7; 9] [3; 7] = false.
Proof. repeat split. Qed.

(* hypotheses of the history theorems are satisfiable by a network on which a delegation walk
   with a glueless name server succeeds: 5 upstream queries, an answer *)
Example C19_history_example :
  choose_ok (tchoose wtab1) /\
  (forall a q, (ns_count (tnet wtab1 a q) <= 1)%nat) /\
  exists s' m, resolve_top (tnet wtab1) (tchoose wtab1) wcfg (fuel_for wcfg) wq1 st0 = Done s' m /\
               length (evs s') = 5%nat /\ an m = [mkRR [1;25;23] (RA 6666)].
Proof.
  split; [apply tchoose_ok|]. split.
  - intros a q. destruct (tnet_In wtab1 a q) as [->|H]; [vm_compute; lia|].
    remember (tnet wtab1 a q) as m eqn:Em. clear Em.
    repeat (destruct H as [[= <- <- <-]|H]; [vm_compute; lia|]). destruct H.
  - eexists _, _. split; [vm_compute; reflexivity|]. split; reflexivity.
Qed.

(* LooseFree and NegClean are satisfiable by a working network (an ordinary delegation with glue) *)
Definition wtab3 : table :=
  [ (V4 1, ([1], 2), mkMsg 0 false [] [mkRR [1] (RNS [1;14])] [mkRR [1;14] (RA 2)]);
    (V4 2, ([1;23], 2), mkMsg 0 true [] [mkRR [1] RSOA] []);
    (V4 2, ([1;23], 1), mkMsg 0 true [mkRR [1;23] (RA 7)] [] []) ].
Example C19_guard_example :
  LooseFree (tnet wtab3) /\
  exists s' m, resolve_top (tnet wtab3) (tchoose wtab3) wcfg (fuel_for wcfg) ([1;23], 1) st0 = Done s' m /\
               NegClean (tnet wtab3) (evs s') /\ length (evs s') = 3%nat.
Proof.
  split.
  - intros a q r Ht Hin Hip. destruct (tnet_In wtab3 a q) as [E|H]; [rewrite E in Hin; destruct Hin|].
    remember (tnet wtab3 a q) as m eqn:Em. clear Em.
    (* only the third entry has an answer section, owned by the name asked *)
    destruct H as [[= <- <- <-]|[[= <- <- <-]|[[= <- <- <-]|[]]]]; [destruct Hin|destruct Hin|].
    destruct Hin as [<-|[]]. reflexivity.
  - eexists _, _. split; [vm_compute; reflexivity|]. split; [|reflexivity].
    intros e nx r He Hcl Hr. cbn [evs] in He.
    (* enumerate the logged events: the reply has an answer, or its other records are in the zone asked *)
    repeat (destruct He as [<-|He]; [vm_compute in Hr, Hcl|]); [| | |destruct He]; try discriminate Hcl.
    all: repeat (destruct Hr as [<-|Hr]; [vm_compute; reflexivity|]); destruct Hr.
Qed.

Example C19_stub_loop_example :
  let up := fun q : query => SCname (match fst q with [1] => [2] | _ => [1] end) in
  exists l, stub_chase 8 up ([1], 1) 0 = Some (l, SNoRecords) /\ length l = 8%nat.
Proof. cbv zeta. eexists. split; [vm_compute; reflexivity|reflexivity]. Qed.

(* C19 — [sat] for glue collection, the NS address lookups and the zone walk *)
From HV Require Import Lib.Base C19.Model C19.BaseProofs C19.InvBase.
Open Scope N_scope.

Lemma walk_bound_step w k : (2 <= k)%nat ->
  walk_bound w k = (1 + 2 * w + (w + 1) * walk_bound w (k - 1))%nat.
Proof.
  intros Hk. destruct k as [|[|k]]; try lia.
  replace (S (S k) - 1)%nat with (S k) by lia. reflexivity.
Qed.

Lemma walk_bound_mono w k k' : (k <= k')%nat -> (walk_bound w k <= walk_bound w k')%nat.
Proof.
  induction 1 as [|k' _ IH]; [lia|]. enough (walk_bound w k' <= walk_bound w (S k'))%nat by lia.
  destruct k' as [|[|k']]; [cbn; lia|cbn; lia|]. rewrite (walk_bound_step w (S (S (S k')))) by lia.
  change (S (S (S k')) - 1)%nat with (S (S k')). nia.
Qed.

Lemma walk_bound_small w k : (k <= 1)%nat -> walk_bound w k = O.
Proof. intros Hk. destruct k as [|[|k]]; try lia; reflexivity. Qed.

Section Net.
Variable net : ip -> query -> msg.
Variable choose : list ip -> query -> option ip.
Variable c : cfg.
Variable W : option nat.
Hypothesis Hchoose : choose_ok choose.
Hypothesis HW : forall a q, wbound W (net a q).

Local Notation LegitN := (Legit net).
Local Notation LooseN := (Loose net).
Local Notation AddrOKN := (AddrOK net c false).
Local Notation PoolOKN := (PoolOK net c false).
Local Notation servesN := (serves net c).
Local Notation msg_legitN := (msg_legit net c).
Local Notation InvN := (Inv net c W false).
Local Notation msg_okN := (msg_ok net c W).
Local Notation extN := (ext net c W).
Local Notation satN := (sat net c W).
Local Notation costN := (walk_cost c W).
Local Notation wvN := (wv W).

(* [AddrOK] in its parts: the NS record naming host [t], and an address for it carried by an
   in-bailiwick record it owns ([addr_fact]) or taken from the answer to an address query for it
   ([loose_fact]) *)
Definition NSok (es : list event) (parent t : name) : Prop :=
  exists rNS, LegitN es rNS /\ rdat rNS = RNS t /\ is_subzone parent (owner rNS) = true.

Lemma NSok_mono {es es' parent t} : incl es es' -> NSok es parent t -> NSok es' parent t.
Proof. intros Hi (r & H1 & H2). exists r. split; [eapply Legit_mono; eauto|exact H2]. Qed.

Definition addr_fact (es : list event) (n : name) (a : ip) : Prop :=
  denied (srv_filter c) a = false /\
  exists rA, LegitN es rA /\ owner rA = n /\ rd_ip (rdat rA) = Some a.

Definition loose_fact (es : list event) (n : name) (a : ip) : Prop :=
  denied (srv_filter c) a = false /\ exists rA, rd_ip (rdat rA) = Some a /\ LooseN es n rA.

Lemma loose_fact_mono es es' n a : incl es es' -> loose_fact es n a -> loose_fact es' n a.
Proof. intros Hi (Hd & r & H1 & H2). split; [exact Hd|]. exists r. split; [exact H1|eapply Loose_mono; eauto]. Qed.

Lemma AddrOK_intro es Z t a :
  NSok es (base_name Z) t -> addr_fact es t a \/ loose_fact es t a -> AddrOKN es Z a.
Proof.
  intros (rNS & N1 & N2 & N3) [(Hd & rA & A1 & A2 & A3)|(Hd & rA & A1 & A2)];
    (split; [exact Hd|]); exists rNS, t, rA; auto 10.
Qed.

Definition gmap_ok (es : list event) (g : gmap) : Prop :=
  Forall (fun nl => Forall (addr_fact es (fst nl)) (snd nl)) g.

Lemma gmap_add_ok es g n a : gmap_ok es g -> addr_fact es n a -> gmap_ok es (gmap_add g n a).
Proof.
  intros Hg Ha. assert (Ha1 : Forall (addr_fact es n) [a]) by (constructor; [exact Ha|constructor]).
  induction Hg as [|[n' l] g Hl Hg IH]; cbn [gmap_add]; [constructor; [exact Ha1|constructor]|].
  destruct (name_eqb n n') eqn:En; [|constructor; assumption].
  apply bytes_eqb_eq in En. subst n'. constructor; [|exact Hg]. cbn [fst snd] in *.
  destruct (existsb (ip_eqb a) l); [exact Hl|]. apply Forall_app. split; assumption.
Qed.

Lemma add_glue_ok es rs : forall g,
  gmap_ok es g -> Forall (LegitN es) rs -> gmap_ok es (add_glue c g rs).
Proof.
  induction rs as [|r rs IH]; intros g Hg Hr; cbn [add_glue]; [exact Hg|].
  apply Forall_cons_iff in Hr as [Hr Hrs].
  destruct (rd_ip (rdat r)) as [a|] eqn:Ea; [|auto].
  destruct (denied (srv_filter c) a) eqn:Ed; [auto|].
  apply IH; [|exact Hrs]. apply gmap_add_ok; [exact Hg|]. split; [exact Ed|]. exists r. auto.
Qed.

Lemma glue_from_cache_ok s g t :
  InvN s -> gmap_ok (evs s) g -> gmap_ok (evs s) (glue_from_cache c g t s).
Proof.
  intros Hi Hg. unfold glue_from_cache. cbv zeta.
  assert (Hc : forall q g0, gmap_ok (evs s) g0 ->
            gmap_ok (evs s) match cache_get q s with
                            | Some (inl m) => add_glue c g0 (all_sections m) | _ => g0 end).
  { intros q g0 Hg0. destruct (cache_get q s) as [[m|e]|] eqn:E; auto.
    apply add_glue_ok; [exact Hg0|]. apply Forall_forall. intros r Hr.
    apply (cache_get_ok Hi E), Hr. }
  apply Hc, Hc, Hg.
Qed.

Lemma is_ns_RNS r t : rdat r = RNS t -> is_ns r = true.
Proof. intros H. unfold is_ns, is_type, rtype. rewrite H. reflexivity. Qed.

(* the bound is a variable [K] so that the induction hypothesis applies to the loop's tail call
   as it stands *)
Lemma collect_ns_ok s zone rs :
  InvN s -> Forall (LegitN (evs s)) rs ->
  forall g conf need K,
  gmap_ok (evs s) g -> Forall (AddrOKN (evs s) zone) conf ->
  Forall (NSok (evs s) (base_name zone)) need ->
  (length need + length (filter is_ns rs) <= K)%nat ->
  let '(_, conf', need') := collect_ns c (base_name zone) s rs g conf need in
  Forall (AddrOKN (evs s) zone) conf' /\ Forall (NSok (evs s) (base_name zone)) need' /\
  (length need' <= K)%nat.
Proof.
  intros Hi. induction 1 as [|r rs Hr Hrs IH]; intros g conf need K Hg Hc Hn HK; cbn [collect_ns].
  - cbn in HK. split; [exact Hc|split; [exact Hn|lia]].
  - assert (HK' : (length need + length (filter is_ns rs) <= K)%nat)
      by (cbn [filter] in HK; destruct (is_ns r); cbn [length] in HK; lia).
    destruct (rdat r) as [a|a|t|t| |ty] eqn:Ed; try (apply IH; assumption).
    destruct (negb (is_subzone (base_name zone) (owner r))) eqn:Ez; [apply IH; assumption|].
    apply negb_false_iff in Ez.
    assert (Hns : NSok (evs s) (base_name zone) t) by (exists r; auto).
    pose proof (glue_from_cache_ok s g t Hi Hg) as Hg2.
    cbn [filter] in HK. rewrite (is_ns_RNS r t Ed) in HK. cbn [length] in HK.
    destruct (assoc name_eqb t (glue_from_cache c g t s)) as [[|a l]|] eqn:Ea.
    1,3: apply IH; [exact Hg2|exact Hc|apply Forall_app; auto|rewrite app_length; cbn [length]; lia].
    apply IH; [exact Hg2| |exact Hn|lia]. apply Forall_app. split; [exact Hc|].
    apply assoc_In in Ea as (n & Hin & En). apply bytes_eqb_eq in En. subst n.
    apply (proj1 (Forall_forall _ _) Hg2) in Hin. revert Hin. apply Forall_impl.
    intros a0 Ha0. apply (AddrOK_intro _ _ t); auto.
Qed.

Lemma ns_conf_ok s zone m :
  InvN s -> msg_legitN (evs s) m ->
  let (conf, need) := ns_conf c (base_name zone) m s in
  Forall (AddrOKN (evs s) zone) conf /\ Forall (NSok (evs s) (base_name zone)) need /\
  (length need <= ns_count m)%nat.
Proof.
  intros Hi Hm. unfold ns_conf.
  assert (Hleg : Forall (LegitN (evs s)) (all_sections m))
    by (apply Forall_forall; intros r Hr; apply (Hm r Hr)).
  pose proof (collect_ns_ok s zone _ Hi Hleg (add_glue c [] (all_sections m)) [] [] (ns_count m)) as H.
  destruct (collect_ns _ _ _ _ _ _ _) as [[g' conf'] need']. apply H; auto.
  apply add_glue_ok; [constructor|exact Hleg].
Qed.

Lemma answer_ips_spec m a :
  In a (answer_ips c m) ->
  denied (srv_filter c) a = false /\ exists r, In r (an m) /\ rd_ip (rdat r) = Some a.
Proof.
  unfold answer_ips. intros H. apply in_flat_map in H. destruct H as (r & Hr & Ha).
  destruct (rd_ip (rdat r)) as [a'|] eqn:E; [|destruct Ha].
  destruct (denied (srv_filter c) a') eqn:Ed; [destruct Ha|]. destruct Ha as [<-|[]].
  split; [exact Ed|]. exists r. auto.
Qed.

(* a name whose addresses are to be looked up, with the pool to ask *)
Definition pq_ok (es : list event) (zone : name) (pn : pool * name) : Prop :=
  servesN es (snd pn) (fst pn) /\ NSok es (base_name zone) (snd pn).

Lemma pq_ok_mono {es es' zone pn} : incl es es' -> pq_ok es zone pn -> pq_ok es' zone pn.
Proof. intros Hi (Hp & Hns). split; eauto using serves_mono, NSok_mono. Qed.

Definition addrs_ok (zone : name) (es : list event) (l : list ip) : Prop := Forall (AddrOKN es zone) l.

Lemma addr_lookup_inv zone p n t s :
  InvN s -> pq_ok (evs s) zone (p, n) -> is_addr_type t ->
  satN 1 (addrs_ok zone) s (found (addr_lookup net choose c p n t s)).
Proof.
  intros Hi (Hp & Hns) Ht. cbn [fst snd] in Hp, Hns. unfold addr_lookup.
  pose proof (send_inv net choose c W Hchoose p (n, t) s Hi Hp) as Hs.
  destruct (send net choose c p (n, t) s) as [s1 [m|e]]; destruct Hs as (E & Hs).
  2:{ split; [exact E|constructor]. }
  split; [exact E|]. destruct Hs as (a0 & Es & Hsub & _). apply Forall_forall. intros a Ha.
  apply answer_ips_spec in Ha as (Hd & r & Hr & Hip). apply (AddrOK_intro _ _ n).
  { exact (NSok_mono (ext_incl E) Hns). }
  (* whatever address record the answer section holds is taken, whoever owns it *)
  right. split; [exact Hd|]. exists r. split; [exact Hip|].
  exists (mkEv a0 (n, t) (pzone p) (pips p)). cbn [e_q e_ip e_zone fst snd].
  split; [rewrite Es; left; reflexivity|]. split; [reflexivity|]. split; [exact Ht|]. split; [|apply Hp].
  apply (fsub_an _ _ Hsub), Hr.
Qed.

Lemma addr_lookups_inv zone pq : forall s,
  InvN s -> Forall (pq_ok (evs s) zone) pq ->
  satN (2 * length pq) (addrs_ok zone) s (found (addr_lookups net choose c pq s)).
Proof.
  induction pq as [|[p n] pq IH]; intros s Hi Hpq; cbn [addr_lookups].
  - apply sat_done; [exact Hi|constructor].
  - apply Forall_cons_iff in Hpq as [Hpn Hpq].
    pose proof (addr_lookup_inv zone p n T_A s Hi Hpn (or_introl eq_refl)) as H1.
    destruct (addr_lookup net choose c p n T_A s) as [s1 l1]. destruct H1 as (E1 & L1).
    pose proof (ext_incl E1) as Inc1.
    pose proof (addr_lookup_inv zone p n T_AAAA s1 (ext_inv E1) (pq_ok_mono Inc1 Hpn) (or_intror eq_refl)) as H2.
    destruct (addr_lookup net choose c p n T_AAAA s1) as [s2 l2]. destruct H2 as (E2 & L2).
    pose proof (ext_incl E2) as Inc2.
    pose proof (IH s2 (ext_inv E2) (Forall_impl _ (fun _ => pq_ok_mono (incl_tran Inc1 Inc2)) Hpq)) as H3.
    destruct (addr_lookups net choose c pq s2) as [s3 l3]. destruct H3 as (E3 & L3).
    pose proof (ext_incl E3) as Inc3.
    split; [apply (ext_trans (ext_trans E1 E2 (le_n _)) E3); cbn [length]; lia|].
    apply Forall_app. split; [exact (Forall_impl _ (fun _ => AddrOK_mono (incl_tran Inc2 Inc3)) L1)|].
    apply Forall_app. split; [exact (Forall_impl _ (fun _ => AddrOK_mono Inc3) L2)|exact L3].
Qed.

(* one level: the NS query, and for each of at most [wv] NS names two address queries and a
   walk one level down *)
Lemma walk_cost_step d : d + 1 < ns_limit c ->
  (1 + wvN * (costN (d + 1) + 2) + costN (d + 1) <= costN d)%nat.
Proof.
  intros Hd. unfold walk_cost.
  rewrite (walk_bound_step wvN (N.to_nat (ns_limit c) - N.to_nat d)) by lia.
  replace (N.to_nat (ns_limit c) - N.to_nat d - 1)%nat
    with (N.to_nat (ns_limit c) - N.to_nat (d + 1))%nat by lia. nia.
Qed.

Lemma walk_cost_le d : (costN d <= costN 0)%nat.
Proof. unfold walk_cost. apply walk_bound_mono. lia. Qed.

(* what a zone walk for [n] returns: a justified pool whose zone encloses [n] *)
Definition pool_for (n : name) (es : list event) (dp : N * pool) : Prop :=
  let (_, p) := dp in servesN es n p.

(* the functions that take the recursive call as a parameter: it is assumed to be a zone walk *)
Section Walk.
Variable rec : name -> N -> st -> res (N * pool).
Hypothesis Hrec : forall n d s, InvN s -> satN (costN d) (pool_for n) s (rec n d s).

(* a name inside the current zone is asked of the current pool, as if a walk had returned it *)
Lemma ap_pools_cons zone depth p n need s :
  ap_pools rec zone depth p (n :: need) s =
  match (if is_subzone zone n then Done s (depth, p) else rec n depth s) with
  | Done s1 (_, p') =>
      match ap_pools rec zone depth p need s1 with Some (s', l) => Some (s', (p', n) :: l) | None => None end
  | Fail s1 _ => ap_pools rec zone depth p need s1
  | OutOfFuel => None
  end.
Proof. cbn [ap_pools]. now destruct (is_subzone zone n). Qed.

Lemma ap_pools_inv zone depth p need : forall s,
  InvN s -> servesN (evs s) zone p -> Forall (NSok (evs s) (base_name zone)) need ->
  satN (length need * costN depth)
       (fun es pq => Forall (pq_ok es zone) pq /\ (length pq <= length need)%nat) s
       (fueled (ap_pools rec zone depth p need s)).
Proof.
  induction need as [|n need IH]; intros s Hi Hp Hn; [|rewrite ap_pools_cons].
  - apply sat_done; [exact Hi|]. split; [constructor|cbn [length]; lia].
  - apply Forall_cons_iff in Hn as [Hn Hneed].
    assert (Hr : satN (costN depth) (pool_for n) s
                   (if is_subzone zone n then Done s (depth, p) else rec n depth s)).
    { destruct (is_subzone zone n) eqn:Ezn; [|apply Hrec, Hi].
      apply sat_done; [exact Hi|exact (serves_sub Ezn Hp)]. }
    (* the rest of the list, from the state [s1] in which the pool for [n] was found *)
    pose proof (fun s1 (E1 : extN (costN depth) s s1) =>
                  IH s1 (ext_inv E1) (serves_mono (ext_incl E1) Hp)
                     (Forall_impl _ (fun _ => NSok_mono (ext_incl E1)) Hneed)) as Hrest.
    destruct (if is_subzone zone n then _ else _) as [s1 [d1 p1]|s1 e|]; [| |exact I].
    + destruct Hr as (E1 & Hp1). specialize (Hrest s1 E1).
      destruct (ap_pools rec zone depth p need s1) as [[s' pq]|]; [|exact I].
      destruct Hrest as (E & Hl & Hlen).
      split; [apply (ext_trans E1 E); cbn [length]; lia|].
      split; [|cbn [length]; lia]. constructor; [|exact Hl]. apply (pq_ok_mono (ext_incl E)).
      split; [exact Hp1|exact (NSok_mono (ext_incl E1) Hn)].
    + destruct Hr as (E1 & _). specialize (Hrest s1 E1).
      destruct (ap_pools rec zone depth p need s1) as [[s' pq]|]; [|exact I].
      destruct Hrest as (E & Hl & Hlen).
      split; [apply (ext_trans E1 E); cbn [length]; lia|].
      split; [exact Hl|cbn [length]; lia].
Qed.

Lemma ns_addrs_inv zone depth p m s :
  InvN s -> servesN (evs s) zone p -> msg_okN (evs s) m ->
  let (conf, need) := ns_conf c (base_name zone) m s in
  satN (wvN * (costN depth + 2)) (addrs_ok zone) s
       (fueled (ns_addrs net choose c rec zone depth p conf need s)).
Proof.
  intros Hi Hp (Hm & Hwm). pose proof (ns_conf_ok s zone m Hi Hm) as Hc.
  destruct (ns_conf c (base_name zone) m s) as [conf need]. destruct Hc as (Hc & Hn & Hlen).
  unfold ns_addrs.
  destruct (is_nil conf && negb (is_nil need)); [|apply sat_done; assumption].
  pose proof (ap_pools_inv zone depth p need s Hi Hp Hn) as Ha.
  destruct (ap_pools rec zone depth p need s) as [[s2 pq]|]; [|exact I].
  destruct Ha as (E & Hl & Hlpq).
  pose proof (addr_lookups_inv zone pq s2 (ext_inv E) Hl) as Hb.
  destruct (addr_lookups net choose c pq s2) as [s3 l3]. destruct Hb as (E3 & L3).
  split; [|exact L3]. eapply ext_weaken; [|exact (ext_trans E E3 (le_n _))]. intros Hw.
  assert (length need <= wvN)%nat by (unfold wv, wbound in *; destruct W; [lia|congruence]). nia.
Qed.

Lemma ns_fetch_inv q zone p s :
  InvN s -> servesN (evs s) zone p -> is_subzone zone (fst q) = true ->
  satN 1 msg_okN s (fetched (ns_fetch net choose c q zone p s)).
Proof.
  intros Hi Hp Hzq. apply (cached_or_lookup_inv net choose c W Hchoose HW (fun _ => true)); assumption.
Qed.

(* [k] is what the step spent; the rest of the budget is for the walk from the new depth *)
Lemma ns_step_inv zone depth p s :
  InvN s -> servesN (evs s) (base_name zone) p ->
  match ns_step net choose c rec zone depth p s with
  | SNext d' p' s' =>
      servesN (evs s') zone p' /\ exists k, extN k s s' /\ (k + costN d' <= costN depth)%nat
  | SStop s' e => extN (costN depth) s s' /\ rerr_origin net (evs s') e
  | SFuel => True
  end.
Proof.
  intros Hi Hp. unfold ns_step.
  assert (Hbz : is_subzone (base_name zone) zone = true) by apply removelast_prefix.
  destruct (assoc name_eqb zone (nscache s)) as [cp|] eqn:Ea.
  { split; [exact (nscache_ok net c W s zone cp Hi Ea)|]. exists O. split; [apply ext_refl, Hi|lia]. }
  destruct (negb (depth + 1 <? ns_limit c)) eqn:Ed.
  { split; [apply ext_refl, Hi|apply rerr_origin_nil; reflexivity]. }
  apply negb_false_iff, N.ltb_lt in Ed. pose proof (walk_cost_step depth Ed) as HU.
  pose proof (ns_fetch_inv (zone, T_NS) (base_name zone) p s Hi Hp Hbz) as Hf.
  destruct (ns_fetch net choose c (zone, T_NS) (base_name zone) p s) as [s1 lr].
  assert (E1 : extN 1 s s1) by (destruct lr; apply Hf).
  pose proof (serves_mono (ext_incl E1) (serves_sub Hbz Hp)) as Hp1.
  (* no new pool: on with the old one *)
  assert (Hsame : servesN (evs s1) zone p /\
                  exists k, extN k s s1 /\ (k + costN (depth + 1) <= costN depth)%nat)
    by (split; [exact Hp1|exists 1%nat; split; [exact E1|lia]]).
  destruct lr as [m|e]; destruct Hf as (_ & Hlr).
  2:{ destruct (is_nx e); [|exact Hsame]. split; [|exact Hlr]. eapply ext_weaken; [|exact E1]. lia. }
  destruct (negb (any_ns zone m)); [exact Hsame|].
  pose proof (ns_addrs_inv zone (depth + 1) p m s1 (ext_inv E1) Hp1 Hlr) as Ha.
  destruct (ns_conf c (base_name zone) m s1) as [conf need].
  destruct (ns_addrs net choose c rec zone (depth + 1) p conf need s1) as [[s3 conf']|]; [|exact I].
  destruct Ha as (E3 & Hc3).
  assert (Hnp : PoolOKN (evs s3) (mkPool zone conf')) by (right; apply Forall_forall, Hc3).
  split; [split; [exact Hnp|apply is_prefix_refl]|].
  exists (1 + wvN * (costN (depth + 1) + 2))%nat. split; [|lia].
  apply ext_put_pool; [exact (ext_trans E1 E3 (le_n _))|reflexivity|exact Hnp].
Qed.

Lemma ns_loop_inv n : forall k j depth p s,
  (j + k <= length n)%nat -> InvN s -> servesN (evs s) (firstn j n) p ->
  satN (costN depth) (pool_for n) s
    (ns_loop net choose c rec (map (fun i => firstn i n) (seq (S j) k)) depth p s).
Proof.
  induction k as [|k IH]; intros j depth p s Hjk Hi Hp; cbn [seq map ns_loop].
  - apply sat_done; [exact Hi|exact (serves_sub (firstn_prefix _ _) Hp)].
  - pose proof (ns_step_inv (firstn (S j) n) depth p s Hi) as Hs.
    unfold base_name in Hs. rewrite removelast_firstn in Hs by lia. specialize (Hs Hp).
    destruct (ns_step net choose c rec (firstn (S j) n) depth p s) as [d' p' s'|s' e|]; [|exact Hs|exact I].
    destruct Hs as (Hp' & k0 & E & Hk).
    apply (sat_seq net c W _ k0 (costN d') _ s s'); [exact E| |exact Hk].
    apply IH; [lia|exact (ext_inv E)|exact Hp'].
Qed.

End Walk.

Lemma num_labels_le n : (num_labels n <= length n)%nat.
Proof.
  unfold num_labels. destruct (rev n) as [|l r]; [lia|]. destruct (N.eqb l star); lia.
Qed.

Lemma root_pool_ok es n : servesN es n (root_pool c).
Proof. split; [left; split; reflexivity|reflexivity]. Qed.

Lemma ns_pool_inv : forall fuel n d s,
  InvN s -> satN (costN d) (pool_for n) s (ns_pool net choose c fuel n d s).
Proof.
  induction fuel as [|f IH]; intros n d s Hi; cbn [ns_pool]; [exact I|].
  apply (ns_loop_inv (ns_pool net choose c f) IH n (num_labels n) 0 d (root_pool c) s);
    [apply num_labels_le|exact Hi|apply root_pool_ok].
Qed.

End Net.

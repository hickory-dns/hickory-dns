(* C19 — table networks; the closed results: histories, query bound, strict variant, error
   records, witnesses *)
From HV Require Import Lib.Base C19.Model C19.BaseProofs C19.TermProofs C19.InvBase C19.InvWalk C19.InvResolve.
Open Scope N_scope.

Lemma tnet_In t a q : tnet t a q = refused \/ In (a, q, tnet t a q) t.
Proof.
  induction t as [|[[a' q'] m] t IH]; cbn [tnet]; [auto|].
  destruct (ip_eqb a a' && query_eqb q q') eqn:E.
  - apply andb_true_iff in E as [E1 E2]. apply ip_eqb_eq in E1. apply query_eqb_eq in E2. subst.
    right. left. reflexivity.
  - destruct IH as [IH|IH]; [auto|right; right; exact IH].
Qed.

Lemma tchoose_ok t : choose_ok (tchoose t).
Proof.
  intros l q a. induction t as [|[[a' q'] m] t IH]; cbn [tchoose]; [discriminate|].
  destruct (query_eqb q q' && existsb (ip_eqb a') l) eqn:E; [|exact IH].
  intros [= <-]. apply andb_true_iff in E as [_ E].
  apply existsb_exists in E as (x & Hx & Hxe). apply ip_eqb_eq in Hxe. subst. exact Hx.
Qed.

Section Net.
Variable net : ip -> query -> msg.
Variable choose : list ip -> query -> option ip.
Variable c : cfg.
Variable W : option nat.
Hypothesis Hchoose : choose_ok choose.
Hypothesis HW : forall a q, wbound W (net a q).

Local Notation InvN := (Inv net c W false).
Local Notation rcN := (res_cost c W).

Lemma resolve_top_post q s :
  InvN s ->
  sat net c W rcN (msg_legit net c) (set_cn s 0) (resolve_top net choose c (fuel_for c) q s).
Proof.
  intros Hi. unfold resolve_top. apply resolve_inv; [exact Hchoose|exact HW|apply Inv_set_cn, Hi].
Qed.

Lemma state_after_ext q s :
  InvN s -> ext net c W rcN (set_cn s 0) (state_after s (resolve_top net choose c (fuel_for c) q s)).
Proof.
  intros Hi. pose proof (resolve_top_post q s Hi) as H.
  destruct (resolve_top net choose c (fuel_for c) q s) eqn:E; cbn [state_after]; [apply H|apply H|].
  destruct (resolve_top_fuel net choose c q s E).
Qed.

Lemma state_after_incl q s :
  InvN s -> incl (evs s) (evs (state_after s (resolve_top net choose c (fuel_for c) q s))).
Proof. intros Hi. exact (ext_incl (state_after_ext q s Hi)). Qed.

Lemma run_history_inv qs : forall s, InvN s -> InvN (run_history net choose c qs s).
Proof.
  induction qs as [|q qs IH]; intros s Hi; cbn [run_history]; [exact Hi|].
  exact (IH _ (ext_inv (state_after_ext q s Hi))).
Qed.

Lemma history_inv qs : InvN (run_history net choose c qs st0).
Proof. apply run_history_inv, Inv_st0. Qed.

Lemma history_post qs q :
  sat net c W rcN (msg_legit net c) (set_cn (run_history net choose c qs st0) 0)
    (resolve_top net choose c (fuel_for c) q (run_history net choose c qs st0)).
Proof. apply resolve_top_post, history_inv. Qed.

(* one walk and one query for the client's query and for each alias the counter lets through;
   [query_bound] allows one more *)
Lemma resolve_top_count w q s :
  W = Some w -> InvN s ->
  (length (evs (state_after s (resolve_top net choose c (fuel_for c) q s)))
   <= length (evs s) + query_bound c w)%nat.
Proof.
  intros Hw Hi. assert (Hne : W <> None) by (rewrite Hw; discriminate).
  pose proof (ext_count net c W s _ Hne (state_after_ext q s Hi)) as H.
  unfold query_bound. unfold res_cost, walk_cost, wv in H. rewrite Hw, Nat.sub_0_r in H. nia.
Qed.

Lemma EvOK_filter strict es e :
  EvOK net c strict es e -> In (e_ip e) (roots c) \/ denied (srv_filter c) (e_ip e) = false.
Proof.
  intros (_ & Hin & [[_ Hr]|Hp]); cbn [pzone pips] in *.
  - left. rewrite <- Hr. exact Hin.
  - right. apply (Hp _ Hin).
Qed.

Lemma Loose_Legit es t r :
  LooseFree net -> rd_ip (rdat r) <> None -> Loose net es t r -> Legit net es r /\ owner r = t.
Proof.
  intros Hf Hip (e & He & Hq & Ht & Hin & Hz).
  assert (Ho : owner r = t) by (rewrite <- Hq; apply (Hf (e_ip e) (e_q e) r Ht Hin Hip)).
  split; [|exact Ho]. exists e. split; [exact He|]. split.
  - unfold delivered, all_sections. apply in_app_iff. left. exact Hin.
  - rewrite Ho. exact Hz.
Qed.

Lemma AddrOK_strict es Z a : LooseFree net -> AddrOK net c false es Z a -> AddrOK net c true es Z a.
Proof.
  intros Hf (Hd & rNS & t & rA & Hns & Ht & Hz & Hip & Haddr). split; [exact Hd|].
  exists rNS, t, rA. split; [exact Hns|]. split; [exact Ht|]. split; [exact Hz|]. split; [exact Hip|].
  left. destruct Haddr as [Hleg|[_ Hloose]]; [exact Hleg|].
  apply Loose_Legit; auto. rewrite Hip. discriminate.
Qed.

Lemma PoolOK_strict es p : LooseFree net -> PoolOK net c false es p -> PoolOK net c true es p.
Proof. intros Hf [H|H]; [left; exact H|right; intros a Ha; apply AddrOK_strict; auto]. Qed.

Lemma Inv_strict s : LooseFree net -> Inv net c W false s -> Inv net c W true s.
Proof.
  intros Hf (Ipos & Ineg & Ipools & Ievs). split; [exact Ipos|]. split; [exact Ineg|]. split.
  - intros z p H. destruct (Ipools z p H) as [Hz Hp]. split; [exact Hz|apply PoolOK_strict; auto].
  - intros e H. destruct (Ievs e H) as (Hz & Hin & Hp).
    split; [exact Hz|]. split; [exact Hin|apply PoolOK_strict; auto].
Qed.

Lemma err_records_legit es e :
  NegClean net es -> rerr_origin net es e -> forall r, In r (err_records e) -> Legit net es r.
Proof.
  intros Hc (m0 & [->|(e0 & nx & He0 & -> & Hcl)] & Hincl) r Hr; apply Hincl in Hr.
  - cbn in Hr. destruct Hr.
  - exists e0. split; [exact He0|]. split.
    + unfold delivered, all_sections. apply in_app_iff in Hr. rewrite !in_app_iff. tauto.
    + eapply Hc; eauto.
Qed.

End Net.

(* witnesses (the same scenarios are replayed on the real Recursor by the harness probe) *)

Definition wcfg : cfg := mkCfg [V4 1] 24 24 (mkAcs [] []) (mkAcs [] []) false.

(* labels: a=1 b=2 e=5 n=14 q=17 w=23 x=24 y=25 z=26.
   root 1 delegates a. to 2 (glue); 2 delegates y.a. to n.y.a. WITHOUT glue; asked "n.y.a. A"
   server 2 answers "z.b. A 66"; 66 then answers for w.y.a. *)
Definition wtab1 : table :=
  [ (V4 1, ([1], 2), mkMsg 0 false [] [mkRR [1] (RNS [1;14])] [mkRR [1;14] (RA 2)]);
    (V4 2, ([1;25], 2), mkMsg 0 false [] [mkRR [1;25] (RNS [1;25;14])] []);
    (V4 2, ([1;25;14], 1), mkMsg 0 true [mkRR [2;26] (RA 66)] [] []);
    (V4 66, ([1;25;23], 2), mkMsg 0 true [] [mkRR [1;25] RSOA] []);
    (V4 66, ([1;25;23], 1), mkMsg 0 true [mkRR [1;25;23] (RA 6666)] [] []) ].
Definition wq1 : query := ([1;25;23], 1).

(* the server of x.a. answers "q.x.a. NS" with NXDOMAIN and foreign authority records *)
Definition wtab2 : table :=
  [ (V4 1, ([1], 2), mkMsg 0 false [] [mkRR [1] (RNS [1;14])] [mkRR [1;14] (RA 2)]);
    (V4 2, ([1;24], 2), mkMsg 0 false [] [mkRR [1;24] (RNS [1;24;14])] [mkRR [1;24;14] (RA 3)]);
    (V4 3, ([1;24;17], 2), mkMsg 3 true [] [mkRR [2] RSOA; mkRR [2] (RNS [2;5])] [mkRR [2;5] (RA 66)]) ].
Definition wq2 : query := ([1;24;17], 1).

Lemma witness_glueless_owner :
  let s := state_after st0 (resolve_top (tnet wtab1) (tchoose wtab1) wcfg (fuel_for wcfg) wq1 st0) in
  exists e, In e (evs s) /\ ~ In (e_ip e) (roots wcfg) /\
    forall e' r, In e' (evs s) -> delivered (tnet wtab1) e' r -> rd_ip (rdat r) = Some (e_ip e) ->
                 is_subzone (e_zone e') (owner r) = false.
Proof.
  cbv zeta.
  remember (evs (state_after st0 (resolve_top (tnet wtab1) (tchoose wtab1) wcfg (fuel_for wcfg) wq1 st0))) as es eqn:Hes.
  vm_compute in Hes. subst es.
  exists (mkEv (V4 66) ([1;25;23], 2) [1;25] [V4 66]). split; [right; left; reflexivity|].
  split; [cbn; intros [H|[]]; discriminate|].
  intros e' r He Hd Hip. unfold delivered in Hd. cbn [e_ip] in Hip.
  (* enumerate the logged events and the records of each reply: a record carries another
     address or is owned outside the zone asked *)
  repeat (destruct He as [<-|He]; [vm_compute in Hd|]); [| | | | |destruct He].
  all: repeat (destruct Hd as [<-|Hd]; [vm_compute in Hip; try discriminate; vm_compute; reflexivity|]);
    contradiction.
Qed.

Lemma witness_negative_unfiltered :
  exists s' e r, resolve_top (tnet wtab2) (tchoose wtab2) wcfg (fuel_for wcfg) wq2 st0 = Fail s' e /\
    In r (err_records e) /\ ~ Legit (tnet wtab2) (evs s') r.
Proof.
  remember (resolve_top (tnet wtab2) (tchoose wtab2) wcfg (fuel_for wcfg) wq2 st0) as res eqn:Hr.
  vm_compute in Hr. subst res.
  eexists _, _, (mkRR [2] RSOA). split; [reflexivity|]. split; [cbn; left; reflexivity|].
  intros (e & He & Hd & Hz). cbn [evs] in He. unfold delivered in Hd.
  (* enumerate the logged events: the zone asked does not enclose [2], or the reply lacks the record *)
  repeat (destruct He as [<-|He]; [vm_compute in Hd, Hz|]); [| | |destruct He]; try discriminate Hz.
  all: repeat (destruct Hd as [Hd|Hd]; [discriminate Hd|]); contradiction.
Qed.

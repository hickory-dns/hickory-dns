(* C19 — termination: OutOfFuel is unreachable with fuel_for c, for every network *)
From HV Require Import Lib.Base C19.Model C19.BaseProofs.
Open Scope N_scope.

Section Net.
Variable net : ip -> query -> msg.
Variable choose : list ip -> query -> option ip.
Variable c : cfg.

Lemma ap_pools_none rec zone depth p need : forall s,
  ap_pools rec zone depth p need s = None -> exists n s0, rec n depth s0 = OutOfFuel.
Proof.
  induction need as [|n need IH]; intros s; cbn [ap_pools]; [discriminate|].
  destruct (is_subzone zone n).
  - specialize (IH s). destruct (ap_pools rec zone depth p need s) as [[s' l]|]; [discriminate|auto].
  - destruct (rec n depth s) as [s1 [d1 p1]|s1 e|] eqn:Er; [|apply IH|eauto].
    specialize (IH s1). destruct (ap_pools rec zone depth p need s1) as [[s' l]|]; [discriminate|auto].
Qed.

Lemma ns_step_cases rec zone depth p s :
  match ns_step net choose c rec zone depth p s with
  | SNext d' _ _ => d' = depth \/ (d' = depth + 1 /\ d' < ns_limit c)
  | SStop _ _ => True
  | SFuel => depth + 1 < ns_limit c /\ exists n s0, rec n (depth + 1) s0 = OutOfFuel
  end.
Proof.
  unfold ns_step.
  destruct (assoc name_eqb zone (nscache s)); [auto|].
  destruct (negb (depth + 1 <? ns_limit c)) eqn:Ed; [exact I|].
  apply negb_false_iff, N.ltb_lt in Ed.
  destruct (ns_fetch net choose c (zone, T_NS) (base_name zone) p s) as [s1 [m|e]].
  2:{ destruct (is_nx e); auto. }
  destruct (negb (any_ns zone m)); [auto|].
  destruct (ns_conf c (base_name zone) m s1) as [conf need].
  unfold ns_addrs. destruct (is_nil conf && negb (is_nil need)); [|auto].
  destruct (ap_pools rec zone (depth + 1) p need s1) as [[s2 pq]|] eqn:Ea.
  - destruct (addr_lookups net choose c pq s2). auto.
  - split; [exact Ed|]. exact (ap_pools_none _ _ _ _ _ _ Ea).
Qed.

Lemma ns_step_depth_lt rec zone depth p s d' p' s' :
  ns_step net choose c rec zone depth p s = SNext d' p' s' -> d' = depth \/ (d' = depth + 1 /\ d' < ns_limit c).
Proof. intros H. pose proof (ns_step_cases rec zone depth p s) as Hc. rewrite H in Hc. exact Hc. Qed.

Lemma ns_loop_cases rec zones : forall depth p s,
  (forall n d s0, depth < d -> d < ns_limit c -> rec n d s0 <> OutOfFuel) ->
  match ns_loop net choose c rec zones depth p s with
  | Done _ (d', _) => depth <= d'
  | Fail _ _ => True
  | OutOfFuel => False
  end.
Proof.
  induction zones as [|zone rest IH]; intros depth p s Hrec; cbn [ns_loop]; [lia|].
  pose proof (ns_step_cases rec zone depth p s) as Hs.
  destruct (ns_step net choose c rec zone depth p s) as [d' p' s'|s' e|]; [|exact I|].
  - assert (Hd : depth <= d') by lia.
    specialize (IH d' p' s' (fun n d s0 Hlt => Hrec n d s0 (N.le_lt_trans _ _ _ Hd Hlt))).
    destruct (ns_loop net choose c rec rest d' p' s') as [s2 [d2 p2]|s2 e2|]; [lia|exact I|exact IH].
  - destruct Hs as (Hl & n & s0 & E). assert (Hd : depth < depth + 1) by lia.
    exact (Hrec n (depth + 1) s0 Hd Hl E).
Qed.

Lemma ns_pool_cases : forall fuel n d s,
  (N.to_nat (ns_limit c) - N.to_nat d < fuel)%nat ->
  match ns_pool net choose c fuel n d s with
  | Done _ (d', _) => d <= d'
  | Fail _ _ => True
  | OutOfFuel => False
  end.
Proof.
  induction fuel as [|f IH]; intros n d s Hf; [lia|].
  cbn [ns_pool]. apply ns_loop_cases. intros n' d' s0 Hd Hl E.
  assert (Hf' : (N.to_nat (ns_limit c) - N.to_nat d' < f)%nat) by lia.
  specialize (IH n' d' s0 Hf'). rewrite E in IH. exact IH.
Qed.

Lemma cname_step_fuel rec ans qt depth r s :
  (forall q s0, rec q depth s0 <> OutOfFuel) ->
  cname_step rec ans qt depth r s <> CFuel.
Proof.
  intros Hrec. unfold cname_step. destruct (rdat r); try discriminate.
  destruct (existsb _ ans); [discriminate|].
  destruct (MAX_CNAME_LOOKUPS <? cn s + 1); [discriminate|].
  destruct (rec (t, qt) depth (set_cn s (cn s + 1))) eqn:Er; try discriminate.
  exfalso. exact (Hrec _ _ Er).
Qed.

Lemma cname_loop_fuel rec ans qt depth rs : forall chain s,
  (forall q s0, rec q depth s0 <> OutOfFuel) ->
  cname_loop rec ans qt depth rs chain s <> OutOfFuel.
Proof.
  induction rs as [|r rs IH]; intros chain s Hrec; cbn [cname_loop]; [discriminate|].
  destruct (cname_step rec ans qt depth r s) eqn:Es; [apply IH; exact Hrec|discriminate|].
  exfalso. revert Es. apply cname_step_fuel. exact Hrec.
Qed.

Lemma resolve_cnames_fuel rec m q depth s :
  (forall q' s0, depth + 1 < rec_limit c -> rec q' (depth + 1) s0 <> OutOfFuel) ->
  resolve_cnames c rec m q depth s <> OutOfFuel.
Proof.
  intros Hrec. unfold resolve_cnames.
  destruct (N.eqb (snd q) T_CNAME || N.eqb (snd q) T_ANY); [discriminate|].
  destruct (negb (existsb is_cname (all_sections m))); [discriminate|].
  destruct (negb (depth + 1 <? rec_limit c)) eqn:Ed; [discriminate|].
  apply negb_false_iff, N.ltb_lt in Ed.
  pose proof (cname_loop_fuel rec (an m) (snd q) (depth + 1) (all_sections m) [] s
                (fun q' s0 => Hrec q' s0 Ed)) as Hl.
  destruct (cname_loop rec (an m) (snd q) (depth + 1) (all_sections m) [] s); try discriminate.
  contradiction.
Qed.

Lemma resolve_fuel : forall fuel q d s,
  (N.to_nat (rec_limit c) - N.to_nat d + N.to_nat (ns_limit c) + 2 <= fuel)%nat ->
  resolve net choose c fuel q d s <> OutOfFuel.
Proof.
  induction fuel as [|f IH]; intros q d s Hf; [lia|].
  cbn [resolve]. unfold resolve_body.
  assert (Hcn : forall m d' s', d <= d' -> resolve_cnames c (resolve net choose c f) m q d' s' <> OutOfFuel).
  { intros m d' s' Hd. apply resolve_cnames_fuel. intros q' s0 Hl. apply IH. lia. }
  assert (Hmiss : resolve_miss net choose c (resolve net choose c f) f q d s <> OutOfFuel).
  { unfold resolve_miss.
    set (zone := if N.eqb (snd q) T_DS then base_name (fst q) else fst q).
    assert (Hwalk : (N.to_nat (ns_limit c) - N.to_nat d < f)%nat) by lia.
    pose proof (ns_pool_cases f zone d s Hwalk) as Hns.
    destruct (ns_pool net choose c f zone d s) as [s1 [d1 p1]|s1 e|]; [| |destruct Hns].
    - destruct (final_fetch net choose c q p1 s1) as [s2 [m|e]]; [|discriminate].
      apply Hcn, Hns.
    - destruct (is_nx e); discriminate. }
  destruct (cache_get q s) as [[m|e]|]; [|discriminate|exact Hmiss].
  destruct (aa m); [|exact Hmiss]. apply Hcn. lia.
Qed.

Lemma resolve_top_fuel q s : resolve_top net choose c (fuel_for c) q s <> OutOfFuel.
Proof. unfold resolve_top. apply resolve_fuel. unfold fuel_for. lia. Qed.

End Net.

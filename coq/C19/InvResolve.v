(* C19 — [sat] for the alias chase and the whole resolution *)
From HV Require Import Lib.Base C19.Model C19.BaseProofs C19.InvBase C19.InvWalk.
Open Scope N_scope.

Section Net.
Variable net : ip -> query -> msg.
Variable choose : list ip -> query -> option ip.
Variable c : cfg.
Variable W : option nat.
Hypothesis Hchoose : choose_ok choose.
Hypothesis HW : forall a q, wbound W (net a q).

Local Notation msg_legitN := (msg_legit net c).
Local Notation recs_okN := (recs_ok net c).
Local Notation InvN := (Inv net c W false).
Local Notation extN := (ext net c W).
Local Notation satN := (sat net c W).
Local Notation costN := (walk_cost c W).
Local Notation res_costN := (res_cost c W).

Lemma final_fetch_inv q p s :
  InvN s -> serves net c (evs s) (fst q) p ->
  satN 1 (msg_ok net c W) s (fetched (final_fetch net choose c q p s)).
Proof.
  intros Hi [Hp Hz].
  apply (cached_or_lookup_inv net choose c W Hchoose HW aa); [exact Hi| |exact Hz].
  split; [exact Hp|apply is_prefix_refl].
Qed.

(* the functions that take the recursive call as a parameter: it is assumed to be a resolution,
   which sends at most [res_cost] queries that the alias counter has not paid for: its own walk
   and final query *)
Section Cnames.
Variable rec : query -> N -> st -> res msg.
Hypothesis Hrec : forall q d s, InvN s -> satN res_costN msg_legitN s (rec q d s).

Lemma cname_step_inv ans qt depth r s :
  InvN s -> satN 0 recs_okN s (cstep_res (cname_step rec ans qt depth r s)).
Proof.
  intros Hi. unfold cname_step.
  assert (Hnoop : satN 0 recs_okN s (Done s [])) by (apply sat_done; [exact Hi|intros x []]).
  destruct (rdat r) as [a|a|t|t| |ty]; try exact Hnoop.
  destruct (existsb (fun a => name_eqb (owner a) t) ans); [exact Hnoop|].
  destruct (MAX_CNAME_LOOKUPS <? cn s + 1) eqn:El.
  - split; [apply ext_set_cn; [exact Hi|lia]|apply rerr_origin_nil; reflexivity].
  - apply N.ltb_ge in El.
    pose proof (Hrec (t, qt) depth _ (Inv_set_cn net c W s (cn s + 1) Hi)) as Hr.
    destruct (rec (t, qt) depth (set_cn s (cn s + 1))) as [s1 m|s1 e|]; [| |exact I];
      destruct Hr as (E & H); apply (ext_bump net c W 0 _ _ El) in E.
    + split; [exact E|]. intros x Hx. apply filter_In in Hx. apply H, in_or_app. left. apply Hx.
    + split; [exact E|exact H].
Qed.

Lemma cname_loop_inv ans qt depth rs : forall chain s,
  InvN s -> recs_okN (evs s) chain ->
  satN 0 recs_okN s (cname_loop rec ans qt depth rs chain s).
Proof.
  induction rs as [|r rs IH]; intros chain s Hi Hc; cbn [cname_loop].
  - apply sat_done; assumption.
  - pose proof (cname_step_inv ans qt depth r s Hi) as Hs.
    destruct (cname_step rec ans qt depth r s) as [add s1|s1 e|]; [|exact Hs|exact I].
    destruct Hs as (E1 & Hadd). apply (sat_seq net c W _ 0 0 0 s s1 _ E1); [|lia].
    apply IH; [exact (ext_inv E1)|]. intros x Hx. apply in_app_iff in Hx as [Hx|Hx]; [|apply Hadd, Hx].
    apply (recs_ok_mono net c _ _ _ (ext_incl E1) Hc x Hx).
Qed.

Lemma resolve_cnames_inv m q depth s :
  InvN s -> msg_legitN (evs s) m ->
  satN 0 msg_legitN s (resolve_cnames c rec m q depth s).
Proof.
  intros Hi Hm. unfold resolve_cnames.
  assert (Hsame : satN 0 msg_legitN s (Done s m)) by (apply sat_done; assumption).
  destruct (N.eqb (snd q) T_CNAME || N.eqb (snd q) T_ANY); [exact Hsame|].
  destruct (negb (existsb is_cname (all_sections m))); [exact Hsame|].
  destruct (negb (depth + 1 <? rec_limit c)).
  { apply sat_fail; [exact Hi|apply rerr_origin_nil; reflexivity]. }
  pose proof (cname_loop_inv (an m) (snd q) (depth + 1) (all_sections m) [] s Hi
                (fun x (H : In x []) => False_ind _ H)) as Hl.
  destruct (cname_loop rec (an m) (snd q) (depth + 1) (all_sections m) [] s) as [s1 chain|s1 e|];
    [|exact Hl|exact I].
  destruct Hl as (E1 & Hc). split; [exact E1|].
  assert (Hm1 : msg_legitN (evs s1) m) by exact (recs_ok_mono net c _ _ _ (ext_incl E1) Hm).
  intros x Hx. unfold all_sections in Hx. cbn [an au ad] in Hx. rewrite !in_app_iff in Hx.
  destruct Hx as [[Hx|Hx]|Hx]; [|apply Hc, Hx|]; apply Hm1; unfold all_sections; rewrite !in_app_iff; auto.
Qed.

Lemma resolve_miss_inv fuel q depth s :
  InvN s -> satN res_costN msg_legitN s (resolve_miss net choose c rec fuel q depth s).
Proof.
  intros Hi. unfold resolve_miss.
  set (zone := if N.eqb (snd q) T_DS then base_name (fst q) else fst q).
  assert (Hzq : is_subzone zone (fst q) = true).
  { unfold zone. destruct (N.eqb (snd q) T_DS); [apply removelast_prefix|apply is_prefix_refl]. }
  pose proof (ns_pool_inv net choose c W Hchoose HW fuel zone depth s Hi) as Hn.
  assert (HU : (costN depth + 1 <= res_costN)%nat)
    by (unfold res_cost; pose proof (walk_cost_le c W depth); lia).
  destruct (ns_pool net choose c fuel zone depth s) as [s1 [d1 p1]|s1 e|]; [| |exact I].
  - destruct Hn as (E1 & Hp1).
    pose proof (final_fetch_inv q p1 s1 (ext_inv E1) (serves_sub Hzq Hp1)) as Hf.
    destruct (final_fetch net choose c q p1 s1) as [s2 [m|e]]; destruct Hf as (E2 & Hlr);
      pose proof (ext_trans E1 E2 HU) as E12; [|split; [exact E12|exact Hlr]].
    apply (sat_seq net c W _ res_costN 0 _ s s2 _ E12); [|lia].
    apply resolve_cnames_inv; [exact (ext_inv E12)|apply Hlr].
  - destruct Hn as (E1 & He).
    assert (E : extN res_costN s s1) by (eapply ext_weaken; [|exact E1]; lia).
    destruct (is_nx e); (split; [exact E|]); [exact He|apply rerr_origin_nil; reflexivity].
Qed.

End Cnames.

Lemma resolve_inv : forall fuel q d s,
  InvN s -> satN res_costN msg_legitN s (resolve net choose c fuel q d s).
Proof.
  induction fuel as [|f IH]; intros q d s Hi; cbn [resolve]; [exact I|].
  unfold resolve_body.
  pose proof (resolve_miss_inv (resolve net choose c f) IH f q d s Hi) as Hmiss.
  pose proof (@cache_get_ok net c W q s) as Hc.
  destruct (cache_get q s) as [[m|e]|]; [| |exact Hmiss]; specialize (Hc _ Hi eq_refl).
  - destruct (aa m); [|exact Hmiss]. apply (sat_seq net c W _ 0 0 _ s s _ (ext_refl net c W 0 s Hi)); [|lia].
    apply resolve_cnames_inv; [exact IH|exact Hi|apply Hc].
  - apply sat_fail; assumption.
Qed.

End Net.

(* C19 — basic lemmas: names, filters, lookup, stub chase *)
From HV Require Import Lib.Base C19.Model.
Open Scope N_scope.

Lemma is_prefix_spec p c : is_prefix p c = true <-> exists s, c = p ++ s.
Proof.
  revert c; induction p as [|x p IH]; intros c; cbn [is_prefix].
  - split; [intros _; exists c; reflexivity|reflexivity].
  - destruct c as [|y c].
    + split; [discriminate|intros [s Hs]; discriminate].
    + rewrite andb_true_iff, N.eqb_eq, IH. split.
      * intros [-> [s ->]]. exists s. reflexivity.
      * intros [s Hs]. cbn [app] in Hs. inversion Hs; subst. split; [reflexivity|exists s; reflexivity].
Qed.

Lemma is_prefix_refl p : is_prefix p p = true.
Proof. apply is_prefix_spec. exists []. now rewrite app_nil_r. Qed.

Lemma is_prefix_trans a b c : is_prefix a b = true -> is_prefix b c = true -> is_prefix a c = true.
Proof.
  rewrite !is_prefix_spec. intros [s ->] [t ->]. exists (s ++ t). now rewrite app_assoc.
Qed.

Lemma is_prefix_nil c : is_prefix [] c = true.
Proof. reflexivity. Qed.

Lemma firstn_prefix (n : name) i : is_prefix (firstn i n) n = true.
Proof. apply is_prefix_spec. exists (skipn i n). symmetry. apply firstn_skipn. Qed.

Lemma removelast_prefix (n : name) : is_prefix (removelast n) n = true.
Proof. rewrite removelast_firstn_len. apply firstn_prefix. Qed.

Lemma name_eqb_refl a : name_eqb a a = true.
Proof. now apply bytes_eqb_eq. Qed.

Lemma ip_eqb_eq a b : ip_eqb a b = true <-> a = b.
Proof. destruct a, b; cbn [ip_eqb]; rewrite ?N.eqb_eq; split; congruence. Qed.

Lemma query_eqb_eq a b : query_eqb a b = true <-> a = b.
Proof.
  destruct a, b. unfold query_eqb. cbn [fst snd]. rewrite andb_true_iff, bytes_eqb_eq, N.eqb_eq.
  split; [intros [-> ->]; reflexivity|intros [= -> ->]; auto].
Qed.

Lemma filter_In_fwd {A} (f : A -> bool) l x : In x (filter f l) -> In x l /\ f x = true.
Proof. apply filter_In. Qed.

(* what [lookup] and [pool_filter] build *)
Definition msg_filter (f : rr -> bool) (m : msg) : msg :=
  mkMsg (rcode m) (aa m) (filter f (an m)) (filter f (au m)) (filter f (ad m)).

Lemma In_msg_filter f m r :
  In r (all_sections (msg_filter f m)) <-> In r (all_sections m) /\ f r = true.
Proof. unfold all_sections, msg_filter; cbn [an au ad]. rewrite <- !filter_app. apply filter_In. Qed.

Section Net.
Variable net : ip -> query -> msg.
Variable choose : list ip -> query -> option ip.
Variable c : cfg.

Lemma lookup_spec q zone p s s' m :
  lookup net choose c q zone p s = (s', inl m) ->
  exists s1 m0, send net choose c p q s = (s1, inl m0) /\
    m = msg_filter (in_zone zone) m0 /\ s' = cache_insert_pos c q m s1.
Proof.
  unfold lookup. destruct (send net choose c p q s) as [s1 [m0|e]]; [|discriminate].
  destruct (_ || _); [discriminate|].
  intros [= <- <-]. exists s1, m0. repeat split.
Qed.

Lemma lookup_in_zone q zone p s s' m :
  lookup net choose c q zone p s = (s', inl m) ->
  forall r, In r (all_sections m) -> is_subzone zone (owner r) = true.
Proof.
  intros H r Hr. destruct (lookup_spec q zone p s s' m H) as (s1 & m0 & _ & -> & _).
  apply (In_msg_filter (in_zone zone) m0 r), Hr.
Qed.

End Net.

Lemma stub_chase_fuel up : forall fuel q d,
  (N.to_nat MAX_QUERY_DEPTH <= fuel + N.to_nat d)%nat -> (0 < fuel)%nat ->
  exists l r, stub_chase fuel up q d = Some (l, r) /\ (length l + N.to_nat d <= N.to_nat MAX_QUERY_DEPTH \/ length l = 1)%nat.
Proof.
  induction fuel as [|f IH]; intros q d Hf Hpos; [lia|].
  cbn [stub_chase]. destruct (up q) as [|t|].
  1,3: eexists _, _; split; [reflexivity|right; reflexivity].
  destruct (is_exhausted d) eqn:Ex; [eexists _, _; split; [reflexivity|right; reflexivity]|].
  unfold is_exhausted, MAX_QUERY_DEPTH in *. apply N.leb_gt in Ex.
  destruct (IH (t, snd q) (d + 1)) as (l & r & E & Hl); [lia|lia|]. rewrite E.
  exists (q :: l), r. split; [reflexivity|]. cbn [length]. lia.
Qed.

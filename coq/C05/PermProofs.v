(* C05 — the signed data does not depend on the order of the input records, provided records
   with the same sort key (TTL, RData::to_bytes) have the same emitted RDATA
   (key_determines_output); that proviso holds for records of one field layout. *)
From Coq Require Import Sorting.Sorted Sorting.Permutation.
From HV Require Import Lib.Base C05.Model C05.NameProofs C05.OrderProofs C05.EncodeProofs C05.GuardProofs
  C05.ShapeProofs.
Open Scope N_scope.

Definition key_determines_output (set : list rr) : Prop :=
  forall a b, In a set -> In b set -> rkey a = rkey b -> impl_rdata a = impl_rdata b.

Lemma filter_perm {A} (f : A -> bool) l l' : Permutation l l' -> Permutation (filter f l) (filter f l').
Proof.
  induction 1 as [|x l l' _ IH|x y l|l l' l'' _ IH1 _ IH2]; cbn [filter].
  - constructor.
  - destruct (f x); [now constructor|assumption].
  - destruct (f x), (f y); try reflexivity. apply perm_swap.
  - now transitivity (filter f l').
Qed.

Lemma sorted_output_unique F F' :
  key_determines_output F -> Permutation F F' ->
  map impl_rdata (isort rec_le F) = map impl_rdata (isort rec_le F').
Proof.
  intros Hk Hp.
  (* sort the pairs (key, emitted RDATA) by their keys instead: on those of [F] that order is antisymmetric *)
  set (keyed := fun r => (rkey r, impl_rdata r)). set (kle := fun x y : list byte * list byte => lex_le (fst x) (fst y)).
  assert (E : forall l, map impl_rdata (isort rec_le l) = map snd (isort kle (map keyed l))).
  { intros l. now rewrite (isort_map keyed rec_le kle), map_map. }
  rewrite !E. f_equal.
  apply isort_perm_unique; [intros; apply lex_le_total|intros ? ? ?; apply lex_le_trans| |now apply Permutation_map].
  intros x y (a & <- & Ha)%in_map_iff (b & <- & Hb)%in_map_iff Hxy Hyx.
  pose proof (lex_le_antisym _ _ Hxy Hyx : rkey a = rkey b) as K. unfold keyed. now rewrite K, (Hk a b Ha Hb K).
Qed.

Theorem tbs_perm_invariant nm cls s rs rs' :
  wf_labels (nlabels nm) -> wf_sig s -> Forall wf_rr (the_rrset nm cls s rs) ->
  key_determines_output (the_rrset nm cls s rs) ->
  Permutation rs rs' ->
  tbs nm cls s rs = tbs nm cls s rs'.
Proof.
  intros Hn Hs Hr Hk Hp.
  assert (HpF : Permutation (the_rrset nm cls s rs) (the_rrset nm cls s rs')) by now apply filter_perm.
  rewrite !tbs_closed_form; try assumption; [|exact (Permutation_Forall HpF Hr)].
  f_equal. now apply sorted_output_unique.
Qed.

(* true of records of one type *)
Definition uniform_layout (set : list rr) : Prop :=
  forall a b, In a set -> In b set -> same_shape (r_data a) (r_data b).

Lemma uniform_layout_rrset nm cls s rs : uniform_layout rs -> uniform_layout (the_rrset nm cls s rs).
Proof. intros H a b [Ha _]%filter_In [Hb _]%filter_In. now apply H. Qed.

Lemma key_determines_rrset nm cls s rs :
  Forall wf_rr (the_rrset nm cls s rs) -> uniform_layout (the_rrset nm cls s rs) ->
  key_determines_output (the_rrset nm cls s rs).
Proof.
  intros Hwf Hu a b Ha Hb [= _ Hk]. unfold sort_key, impl_rdata in *.
  rewrite Forall_forall in Hwf. destruct (Hwf a Ha) as [Hfa Hla], (Hwf b Hb) as [Hfb Hlb].
  rewrite (rrset_type _ _ _ _ _ Ha), <- (rrset_type _ _ _ _ _ Hb) in *.
  now rewrite (to_bytes_inj _ _ _ (Hu a b Ha Hb) Hfa Hfb Hla Hlb Hk).
Qed.

(* what a verifier may see instead of the signer's records: owners in another case, TTLs
   transformed by an order-preserving map (e.g. all decremented by a cache) *)
Definition retarget (ren : rr -> name) (g : N -> N) (r : rr) : rr :=
  mkRR (ren r) (r_class r) (g (r_ttl r)) (r_type r) (r_data r).

Lemma name_eqb_congr a a' b b' :
  name_eqb a a' = true -> name_eqb b b' = true -> name_eqb a b = name_eqb a' b'.
Proof.
  intros Ha Hb. apply name_eqb_lower in Ha, Hb. destruct Ha as [A1 A2], Hb as [B1 B2].
  unfold name_eqb. now rewrite A1, A2, B1, B2.
Qed.

Lemma name_eqb_wf a b : name_eqb a b = true -> wf_labels (nlabels a) -> wf_labels (nlabels b).
Proof. intros [_ E]%name_eqb_lower H. apply wf_labels_lower. rewrite <- E. now apply wf_labels_lower. Qed.

Lemma filter_map_comm {A B} (f : A -> B) (p : B -> bool) (q : A -> bool) l :
  (forall a, In a l -> p (f a) = q a) -> filter p (map f l) = map f (filter q l).
Proof.
  induction l as [|x l IH]; intros H; cbn [map filter]; [reflexivity|].
  rewrite (H x (or_introl eq_refl)), IH by (intros a Ha; apply H; now right).
  destruct (q x); reflexivity.
Qed.

Lemma rrset_retarget nm nm' cls s rs ren g :
  name_eqb nm nm' = true -> (forall r, In r rs -> name_eqb (r_name r) (ren r) = true) ->
  the_rrset nm' cls s (map (retarget ren g) rs) = map (retarget ren g) (the_rrset nm cls s rs).
Proof.
  intros Hnm Hren. rewrite <- !impl_filter_is_rrset.
  apply filter_map_comm. intros r Hin. unfold in_rrset, retarget. cbn [r_class r_type r_name].
  f_equal. symmetry. apply name_eqb_congr; [exact Hnm|now apply Hren].
Qed.

Theorem tbs_retarget_invariant nm nm' cls s rs ren g :
  wf_labels (nlabels nm) -> wf_sig s ->
  Forall wf_rr (the_rrset nm cls s rs) ->
  name_eqb nm nm' = true ->
  (forall r, In r rs -> name_eqb (r_name r) (ren r) = true) ->
  (forall a b, In a rs -> In b rs -> (g (r_ttl a) ?= g (r_ttl b)) = (r_ttl a ?= r_ttl b)) ->
  tbs nm cls s rs = tbs nm' cls s (map (retarget ren g) rs).
Proof.
  intros Hn Hs Hr Hnm Hren Hg.
  pose proof (rrset_retarget nm nm' cls s rs ren g Hnm Hren) as Hset.
  pose proof (name_eqb_wf nm nm' Hnm Hn) as Hn'.
  rewrite !tbs_closed_form; try assumption.
  2:{ rewrite Hset, Forall_map. exact Hr. }
  rewrite Hset. unfold tbs_of. apply name_eqb_lower in Hnm. destruct Hnm as [_ <-].
  rewrite (isort_map (retarget ren g) rec_le rec_le), map_map; [reflexivity|].
  intros a b Ha Hb. apply filter_In in Ha, Hb.
  unfold rec_le, rec_cmp, retarget. cbn [r_ttl r_type r_data]. now rewrite (Hg a b (proj1 Ha) (proj1 Hb)).
Qed.

Theorem tbs_verifier_view nm nm' cls s rs rs' ren g :
  wf_labels (nlabels nm) -> wf_sig s ->
  Forall wf_rr (the_rrset nm cls s rs) ->
  key_determines_output (the_rrset nm cls s rs) ->
  name_eqb nm nm' = true ->
  (forall r, In r rs -> name_eqb (r_name r) (ren r) = true) ->
  (forall a b, In a rs -> In b rs -> (g (r_ttl a) ?= g (r_ttl b)) = (r_ttl a ?= r_ttl b)) ->
  Permutation (map (retarget ren g) rs) rs' ->
  tbs nm cls s rs = tbs nm' cls s rs'.
Proof.
  intros Hn Hs Hr Hk Hnm Hren Hg Hp.
  (* [rs'] is the view of a permutation [l] of [rs]: permute at the signer's, then retarget *)
  apply Permutation_sym, Permutation_map_inv in Hp. destruct Hp as (l & -> & Hp).
  pose proof (fun r => Permutation_in r (Permutation_sym Hp)) as Hin.
  rewrite (tbs_perm_invariant nm cls s rs l) by assumption.
  apply tbs_retarget_invariant; auto. exact (Permutation_Forall (filter_perm _ _ _ Hp) Hr).
Qed.

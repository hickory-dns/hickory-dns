(* C05 — the sort key determines the fields of records of one layout.  A name on the wire, ended by
   the root label or by a compression pointer, is a prefix code, so the uncompressed octets of a
   field list determine it; the compressing emitter (RData::to_bytes of SOA-like RDATA) stays
   injective because its pointer table gives each start offset one label sequence. *)
From HV Require Import Lib.Base Lib.ListX C05.Model C05.NameProofs C05.EncodeProofs.
From HV Require Lib.Wire.
Open Scope N_scope.

(* [n] character-strings (length octet + octets) one after the other *)
Inductive cs_seq : nat -> list byte -> Prop :=
| cs_nil : cs_seq O []
| cs_cons : forall n s rest, cs_seq n rest -> cs_seq (S n) (len s :: s ++ rest).
(* [k] fixed octets followed by [n] character-strings (e.g. NAPTR: 4 and 3) *)
Definition framed (k n : nat) (a : list byte) : Prop :=
  exists p q, a = p ++ q /\ length p = k /\ cs_seq n q.

(* field lists with the same layout: names at the same positions; octet fields of the same
   length, or self-delimiting with the same frame, except the last *)
Inductive same_shape : list field -> list field -> Prop :=
| ss_nil : same_shape [] []
| ss_last : forall a b, same_shape [FB a] [FB b]
| ss_fb : forall a b f1 f2, length a = length b -> same_shape f1 f2 -> same_shape (FB a :: f1) (FB b :: f2)
| ss_framed : forall k n a b f1 f2, framed k n a -> framed k n b -> same_shape f1 f2 ->
    same_shape (FB a :: f1) (FB b :: f2)
| ss_fn : forall a b f1 f2, same_shape f1 f2 -> same_shape (FN a :: f1) (FN b :: f2).

Fixpoint count_names (fs : list field) : nat :=
  match fs with [] => O | FN _ :: fs' => S (count_names fs') | FB _ :: fs' => count_names fs' end.

Lemma enc_labels_cons l ls : enc_labels (l :: ls) = enc_label l ++ enc_labels ls.
Proof. reflexivity. Qed.

Lemma wire_name_cons l ls : wire_name (l :: ls) = enc_label l ++ wire_name ls.
Proof. unfold wire_name. now rewrite enc_labels_cons, app_assoc. Qed.

(* length-prefixed, hence told apart from whatever follows; a character-string is written the same way *)
Lemma enc_label_inj a b x y : enc_label a ++ x = enc_label b ++ y -> a = b /\ x = y.
Proof.
  intros [= Hlen H]. apply app_inj_length; [|exact H]. unfold len in Hlen. lia.
Qed.

Lemma enc_labels_inj l1 : forall l2, enc_labels l1 = enc_labels l2 -> l1 = l2.
Proof.
  induction l1 as [|a l1 IH]; intros [|b l2] H; try discriminate; [reflexivity|].
  rewrite !enc_labels_cons in H. apply enc_label_inj in H. destruct H as [-> H]. f_equal. now apply IH.
Qed.

(* a pointer's first octet is >= 192: neither 0 nor the length of a label *)
Lemma ptr_hi loc : loc < 16384 -> 192 <= (49152 + loc) / 256 mod 256.
Proof.
  intros H. rewrite N.mod_small by (apply N.div_lt_upper_bound; lia). apply N.div_le_lower_bound; lia.
Qed.

(* a name as an emitter with the pointer table [ps] may write it: labels, ended by the root label
   or by a pointer to an entry that holds the labels left; the uncompressed form is the case
   without pointer *)
Inductive cname (ps : ptrs) : list label -> list byte -> Prop :=
| cn_root : cname ps [] [0]
| cn_ptr : forall ls loc, ls <> [] -> loc < 16384 -> In (loc, enc_labels ls) ps ->
    cname ps ls (be16 (49152 + loc))
| cn_label : forall l ls o, cname ps ls o -> cname ps (l :: ls) (enc_label l ++ o).

Lemma cname_wire ps ls : cname ps ls (wire_name ls).
Proof. induction ls as [|l ls IH]; [constructor|]. rewrite wire_name_cons. now constructor. Qed.

Lemma cname_len ps ls o : cname ps ls o -> len o <= len (wire_name ls).
Proof.
  induction 1 as [|[|l ls] loc Hn _ _|l ls o _ IH]; [reflexivity|congruence| |].
  - (* a pointer is two octets; it stands for at least one label and the root label *)
    rewrite wire_name_cons, len_app. unfold enc_label. rewrite len_cons, len_wire_name_enc, len_be16. lia.
  - rewrite wire_name_cons, !len_app. lia.
Qed.

Lemma cname_inj ps l1 o1 : cname ps l1 o1 -> forall l2 o2 r1 r2, cname ps l2 o2 ->
  (forall st m1 m2, In (st, m1) ps -> In (st, m2) ps -> m1 = m2) ->
  Forall wf_label l1 -> Forall wf_label l2 ->
  o1 ++ r1 = o2 ++ r2 -> l1 = l2 /\ r1 = r2.
Proof.
  intros C1 l2 o2 r1 r2 C2 Hf. revert l2 o2 C2.
  induction C1 as [|ls1 loc1 Hn1 Hl1 In1|a ls1 o1 _ IH]; intros l2 o2 C2 W1 W2 H;
    destruct C2 as [|ls2 loc2 Hn2 Hl2 In2|b ls2 o2 C2];
    try pose proof (wf_label_len _ (Forall_inv W1)) as Wa; try pose proof (wf_label_len _ (Forall_inv W2)) as Wb;
    try pose proof (ptr_hi loc1 Hl1) as P1; try pose proof (ptr_hi loc2 Hl2) as P2;
    unfold enc_label, be16 in H; rewrite <- ?app_assoc in H;
    (* the three ways to go on are told apart by the next octet: 0, 1..63, >= 192 *)
    pose proof (f_equal (hd 0) H) as Hd; cbn [hd app] in Hd; try lia.
  - injection H as H. auto.
  - injection H as _ Hlo H. assert (E : be16 (49152 + loc1) = be16 (49152 + loc2)) by (unfold be16; congruence).
    apply (Wire.be16_inj _ _ [] []) in E as [E _]; [|lia|lia]. assert (loc1 = loc2) by lia. subst loc2.
    split; [|exact H]. exact (enc_labels_inj _ _ (Hf _ _ _ In1 In2)).
  - apply (enc_label_inj a b) in H. destruct H as [-> H].
    destruct (IH _ _ C2 (Forall_inv_tail W1) (Forall_inv_tail W2) H) as [-> ->]. auto.
Qed.

Lemma wire_name_inj l1 l2 r1 r2 :
  Forall wf_label l1 -> Forall wf_label l2 ->
  wire_name l1 ++ r1 = wire_name l2 ++ r2 -> l1 = l2 /\ r1 = r2.
Proof.
  intros H1 H2. apply (cname_inj [] _ _ (cname_wire [] l1) _ _ _ _ (cname_wire [] l2)); [intros ? ? ? []|assumption..].
Qed.

Lemma cs_seq_inj n : forall a b x y, cs_seq n a -> cs_seq n b -> a ++ x = b ++ y -> a = b /\ x = y.
Proof.
  induction n as [|n IH]; intros a b x y Ha Hb H;
    inversion Ha as [|? s ra Ha']; inversion Hb as [|? s' rb Hb']; subst.
  - now split.
  - cbn [app] in H. rewrite <- !app_assoc in H. apply (enc_label_inj s s') in H. destruct H as [-> H].
    destruct (IH _ _ _ _ Ha' Hb' H) as [-> ->]. now split.
Qed.

Lemma framed_inj k n a b x y : framed k n a -> framed k n b -> a ++ x = b ++ y -> a = b /\ x = y.
Proof.
  intros (p1 & q1 & -> & Hp1 & Hq1) (p2 & q2 & -> & Hp2 & Hq2) H.
  rewrite <- !app_assoc in H.
  destruct (app_inj_length p1 p2 _ _ ltac:(congruence) H) as [-> H'].
  destruct (cs_seq_inj n _ _ _ _ Hq1 Hq2 H') as [-> ->]. now split.
Qed.

(* both kinds of non-final octet field seen as what they are used for: told apart from
   whatever follows them *)
Lemma same_shape_split_ind (P : list field -> list field -> Prop) :
  P [] [] -> (forall a b, P [FB a] [FB b]) ->
  (forall a b f1 f2, (forall x y, a ++ x = b ++ y -> a = b /\ x = y) ->
     P f1 f2 -> P (FB a :: f1) (FB b :: f2)) ->
  (forall a b f1 f2, P f1 f2 -> P (FN a :: f1) (FN b :: f2)) ->
  forall f1 f2, same_shape f1 f2 -> P f1 f2.
Proof.
  intros Hnil Hlast Hfb Hfn. induction 1 as [| | | k n|]; auto.
  - apply Hfb; [|assumption]. intros x y. now apply app_inj_length.
  - apply Hfb; [|assumption]. intros x y. now apply framed_inj with (k := k) (n := n).
Qed.

Lemma raw_fields_inj f1 f2 :
  same_shape f1 f2 -> Forall wf_field f1 -> Forall wf_field f2 ->
  raw_fields f1 = raw_fields f2 -> f1 = f2.
Proof.
  unfold raw_fields.
  induction 1 as [|a b|a b f1 f2 Hab IH|a b f1 f2 IH] using same_shape_split_ind;
    intros H1 H2 H; cbn [map concat raw_field] in H.
  - reflexivity.
  - rewrite !app_nil_r in H. now subst.
  - inversion H1 as [|? ? _ H1']; subst. inversion H2 as [|? ? _ H2']; subst.
    destruct (Hab _ _ H) as [-> H']. f_equal. now apply IH.
  - inversion H1 as [|? ? Ha H1']; subst. inversion H2 as [|? ? Hb H2']; subst.
    destruct (wire_name_inj a b _ _ (proj1 Ha) (proj1 Hb) H) as [-> H']. f_equal. now apply IH.
Qed.

Lemma find_ptr_in ps s loc : find_ptr ps s = Some loc -> In (loc, s) ps.
Proof.
  induction ps as [|[st m] ps IH]; cbn [find_ptr]; [discriminate|].
  destruct (bytes_eqb m s) eqn:E.
  - intros H. injection H as <-. apply bytes_eqb_eq in E. subst. now left.
  - intros H. right. now apply IH.
Qed.

Lemma find_ptr_none ps s :
  (forall st m, In (st, m) ps -> length m <> length s) -> find_ptr ps s = None.
Proof.
  induction ps as [|[st m] ps IH]; intros H; cbn [find_ptr]; [reflexivity|].
  destruct (bytes_eqb m s) eqn:E.
  - apply bytes_eqb_eq in E. subst. exfalso. apply (H st s); [now left|reflexivity].
  - apply IH. intros st' m' Hin. apply (H st' m'). now right.
Qed.

Lemma find_ptr_app_none ps own s :
  (forall st m, In (st, m) own -> length m <> length s) -> find_ptr (ps ++ own) s = find_ptr ps s.
Proof.
  intros H. induction ps as [|[st m] ps IH]; cbn [app find_ptr].
  - now apply find_ptr_none.
  - destruct (bytes_eqb m s); [reflexivity|exact IH].
Qed.

Lemma store_ptr_app last ps st m :
  exists e, store_ptr last ps st m = ps ++ e /\ (e = [] \/ e = [(st, m)]).
Proof.
  unfold store_ptr. destruct (_ && _); [eauto|]. exists []. rewrite app_nil_r. auto.
Qed.

Lemma compress_cons off last ps pre l ls :
  (exists loc, find_ptr ps (enc_labels (l :: ls)) = Some loc /\ loc < 16384 /\
     compress off last ps pre (l :: ls) = (pre ++ be16 (49152 + loc), ps, true)) \/
  compress off last ps pre (l :: ls) =
    compress off last (store_ptr last ps (off + len pre) (enc_labels (l :: ls))) (pre ++ enc_label l) ls.
Proof.
  cbn [compress]. destruct (find_ptr ps _) as [loc|]; [|now right].
  destruct (N.ltb_spec loc 16384); [left; eauto|now right].
Qed.

(* [own]: the entries this name has recorded itself, all longer than what is searched *)
Lemma compress_cname ls : forall off last ps own pre out ps' ptr,
  (forall st m, In (st, m) own -> (length (enc_labels ls) < length m)%nat) ->
  compress off last (ps ++ own) pre ls = (out, ps', ptr) ->
  exists o, out = pre ++ o /\ cname ps ls o.
Proof.
  induction ls as [|l ls IH]; intros off last ps own pre out ps' ptr Hown H.
  - injection H as <- <- <-. exists [0]. auto using cn_root.
  - assert (Hlen : (length (enc_labels ls) < length (enc_labels (l :: ls)))%nat).
    { rewrite enc_labels_cons, app_length. cbn. lia. }
    destruct (compress_cons off last (ps ++ own) pre l ls) as [(loc & Hf & Hl & E)|E]; rewrite E in H; clear E.
    + injection H as <- <- <-.
      rewrite find_ptr_app_none in Hf by (intros st m Hin; specialize (Hown st m Hin); lia).
      exists (be16 (49152 + loc)). split; [reflexivity|].
      apply cn_ptr; [discriminate|exact Hl|now apply find_ptr_in].
    + destruct (store_ptr_app last (ps ++ own) (off + len pre) (enc_labels (l :: ls))) as (e & Ee & He).
      rewrite Ee, <- app_assoc in H. apply IH in H.
      * destruct H as (o & -> & C). exists (enc_label l ++ o). rewrite <- app_assoc.
        split; [reflexivity|now constructor].
      * intros st m Hin. apply in_app_or in Hin. destruct Hin as [Hin|Hin]; [specialize (Hown st m Hin); lia|].
        destruct He as [->| ->]; [destruct Hin|]. destruct Hin as [[= _ <-]|[]]. exact Hlen.
Qed.

(* pointer table invariant at buffer offset [off] *)
Definition ps_ok (off : N) (ps : ptrs) : Prop :=
  (forall st m1 m2, In (st, m1) ps -> In (st, m2) ps -> m1 = m2) /\
  (forall st m, In (st, m) ps -> st < off).

Lemma ps_ok_nil : ps_ok 0 [].
Proof. split; intros; contradiction. Qed.

Lemma ps_ok_weaken off off' ps : off <= off' -> ps_ok off ps -> ps_ok off' ps.
Proof. intros Hle [Hf Hb]. split; [assumption|]. intros st m Hin. specialize (Hb _ _ Hin). lia. Qed.

Lemma ps_ok_store st off last ps m : ps_ok st ps -> st < off -> ps_ok off (store_ptr last ps st m).
Proof.
  intros [Hf Hb] Hlt. destruct (store_ptr_app last ps st m) as (e & -> & [->| ->]).
  - rewrite app_nil_r. apply ps_ok_weaken with st; [lia|now split].
  - split.
    + (* every start already in the table lies before [st]: the recorded one is new *)
      intros st' m1 m2 H1 H2. apply in_app_or in H1, H2.
      destruct H1 as [H1|[E1|[]]], H2 as [H2|[E2|[]]]; [eauto| | |congruence].
      * injection E2 as <- _. specialize (Hb _ _ H1). lia.
      * injection E1 as <- _. specialize (Hb _ _ H2). lia.
    + intros st' m' Hin. apply in_app_or in Hin.
      destruct Hin as [Hin|[[= <- _]|[]]]; [specialize (Hb _ _ Hin)|]; lia.
Qed.

Lemma compress_ps_ok ls : forall off last ps pre out ps' ptr,
  compress off last ps pre ls = (out, ps', ptr) -> ps_ok (off + len pre) ps -> ps_ok (off + len out) ps'.
Proof.
  induction ls as [|l ls IH]; intros off last ps pre out ps' ptr H Hok.
  - injection H as <- <- <-. apply ps_ok_weaken with (2 := Hok). rewrite len_app. lia.
  - destruct (compress_cons off last ps pre l ls) as [(loc & _ & _ & E)|E]; rewrite E in H; clear E.
    + injection H as <- <- <-. apply ps_ok_weaken with (2 := Hok). rewrite len_app. lia.
    + apply IH in H; [exact H|]. apply ps_ok_store with (1 := Hok).
      unfold enc_label. rewrite len_app, len_cons. lia.
Qed.

Lemma emit_name_compressed_spec off ps ls o p :
  emit_name Compressed off ps ls = Some (o, p) ->
  cname ps ls o /\ (ps_ok off ps -> ps_ok (off + len o) p).
Proof.
  unfold emit_name. destruct (existsb (fun l => 63 <? len l) ls); [discriminate|].
  destruct (MAX <? off + len (enc_labels ls)); [discriminate|].
  destruct (compress off (off + len (enc_labels ls)) ps [] ls) as [[out ps'] ptr] eqn:C. intros H.
  assert (E : out = o /\ ps' = p) by (destruct ptr; [|destruct (_ || _); [discriminate|]]; now injection H).
  destruct E as [-> ->]. split.
  - rewrite <- (app_nil_r ps) in C. apply compress_cname in C; [|intros ? ? []].
    now destruct C as (o' & -> & C).
  - intros Hok. apply compress_ps_ok in C; [exact C|]. now rewrite len_nil, N.add_0_r.
Qed.

Lemma emit_fields_cons_some m off ps f fs o p :
  emit_fields m off ps (f :: fs) = Some (o, p) ->
  exists o1 p1 o2, emit_field m off ps f = Some (o1, p1) /\
    emit_fields m (off + len o1) p1 fs = Some (o2, p) /\ o = o1 ++ o2.
Proof.
  cbn [emit_fields]. destruct (emit_field m off ps f) as [[o1 p1]|]; [|discriminate].
  destruct (emit_fields m (off + len o1) p1 fs) as [[o2 p2]|] eqn:R; [|discriminate].
  intros [= <- <-]. exists o1, p1, o2. auto.
Qed.

Lemma emit_field_FB_some m off ps a o p : emit_field m off ps (FB a) = Some (o, p) -> o = a /\ p = ps.
Proof. cbn [emit_field]. destruct (MAX <? off + len a); [discriminate|]. now intros [= <- <-]. Qed.

Lemma emit_fields_compressed_inj f1 f2 :
  same_shape f1 f2 -> forall off ps o p1 p2,
  ps_ok off ps -> Forall wf_field f1 -> Forall wf_field f2 ->
  emit_fields Compressed off ps f1 = Some (o, p1) -> emit_fields Compressed off ps f2 = Some (o, p2) ->
  f1 = f2.
Proof.
  induction 1 as [|a b|a b f1 f2 Hab IH|a b f1 f2 IH] using same_shape_split_ind;
    intros off ps o p1 p2 Hok W1 W2 E1 E2; [reflexivity|..].
  all: apply emit_fields_cons_some in E1, E2.
  all: destruct E1 as (n1 & q1 & o1 & F1 & R1 & ->), E2 as (n2 & q2 & o2 & F2 & R2 & E).
  all: inversion W1 as [|? ? Wa W1']; subst; inversion W2 as [|? ? Wb W2']; subst.
  - apply emit_field_FB_some in F1, F2. destruct F1 as [-> _], F2 as [-> _].
    injection R1 as <- _. injection R2 as <- _. rewrite !app_nil_r in E. now subst.
  - apply emit_field_FB_some in F1, F2. destruct F1 as [-> ->], F2 as [-> ->].
    destruct (Hab _ _ E) as [-> ->]. f_equal. apply (IH (off + len b) ps o2 p1 p2); try assumption.
    eapply ps_ok_weaken; [|exact Hok]. lia.
  - cbn [emit_field wf_field] in *.
    destruct (emit_name_compressed_spec _ _ _ _ _ F1) as [C1 K1], (emit_name_compressed_spec _ _ _ _ _ F2) as [C2 _].
    destruct (cname_inj ps a n1 C1 b n2 o1 o2 C2 (proj1 Hok) (proj1 Wa) (proj1 Wb) E) as [-> ->].
    rewrite F1 in F2. injection F2 as <- <-. f_equal. apply (IH (off + len n1) q1 o2 p1 p2); auto.
Qed.

Lemma emit_name_compressed_some off ps ls :
  wf_labels ls -> off + len (wire_name ls) <= MAX ->
  exists o p, emit_name Compressed off ps ls = Some (o, p) /\ len o <= len (wire_name ls).
Proof.
  intros [Hl H255] Hfit.
  pose proof (len_wire_name_enc ls) as Hlen.
  unfold emit_name. rewrite (no_long_label ls Hl).
  destruct (N.ltb_spec MAX (off + len (enc_labels ls))); [lia|].
  destruct (compress off (off + len (enc_labels ls)) ps [] ls) as [[out ps'] ptr] eqn:C.
  rewrite <- (app_nil_r ps) in C. apply compress_cname in C; [|intros ? ? []].
  destruct C as (o & -> & C%cname_len). cbn [app]. destruct ptr; [eauto|].
  (* what was written is no longer than the uncompressed name, which fits *)
  destruct (N.ltb_spec MAX (off + len o)); [lia|]. destruct (N.ltb_spec 255 (len o)); [lia|]. cbn [orb]. eauto.
Qed.

Lemma emit_fields_compressed_some fs : forall off ps,
  Forall wf_field fs -> off + len (raw_fields fs) <= MAX ->
  exists o p, emit_fields Compressed off ps fs = Some (o, p) /\ len o <= len (raw_fields fs).
Proof.
  induction fs as [|f fs IH]; intros off ps Hwf Hfit; cbn [emit_fields].
  - eexists _, _. split; [reflexivity|]. cbn. lia.
  - inversion Hwf as [|? ? Hf Hfs]; subst. rewrite raw_fields_cons, len_app in *.
    assert (exists o1 p1, emit_field Compressed off ps f = Some (o1, p1) /\ len o1 <= len (raw_field f))
      as (o1 & p1 & -> & Hl1).
    { destruct f as [bs|ls]; cbn [emit_field raw_field] in *.
      - destruct (N.ltb_spec MAX (off + len bs)); [lia|]. eauto using N.le_refl.
      - apply emit_name_compressed_some; [exact Hf|lia]. }
    destruct (IH (off + len o1) p1 Hfs ltac:(lia)) as (o & p & -> & Hlo).
    eexists _, _. split; [reflexivity|]. rewrite len_app. lia.
Qed.

Theorem to_bytes_inj t f1 f2 :
  same_shape f1 f2 -> Forall wf_field f1 -> Forall wf_field f2 ->
  len (raw_fields f1) <= 65535 -> len (raw_fields f2) <= 65535 ->
  to_bytes t f1 = to_bytes t f2 -> f1 = f2.
Proof.
  intros Hs W1 W2 L1 L2 H.
  (* only the StandardRecord policy compresses; under the others to_bytes is the plain octets *)
  assert (Hplain : impl_policy t <> Some StandardRecord -> f1 = f2).
  { intros Hp. rewrite !to_bytes_uncompressed in H by assumption. now apply raw_fields_inj. }
  destruct (impl_policy t) as [[| |]|] eqn:E; [clear Hplain|apply Hplain; discriminate ..].
  unfold to_bytes, emit_rdata in H. rewrite E in H. cbn [with_rdata_behavior] in H.
  destruct (emit_fields_compressed_some f1 0 [] W1 ltac:(unfold MAX; lia)) as (o1 & p1 & E1 & _).
  destruct (emit_fields_compressed_some f2 0 [] W2 ltac:(unfold MAX; lia)) as (o2 & p2 & E2 & _).
  rewrite E1, E2 in H. subst o2.
  exact (emit_fields_compressed_inj f1 f2 Hs 0 [] o1 p1 p2 ps_ok_nil W1 W2 E1 E2).
Qed.

(* C05 — ordering lemmas: the octet-string order, of which Ord for Record is the instance on
   (TTL, sort key); the spec's canonical RRset order (existence, uniqueness); stable insertion
   sort, which on duplicate-free lists is the spec's. *)
From Coq Require Import Sorting.Sorted Sorting.Permutation.
From HV Require Import Lib.Base C05.Model.
Open Scope N_scope.

Lemma cmp_bytes_spec a : forall b, CompareSpec (a = b) (lex_lt a b) (lex_lt b a) (cmp_bytes a b).
Proof.
  induction a as [|x a IH]; intros [|y b]; cbn [cmp_bytes]; try (constructor; constructor).
  destruct (N.compare_spec x y) as [<-| |]; [|constructor; now apply lex_head..].
  destruct (IH b) as [<-| |]; constructor; [reflexivity|now apply lex_tail..].
Qed.

Lemma lex_lt_irrefl a : ~ lex_lt a a.
Proof. induction a as [|x a IH]; inversion 1; subst; [lia|auto]. Qed.

Lemma lex_lt_trans a b c : lex_lt a b -> lex_lt b c -> lex_lt a c.
Proof.
  intros H1. revert c. induction H1 as [y b|x y a b Hxy|x a b _ IH]; intros c H2; inversion H2; subst.
  1, 2: apply lex_nil.
  1, 2, 3: apply lex_head; lia.
  apply lex_tail. now apply IH.
Qed.

Lemma lex_lt_asym a b : lex_lt a b -> ~ lex_lt b a.
Proof. intros H1 H2. exact (lex_lt_irrefl a (lex_lt_trans _ _ _ H1 H2)). Qed.

Lemma lex_total a b : lex_lt a b \/ a = b \/ lex_lt b a.
Proof. destruct (cmp_bytes_spec a b); auto. Qed.

(* the octet order as a boolean; Ord for Record is this order on [rkey] *)
Definition lex_le (a b : list byte) : bool := match cmp_bytes a b with Gt => false | _ => true end.

Lemma lex_le_spec a b : lex_le a b = true <-> a = b \/ lex_lt a b.
Proof.
  unfold lex_le. destruct (cmp_bytes_spec a b) as [E|L|L]; [tauto..|].
  split; [discriminate|]. intros [->|H]; [destruct (lex_lt_irrefl _ L)|destruct (lex_lt_asym _ _ H L)].
Qed.

Lemma lex_le_total a b : lex_le a b = true \/ lex_le b a = true.
Proof. rewrite !lex_le_spec. destruct (lex_total a b) as [H|[H|H]]; auto. Qed.

Lemma lex_le_trans a b c : lex_le a b = true -> lex_le b c = true -> lex_le a c = true.
Proof. rewrite !lex_le_spec. intros [->|H1] [->|H2]; auto. right. eapply lex_lt_trans; eauto. Qed.

Lemma lex_le_antisym a b : lex_le a b = true -> lex_le b a = true -> a = b.
Proof. rewrite !lex_le_spec. intros [H|H1] [H'|H2]; auto. destruct (lex_lt_asym _ _ H1 H2). Qed.

Lemma lex_le_cons x a b : lex_le (x :: a) (x :: b) = lex_le a b.
Proof. unfold lex_le. cbn [cmp_bytes]. now rewrite N.compare_refl. Qed.

Definition sort_key (r : rr) : list byte := to_bytes (r_type r) (r_data r).
(* a TTL is compared like one more leading octet ([byte] is not range-restricted) *)
Definition rkey (r : rr) : list byte := r_ttl r :: sort_key r.

Lemma rec_le_key a b : rec_le a b = lex_le (rkey a) (rkey b).
Proof. reflexivity. Qed.

Lemma uinsert_in x l y : In y (uinsert x l) <-> In y (x :: l).
Proof.
  induction l as [|z l IH]; cbn [uinsert]; [reflexivity|].
  destruct (cmp_bytes_spec x z) as [<-| |]; [cbn [In]; tauto|reflexivity|].
  cbn [In] in *. rewrite IH. tauto.
Qed.

Lemma uinsert_sorted x l : StronglySorted lex_lt l -> StronglySorted lex_lt (uinsert x l).
Proof.
  induction l as [|z l IH]; intros H; cbn [uinsert].
  - repeat constructor.
  - inversion H as [|? ? Hs Hf]; subst.
    destruct (cmp_bytes_spec x z) as [<-|E|E].
    + assumption.
    + constructor; [assumption|].
      constructor; [assumption|]. rewrite Forall_forall in *. intros y Hy.
      eapply lex_lt_trans; eauto.
    + constructor; [auto|].
      rewrite Forall_forall in *. intros y Hy. apply uinsert_in in Hy. destruct Hy as [<-|Hy]; auto.
Qed.

Lemma usort_in l y : In y (usort l) <-> In y l.
Proof.
  induction l as [|x l IH]; cbn [usort]; [reflexivity|]. rewrite uinsert_in. cbn [In]. now rewrite IH.
Qed.

Lemma usort_sorted l : StronglySorted lex_lt (usort l).
Proof. induction l as [|x l IH]; cbn [usort]; [constructor|]. now apply uinsert_sorted. Qed.

Lemma usort_canonical l : canonical_order (usort l) l.
Proof. split; [apply usort_sorted|]. intros x. apply usort_in. Qed.

Lemma sorted_perm_unique {A} (R : A -> A -> Prop) (l1 : list A) : forall l2,
  (forall a b, In a l1 -> In b l1 -> R a b -> R b a -> a = b) ->
  StronglySorted R l1 -> StronglySorted R l2 -> Permutation l1 l2 -> l1 = l2.
Proof.
  induction l1 as [|a l1 IH]; intros l2 Hanti H1 H2 Hp.
  - apply Permutation_nil in Hp. now subst.
  - destruct l2 as [|b l2]; [apply Permutation_sym, Permutation_nil in Hp; discriminate|].
    inversion H1 as [|? ? Hs1 Hf1]; subst. inversion H2 as [|? ? Hs2 Hf2]; subst.
    rewrite Forall_forall in Hf1, Hf2.
    assert (a = b) as ->.
    { assert (Ha : In a (b :: l2)) by (eapply Permutation_in; [exact Hp|now left]).
      assert (Hb : In b (a :: l1)) by (eapply Permutation_in; [exact (Permutation_sym Hp)|now left]).
      destruct Ha as [E|Ha]; [congruence|]. destruct Hb as [E|Hb]; [congruence|].
      apply Hanti; [now left|now right|auto|auto]. }
    f_equal. apply IH; try assumption.
    + intros x y Hx Hy. apply Hanti; now right.
    + eapply Permutation_cons_inv; exact Hp.
Qed.

Lemma strict_sorted_NoDup l : StronglySorted lex_lt l -> NoDup l.
Proof.
  induction 1 as [|a l _ IH Hf]; constructor; [|assumption].
  intros Hin. rewrite Forall_forall in Hf. exact (lex_lt_irrefl a (Hf a Hin)).
Qed.

Lemma strict_sorted_unique (s1 s2 : list (list byte)) :
  StronglySorted lex_lt s1 -> StronglySorted lex_lt s2 ->
  (forall x, In x s1 <-> In x s2) -> s1 = s2.
Proof.
  intros H1 H2 Hin. apply (sorted_perm_unique lex_lt); try assumption.
  - intros a b _ _ Hab Hba. destruct (lex_lt_asym a b Hab Hba).
  - apply NoDup_Permutation; auto using strict_sorted_NoDup.
Qed.

Lemma canonical_order_unique s1 s2 l : canonical_order s1 l -> canonical_order s2 l -> s1 = s2.
Proof.
  intros [H1 I1] [H2 I2]. apply strict_sorted_unique; try assumption.
  intros x. rewrite I1, I2. tauto.
Qed.

Lemma usort_ext l1 l2 : (forall x, In x l1 <-> In x l2) -> usort l1 = usort l2.
Proof.
  intros H. apply strict_sorted_unique; try apply usort_sorted.
  intros x. rewrite !usort_in. apply H.
Qed.

Section Isort.
  Context {A : Type} (le : A -> A -> bool).
  Hypothesis le_total : forall a b, le a b = true \/ le b a = true.
  Hypothesis le_trans : forall a b c, le a b = true -> le b c = true -> le a c = true.

  Lemma insert_perm x l : Permutation (x :: l) (insert le x l).
  Proof.
    induction l as [|y l IH]; cbn [insert]; [reflexivity|].
    destruct (le x y); [reflexivity|].
    rewrite perm_swap. now apply perm_skip.
  Qed.

  Lemma isort_perm l : Permutation l (isort le l).
  Proof.
    induction l as [|x l IH]; cbn [isort]; [constructor|].
    rewrite <- insert_perm. now apply perm_skip.
  Qed.

  Lemma isort_in l x : In x (isort le l) <-> In x l.
  Proof. split; apply Permutation_in; [apply Permutation_sym|]; apply isort_perm. Qed.

  Lemma insert_sorted x l :
    StronglySorted (fun a b => le a b = true) l -> StronglySorted (fun a b => le a b = true) (insert le x l).
  Proof.
    induction l as [|y l IH]; intros H; cbn [insert].
    - repeat constructor.
    - inversion H as [|? ? Hs Hf]; subst. destruct (le x y) eqn:E.
      + constructor; [assumption|]. constructor; [assumption|].
        rewrite Forall_forall in *. intros z Hz. eapply le_trans; eauto.
      + constructor; [auto|]. rewrite Forall_forall in *. intros z Hz.
        apply (Permutation_in _ (Permutation_sym (insert_perm x l))) in Hz.
        destruct Hz as [<-|Hz]; [|auto].
        destruct (le_total x y) as [H'|H']; congruence.
  Qed.

  Lemma isort_sorted l : StronglySorted (fun a b => le a b = true) (isort le l).
  Proof. induction l as [|x l IH]; cbn [isort]; [constructor|]. now apply insert_sorted. Qed.
End Isort.

Lemma insert_map {A B} (f : A -> B) (le : A -> A -> bool) (le' : B -> B -> bool) x s :
  (forall y, In y s -> le' (f x) (f y) = le x y) -> insert le' (f x) (map f s) = map f (insert le x s).
Proof.
  induction s as [|y s IH]; intros H; cbn [map insert]; [reflexivity|].
  rewrite (H y (or_introl eq_refl)). destruct (le x y); cbn [map]; [reflexivity|].
  rewrite IH; [reflexivity|]. intros z Hz. apply H. now right.
Qed.

Lemma isort_map {A B} (f : A -> B) (le : A -> A -> bool) (le' : B -> B -> bool) l :
  (forall a b, In a l -> In b l -> le' (f a) (f b) = le a b) -> isort le' (map f l) = map f (isort le l).
Proof.
  induction l as [|x l IH]; intros H; cbn [map isort]; [reflexivity|].
  rewrite IH by (intros a b Ha Hb; apply H; now right).
  apply insert_map. intros y Hy. apply H; [now left|right; now apply isort_in in Hy].
Qed.

Lemma isort_perm_unique {A} (le : A -> A -> bool) l l' :
  (forall a b, le a b = true \/ le b a = true) ->
  (forall a b c, le a b = true -> le b c = true -> le a c = true) ->
  (forall a b, In a l -> In b l -> le a b = true -> le b a = true -> a = b) ->
  Permutation l l' -> isort le l = isort le l'.
Proof.
  intros Htot Htr Hanti Hp. apply sorted_perm_unique with (R := fun a b => le a b = true).
  - intros a b Ha%isort_in Hb%isort_in. now apply Hanti.
  - now apply isort_sorted.
  - now apply isort_sorted.
  - now rewrite <- !isort_perm.
Qed.

Lemma uinsert_insert x l : ~ In x l -> uinsert x l = insert lex_le x l.
Proof.
  induction l as [|y l IH]; intros H; cbn [uinsert insert]; [reflexivity|]. unfold lex_le.
  destruct (cmp_bytes_spec x y) as [->| |]; [destruct H; now left|reflexivity|].
  rewrite IH; [reflexivity|]. intros Hin. apply H. now right.
Qed.

Lemma usort_isort l : NoDup l -> usort l = isort lex_le l.
Proof.
  induction 1 as [|x l Hx _ IH]; cbn [usort isort]; [reflexivity|].
  rewrite <- IH. apply uinsert_insert. now rewrite usort_in.
Qed.

(* C05 — what the RFC-equality results are made of: the type tables agree, and outside the known
   deviation class the RDATAs are emitted canonical and in the RFC's order; both sides are
   [tbs_of] a list of RDATAs. *)
From Coq Require Import Sorting.Sorted Sorting.Permutation.
From HV Require Import Lib.Base Lib.ListX C05.Model C05.NameProofs C05.OrderProofs C05.EncodeProofs.
Open Scope N_scope.

(* a fact about every type on a type table is checked by evaluation over the table *)
Lemma table_forall l (P : N -> bool) t : existsb (N.eqb t) l = true -> forallb P l = true -> P t = true.
Proof.
  intros Ht H. apply (existsb_eqb_in N.eqb N.eqb_eq) in Ht. exact (proj1 (forallb_forall P l) H t Ht).
Qed.

(* the RFC-list types the implementation does not downcase *)
Definition unimplemented_downcase : list N := [3; 4; 7; 8; 9; 14; 17; 18; 21; 26; 30; 36; 38; 39].

Lemma rfc_downcase_eq t : rfc_downcase t = impl_lower t || existsb (N.eqb t) unimplemented_downcase.
Proof.
  apply eq_true_iff_eq. split.
  - intros H. exact (table_forall _ (fun t => impl_lower t || existsb (N.eqb t) unimplemented_downcase) t H eq_refl).
  - intros [H|H]%orb_true_iff; [|exact (table_forall _ rfc_downcase t H eq_refl)].
    (* the first two tables of impl_policy *)
    apply (table_forall ([2; 5; 6; 12; 15] ++ [24; 33; 35; 46]) rfc_downcase t); [|reflexivity].
    unfold impl_lower, impl_policy in H. rewrite existsb_app.
    destruct (existsb (N.eqb t) [2; 5; 6; 12; 15]); [reflexivity|].
    destruct (existsb (N.eqb t) [24; 33; 35; 46]); [reflexivity|].
    destruct (existsb (N.eqb t) [47; 64; 65; 250; 65305]); discriminate.
Qed.

Lemma unimplemented_opaque t : existsb (N.eqb t) unimplemented_downcase = true -> impl_policy t = None.
Proof.
  intros H. pose proof (table_forall _ (fun t => match impl_policy t with None => true | _ => false end) t H eq_refl) as E.
  cbv beta in E. now destruct (impl_policy t).
Qed.

Lemma policy_agrees t : ~ In t unimplemented_downcase -> impl_lower t = rfc_downcase t.
Proof.
  intros Hn. rewrite rfc_downcase_eq. destruct (existsb _ unimplemented_downcase) eqn:E; [|now rewrite orb_false_r].
  apply (existsb_eqb_in N.eqb N.eqb_eq) in E. destruct (Hn E).
Qed.

Lemma impl_canon_listed t fs : ~ In t unimplemented_downcase -> impl_canon t fs = canon_rdata t fs.
Proof. intros Ht. unfold impl_canon, canon_rdata. now rewrite (policy_agrees t Ht). Qed.

Lemma opaque_key_is_canonical t fs :
  impl_policy t = None -> rfc_downcase t = false -> len (raw_fields fs) <= 65535 ->
  to_bytes t fs = canon_rdata t fs.
Proof. intros Hp Hd Hl. rewrite (to_bytes_opaque t fs Hp Hl). unfold canon_rdata. now rewrite Hd. Qed.

Lemma impl_canon_is_rfc t fs :
  len (raw_fields fs) <= 65535 ->
  to_bytes t fs = canon_rdata t fs -> impl_canon t fs = canon_rdata t fs.
Proof.
  intros Hl H. unfold impl_canon, canon_rdata in *. rewrite rfc_downcase_eq in *.
  destruct (impl_lower t); [reflexivity|]. cbn [orb] in *.
  destruct (existsb _ unimplemented_downcase) eqn:E; [|reflexivity].
  rewrite <- H, (to_bytes_opaque t fs (unimplemented_opaque t E) Hl). now rewrite raw_fields_canon.
Qed.

Definition cn (r : rr) : list byte := canon_rdata (r_type r) (r_data r).

(* outside the deviation class the RDATAs are emitted as the RFC has them: canonical, in canonical order *)
Lemma impl_order_is_rfc set :
  Forall wf_rr set ->
  (forall a b, In a set -> In b set -> r_ttl a = r_ttl b) ->
  (forall r, In r set -> sort_key r = cn r) ->
  NoDup (map cn set) ->
  map impl_rdata (isort rec_le set) = usort (map cn set).
Proof.
  intros Hwf Httl Htb Hnd. rewrite (usort_isort _ Hnd), (map_ext_in impl_rdata cn).
  - symmetry. apply isort_map.
    (* with equal TTLs and sort keys that are the canonical RDATAs, Ord for Record is the octet order on those *)
    intros a b Ha Hb. rewrite rec_le_key. unfold rkey.
    now rewrite (Httl a b Ha Hb), lex_le_cons, (Htb a Ha), (Htb b Hb).
  - intros r Hin%isort_in. apply impl_canon_is_rfc; [|exact (Htb r Hin)].
    rewrite Forall_forall in Hwf. exact (proj2 (Hwf r Hin)).
Qed.

Lemma has_dup_false l : has_dup l = false -> NoDup l.
Proof.
  induction l as [|x l IH]; cbn [has_dup]; intros H; [constructor|].
  apply orb_false_iff in H. destruct H as [H1 H2]. constructor; [|auto].
  intros Hin. apply (existsb_false _ _ x H1) in Hin.
  rewrite (proj2 (bytes_eqb_eq x x) eq_refl) in Hin. discriminate.
Qed.

Lemma ttls_differ_false l : ttls_differ l = false ->
  forall a b, In a l -> In b l -> r_ttl a = r_ttl b.
Proof.
  destruct l as [|r l]; cbn [ttls_differ]; intros H a b Ha Hb; [destruct Ha|].
  assert (K : forall x, In x (r :: l) -> r_ttl x = r_ttl r).
  { intros x [<-|Hx]; [reflexivity|]. apply (existsb_false _ _ x H) in Hx.
    apply negb_false_iff in Hx. now apply N.eqb_eq. }
  now rewrite (K a Ha), (K b Hb).
Qed.

Lemma known_false_parts nm cls s rs :
  known_deviation nm cls s rs = false ->
  let set := the_rrset nm cls s rs in
  (forall a b, In a set -> In b set -> r_ttl a = r_ttl b) /\
  NoDup (map cn set) /\
  (forall r, In r set -> sort_key r = cn r).
Proof.
  unfold known_deviation. intros H. cbv zeta in *.
  apply orb_false_iff in H. destruct H as [H H3]. apply orb_false_iff in H. destruct H as [H1 H2].
  split; [|split].
  - now apply ttls_differ_false.
  - now apply has_dup_false.
  - intros r Hr. apply (existsb_false _ _ r H3) in Hr. apply negb_false_iff in Hr. now apply bytes_eqb_eq.
Qed.

Lemma wf_all_rrset nm cls s rs : Forall wf_rr rs -> Forall wf_rr (the_rrset nm cls s rs).
Proof. intros H. apply incl_Forall with (2 := H). apply incl_filter. Qed.

Lemma rrset_type nm cls s rs a : In a (the_rrset nm cls s rs) -> r_type a = s_type s.
Proof.
  intros H. apply filter_In in H. destruct H as [_ H].
  unfold rrset_member in H. rewrite !andb_true_iff in H. now apply N.eqb_eq.
Qed.

Lemma tbs_of_rfc nm cls s rs :
  match rfc_signed_data nm cls s rs with
  | None => ErrName
  | Some d => if MAX <? len d then ErrEncode else Ok d
  end = tbs_of nm cls s (usort (map cn (the_rrset nm cls s rs))).
Proof. unfold tbs_of, rfc_signed_data. now destruct (rfc_name _ _). Qed.

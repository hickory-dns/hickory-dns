(* C05 — determine_name (tbs.rs) computes the RFC 4035 5.3.2 name; lower-casing commutes. *)
From HV Require Import Lib.Base Lib.ListX C05.Model.
From HV Require Lib.Wire.
Open Scope N_scope.

Lemma len_nil {A} : len (@nil A) = 0. Proof. reflexivity. Qed.
Lemma len_cons {A} (x : A) l : len (x :: l) = 1 + len l.
Proof. unfold len. cbn [length]. lia. Qed.
Lemma len_app {A} (a b : list A) : len (a ++ b) = len a + len b.
Proof. unfold len. rewrite app_length. lia. Qed.
Lemma len_map {A B} (f : A -> B) l : len (map f l) = len l.
Proof. unfold len. now rewrite map_length. Qed.

Lemma len_enc_labels ls : len (enc_labels ls) = len ls + len (concat ls).
Proof.
  induction ls as [|l ls IH]; [reflexivity|].
  unfold enc_labels in *. cbn [map concat]. rewrite !len_app, IH. unfold enc_label.
  rewrite !len_cons. lia.
Qed.

Lemma len_wire_name_enc ls : len (wire_name ls) = len (enc_labels ls) + 1.
Proof. unfold wire_name. rewrite len_app, len_cons, len_nil. lia. Qed.

Lemma len_wire_name ls : len (wire_name ls) = encoded_len ls.
Proof. unfold encoded_len. rewrite len_wire_name_enc, len_enc_labels. lia. Qed.

Lemma lower_star_iff b : lower b = 42 <-> b = 42.
Proof. unfold lower. destruct (N.leb_spec 65 b), (N.leb_spec b 90); cbn [andb]; lia. Qed.

Lemma is_star_lower l : bytes_eqb (lower_label l) star = bytes_eqb l star.
Proof.
  apply eq_true_iff_eq. rewrite !bytes_eqb_eq. split; [|now intros ->].
  destruct l as [|b [|c l]]; try discriminate. cbn. intros [= H]. apply (proj1 (lower_star_iff b)) in H. now subst b.
Qed.

Lemma lower_labels_idem ls : lower_labels (lower_labels ls) = lower_labels ls.
Proof. exact (Wire.map_map_idem _ ls Wire.lower_idem). Qed.

Lemma concat_lower_len ls : len (concat (lower_labels ls)) = len (concat ls).
Proof.
  induction ls as [|l ls IH]; [reflexivity|].
  cbn [lower_labels map concat]. rewrite !len_app. fold (lower_labels ls). rewrite IH, (len_map lower). reflexivity.
Qed.

Lemma wf_label_lower l : wf_label (lower_label l) <-> wf_label l.
Proof. unfold wf_label. rewrite (len_map lower). destruct l; [tauto|]. split; intros [_ H]; (split; [discriminate|exact H]). Qed.

Lemma wf_labels_lower ls : wf_labels (lower_labels ls) <-> wf_labels ls.
Proof.
  (* well-formedness looks at lengths only *)
  unfold wf_labels, lower_labels at 1. rewrite Forall_map, !len_wire_name. unfold encoded_len.
  rewrite (len_map lower_label), concat_lower_len, !Forall_forall. now setoid_rewrite wf_label_lower.
Qed.

Lemma lastn_skipn {A} (k : nat) (l : list A) : lastn k l = skipn (length l - k) l.
Proof. unfold lastn. now rewrite firstn_rev, rev_involutive. Qed.

Lemma lastn_map {A B} (f : A -> B) k l : lastn k (map f l) = map f (lastn k l).
Proof. unfold lastn. now rewrite <- map_rev, firstn_map, map_rev. Qed.

Lemma num_labels_is_rfc ls : num_labels ls = rfc_label_count ls.
Proof.
  destruct ls as [|l rest]; [reflexivity|]. cbn [num_labels rfc_label_count].
  destruct (bytes_eqb l star); [|reflexivity]. rewrite len_cons. lia.
Qed.

Lemma num_labels_le ls : num_labels ls <= len ls.
Proof.
  destruct ls as [|l rest]; [cbn; lia|]. cbn [num_labels]. destruct (bytes_eqb l star); lia.
Qed.

Lemma rfc_label_count_lower ls : rfc_label_count (lower_labels ls) = rfc_label_count ls.
Proof.
  destruct ls as [|l rest]; [reflexivity|]. cbn [lower_labels map rfc_label_count].
  rewrite is_star_lower. fold (lower_labels rest). rewrite !len_cons, (len_map lower_label). reflexivity.
Qed.

Lemma rfc_name_lower ls k : rfc_name (lower_labels ls) k = option_map lower_labels (rfc_name ls k).
Proof.
  unfold rfc_name. rewrite rfc_label_count_lower.
  destruct (k ?= rfc_label_count ls); cbn [option_map]; try reflexivity.
  unfold lower_labels at 1. rewrite lastn_map. reflexivity.
Qed.

Lemma wf_label_len l : wf_label l -> 1 <= len l <= 63.
Proof. intros [Hn Hl]. destruct l; [congruence|]. rewrite len_cons in *. lia. Qed.

Lemma wf_label_star : wf_label star.
Proof. split; [discriminate|cbv; discriminate]. Qed.

(* 2: the octets of the "*" label that takes the place of the dropped ones *)
Lemma encoded_len_skipn ls d :
  Forall wf_label ls -> (1 <= d <= length ls)%nat ->
  encoded_len (skipn d ls) + 2 <= encoded_len ls.
Proof.
  revert d. induction ls as [|l ls IH]; intros d Hw Hd; [cbn in Hd; lia|].
  inversion Hw as [|? ? Hl Hw']; subst. apply wf_label_len in Hl.
  destruct d as [|d]; [lia|]. cbn [skipn].
  assert (E : encoded_len (l :: ls) = encoded_len ls + 1 + len l).
  { unfold encoded_len. cbn [concat]. rewrite len_cons, len_app. lia. }
  destruct d as [|d].
  - cbn [skipn]. lia.
  - cbn [length] in Hd. specialize (IH (S d) Hw' ltac:(lia)). lia.
Qed.

Lemma rfc_name_wf ls k o : wf_labels ls -> rfc_name ls k = Some o -> wf_labels o.
Proof.
  intros [Hw Hlen] H. unfold rfc_name in H.
  destruct (k ?= rfc_label_count ls) eqn:E; inversion H; subst; clear H; [now split|].
  change (k < rfc_label_count ls) in E. rewrite <- num_labels_is_rfc in E.
  pose proof (num_labels_le ls) as Hle. unfold len in Hle.
  rewrite lastn_skipn. set (d := (length ls - N.to_nat k)%nat).
  assert (Hd : (1 <= d <= length ls)%nat) by (unfold d; lia). split.
  - constructor; [apply wf_label_star|now apply Forall_skipn].
  - rewrite len_wire_name in *.
    assert (encoded_len (star :: skipn d ls) = encoded_len (skipn d ls) + 2) as ->.
    { unfold encoded_len. cbn [concat star]. rewrite !len_cons, len_app. cbn. lia. }
    pose proof (encoded_len_skipn ls d Hw Hd). lia.
Qed.

Theorem determine_name_is_rfc n k :
  wf_labels (nlabels n) ->
  option_map nlabels (determine_name n k) = rfc_name (nlabels n) k.
Proof.
  destruct n as [fq ls]. cbn [nlabels]. intros Hwf.
  pose proof (fun o => rfc_name_wf ls k o Hwf) as Hfit. pose proof (num_labels_le ls) as Hle.
  unfold determine_name, rfc_name in *. cbn [nlabels nfq]. rewrite <- num_labels_is_rfc in *.
  destruct (N.eqb_spec (num_labels ls) k) as [<-|E1]; [now rewrite N.compare_refl|].
  destruct (N.ltb_spec k (num_labels ls)) as [E2|E2].
  - rewrite (proj2 (N.compare_lt_iff _ _) E2) in *.
    destruct (N.ltb_spec (len ls) k); [lia|]. cbn [nlabels nfq].
    destruct (Hfit _ eq_refl) as [_ Hlen]. rewrite len_wire_name, lastn_skipn in *.
    destruct (skipn _ ls) as [|r rm]; [reflexivity|].
    (* the 255-octet test of append_name cannot fire *)
    destruct (N.ltb_spec 255 (encoded_len (star :: r :: rm))); [lia|reflexivity].
  - rewrite (proj2 (N.compare_gt_iff _ _)) by lia. reflexivity.
Qed.

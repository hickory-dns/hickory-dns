(* C05 — property theorems.  Model = Part 1 of Model.v (TBS::new, determine_name, SigInput::emit,
   Ord for Record / RData, the encoder modes); spec = Part 2 (RFC 4034 6.2/6.3 + RFC 6840 5.1,
   RFC 4035 5.3.2).  Here the statements, the last step of their proofs, witnesses and
   non-vacuity examples. *)
From Coq Require Import Sorting.Sorted Sorting.Permutation.
From HV Require Import Lib.Base Lib.ListX C05.Model C05.NameProofs C05.OrderProofs C05.EncodeProofs C05.GuardProofs
  C05.ShapeProofs C05.PermProofs.
Open Scope N_scope.

(* determine_name implements RFC 4035 5.3.2 "To calculate the name" for every well-formed owner
   and every Labels value: same name (same labels, "*" kept), "*" + rightmost labels, or refusal;
   it never fails for another reason (the 255-octet test of append_name cannot fire). *)
Theorem C05_determine_name_is_rfc : forall n k,
  wf_labels (nlabels n) ->
  option_map nlabels (determine_name n k) = rfc_name (nlabels n) k.
Proof. exact determine_name_is_rfc. Qed.
Print Assumptions C05_determine_name_is_rfc.

(* SigInput::emit writes the RRSIG RDATA fields in RFC order with the signer's name uncompressed
   and in lower case, and cannot fail for a well-formed signer name. *)
Theorem C05_rrsig_rdata_is_rfc : forall s,
  wf_sig s -> exists ps, emit_siginput 0 [] s = Some (rfc_sig_rdata s, ps).
Proof. exact emit_siginput_plain. Qed.
Print Assumptions C05_rrsig_rdata_is_rfc.

(* The per-type name policy of the emitters is the RFC 4034 6.2 / RFC 6840 5.1 list, except for
   the 14 listed types hickory has no typed RDATA for (refuted for those: see
   C05_tbs_is_rfc_refuted_unknown_type). *)
Theorem C05_downcase_list_guarded : forall t,
  ~ In t unimplemented_downcase -> impl_lower t = rfc_downcase t.
Proof. exact policy_agrees. Qed.
Print Assumptions C05_downcase_list_guarded.

(* For those types every RR is emitted in RFC 4034 6.2 canonical form: lower-case owner, covered
   type, class, Original TTL, RDATA length, RDATA with names expanded and downcased per the list
   -- at any buffer offset and whatever label pointers were recorded before; the only failure
   is the 65535-octet buffer limit. *)
Theorem C05_rr_encoding_is_canonical_guarded : forall owner s cls off ps r,
  wf_labels owner -> Forall wf_field (r_data r) -> off <= MAX ->
  ~ In (r_type r) unimplemented_downcase ->
  let o := canon_rr (lower_labels owner) (s_type s) cls (s_ottl s) (canon_rdata (r_type r) (r_data r)) in
  if MAX <? off + len o then emit_rr owner s cls off ps r = None
  else exists ps', emit_rr owner s cls off ps r = Some (o, ps').
Proof.
  intros owner s cls off ps r Ho Hf Hoff Ht.
  pose proof (emit_rr_plain owner s cls off ps r Ho Hf) as H.
  unfold impl_rdata in H. rewrite (impl_canon_listed _ _ Ht) in H. exact H.
Qed.
Print Assumptions C05_rr_encoding_is_canonical_guarded.

(* "distinct RRs in canonical order" is a function of the set of canonical RDATAs: usort returns
   a strictly increasing list with the same elements, and any list with these two properties is
   that list. *)
Theorem C05_rfc_order_is_characterised : forall rds,
  canonical_order (usort rds) rds /\ forall l, canonical_order l rds -> l = usort rds.
Proof.
  intros rds. split; [apply usort_canonical|].
  intros l H. exact (canonical_order_unique _ _ _ H (usort_canonical rds)).
Qed.
Print Assumptions C05_rfc_order_is_characterised.

(* Outside the known deviation class (all member TTLs equal, no two members with the same
   canonical RDATA, every member's sort-key encoding equal to its canonical RDATA) TBS::new
   returns exactly the RFC 4035 5.3.2 signed data for every owner, class, RRSIG parameter tuple
   and record list (any order, any noise records, any owner case); it refuses exactly when the
   RFC says the RRSIG must not be used; and the one further failure is the encoder's 65535-octet
   limit on the signed data (the RFC has none: see C05_size_limit_refuted). *)
Theorem C05_tbs_is_rfc_guarded : forall nm cls s rs,
  wf_labels (nlabels nm) -> wf_sig s -> Forall wf_rr (the_rrset nm cls s rs) ->
  known_deviation nm cls s rs = false ->
  tbs nm cls s rs = match rfc_signed_data nm cls s rs with
                    | None => ErrName
                    | Some d => if MAX <? len d then ErrEncode else Ok d
                    end.
Proof.
  intros nm cls s rs Hn Hs Hr Hk.
  destruct (known_false_parts nm cls s rs Hk) as (Httl & Hnd & Htb).
  rewrite tbs_closed_form, tbs_of_rfc by assumption. f_equal. now apply impl_order_is_rfc.
Qed.
Print Assumptions C05_tbs_is_rfc_guarded.

(* What holds for EVERY input, the deviation class included (types on the unimplemented list
   excepted): the signed data is the RRSIG RDATA followed by the RFC canonical RR of each member
   record -- every one, duplicates kept -- in some order; so the only possible deviations are
   the order and the duplicates (F3), and the size limit. *)
Theorem C05_tbs_is_rfc_up_to_order : forall nm cls s rs,
  wf_labels (nlabels nm) -> wf_sig s -> Forall wf_rr (the_rrset nm cls s rs) ->
  ~ In (s_type s) unimplemented_downcase ->
  exists l, Permutation l (the_rrset nm cls s rs) /\
    tbs nm cls s rs =
      match rfc_name (lower_labels (nlabels nm)) (s_labels s) with
      | None => ErrName
      | Some owner =>
          let d := rfc_sig_rdata s ++ concat (map (fun r => canon_rr owner (s_type s) cls (s_ottl s) (cn r)) l) in
          if MAX <? len d then ErrEncode else Ok d
      end.
Proof.
  intros nm cls s rs Hn Hs Hr Ht. exists (isort rec_le (the_rrset nm cls s rs)).
  split; [apply Permutation_sym, isort_perm|].
  rewrite tbs_closed_form by assumption. unfold tbs_of. destruct (rfc_name _ _); [|reflexivity].
  rewrite map_map. cbv zeta. erewrite map_ext_in; [reflexivity|]. intros r Hin%isort_in.
  rewrite <- (rrset_type _ _ _ _ _ Hin) in Ht. unfold impl_rdata, cn. now rewrite (impl_canon_listed _ _ Ht).
Qed.
Print Assumptions C05_tbs_is_rfc_up_to_order.

(* witnesses that the guard is needed (each replayed on the real code by the harness:
   fixed_input 0, 1, 2, 6, 3 in harness/src/bin/c05.rs) *)

Definition ex : label := [101; 120; 97; 109; 112; 108; 101].   (* "example" *)
Definition Ex : label := [69; 120; 97; 109; 112; 108; 101].    (* "Example" *)
Definition net : label := [110; 101; 116].
Definition NET : label := [78; 69; 84].
Definition wsig (t : N) : sigin := mkSig t 13 1 3600 1700000000 1690000000 12345 [Ex].
Definition wrr (t ttl : N) (d : list field) : rr := mkRR (Nm true [ex]) 1 ttl t d.

(* inputs are well formed, the RFC signed data is defined and fits, yet TBS::new returns
   something else *)
Definition deviates (nm : name) (cls : N) (s : sigin) (rs : list rr) : Prop :=
  wf_labels (nlabels nm) /\ wf_sig s /\ Forall wf_rr rs /\
  exists d, rfc_signed_data nm cls s rs = Some d /\ len d <= MAX /\ tbs nm cls s rs <> Ok d.

(* [deviates] and the well-formedness predicates are decidable: a closed witness is one evaluation *)
Definition wf_labelsb (ls : list label) : bool :=
  forallb (fun l => (1 <=? len l) && (len l <=? 63)) ls && (len (wire_name ls) <=? 255).
Definition wf_rrb (r : rr) : bool :=
  forallb (fun f => match f with FB _ => true | FN ls => wf_labelsb ls end) (r_data r)
  && (len (raw_fields (r_data r)) <=? 65535).
Definition deviatesb (nm : name) (cls : N) (s : sigin) (rs : list rr) : bool :=
  wf_labelsb (nlabels nm) && wf_labelsb (s_signer s) && forallb wf_rrb rs &&
  match rfc_signed_data nm cls s rs with
  | Some d => (len d <=? MAX) && negb (match tbs nm cls s rs with Ok b => bytes_eqb b d | _ => false end)
  | None => false
  end.

Lemma wf_labelsb_ok ls : wf_labelsb ls = true -> wf_labels ls.
Proof.
  intros [H1 H2%N.leb_le]%andb_true_iff. split; [|exact H2]. revert H1. apply forallb_Forall_impl.
  intros l [Ha%N.leb_le Hb%N.leb_le]%andb_true_iff. split; [|exact Hb]. intros ->. now apply Ha.
Qed.

Lemma wf_rrb_ok r : wf_rrb r = true -> wf_rr r.
Proof.
  intros [H1 H2%N.leb_le]%andb_true_iff. split; [|exact H2]. revert H1. apply forallb_Forall_impl.
  intros [bs|ls]; [easy|apply wf_labelsb_ok].
Qed.

Lemma deviatesb_ok nm cls s rs : deviatesb nm cls s rs = true -> deviates nm cls s rs.
Proof.
  unfold deviatesb. intros [[[Hn Hs]%andb_true_iff Hr]%andb_true_iff H]%andb_true_iff.
  split; [now apply wf_labelsb_ok|]. split; [now apply wf_labelsb_ok|].
  split; [exact (forallb_Forall_impl _ _ _ wf_rrb_ok Hr)|].
  destruct (rfc_signed_data nm cls s rs) as [d|]; [|discriminate]. exists d.
  apply andb_true_iff in H. destruct H as [Hl%N.leb_le Hd]. split; [reflexivity|]. split; [exact Hl|].
  intros E. rewrite E, (proj2 (bytes_eqb_eq d d) eq_refl) in Hd. discriminate.
Qed.

(* F3a: NS {B.example., a.example.}: sorted by the case-preserving octets ('B' < 'a') *)
Theorem C05_tbs_is_rfc_refuted_case_order :
  deviates (Nm true [ex]) 1 (wsig 2) [wrr 2 3600 [FN [[66]; ex]]; wrr 2 3600 [FN [[97]; ex]]].
Proof. apply deviatesb_ok. vm_compute. reflexivity. Qed.
Print Assumptions C05_tbs_is_rfc_refuted_case_order.

(* F3b: the record TTL is compared before the RDATA *)
Theorem C05_tbs_is_rfc_refuted_ttl_order :
  deviates (Nm true [ex]) 1 (wsig 1) [wrr 1 60 [FB [192; 0; 2; 2]]; wrr 1 30 [FB [192; 0; 2; 9]]].
Proof. apply deviatesb_ok. vm_compute. reflexivity. Qed.
Print Assumptions C05_tbs_is_rfc_refuted_ttl_order.

(* F3c: duplicate records are not removed *)
Theorem C05_tbs_is_rfc_refuted_duplicate :
  deviates (Nm true [ex]) 1 (wsig 1) [wrr 1 60 [FB [192; 0; 2; 2]]; wrr 1 60 [FB [192; 0; 2; 2]]].
Proof. apply deviatesb_ok. vm_compute. reflexivity. Qed.
Print Assumptions C05_tbs_is_rfc_refuted_duplicate.

(* F3d: SOA sort key with the second name compressed against the first (pointer octet 0xC0
   sorts after any label length) *)
Theorem C05_tbs_is_rfc_refuted_compression :
  deviates (Nm true [ex]) 1 (wsig 6)
    [wrr 6 3600 [FN [[110; 115]; ex]; FN [[110; 115]; ex]; FB (repeat 0 20)];
     wrr 6 3600 [FN [[110; 115]; ex]; FN [[122; 122]]; FB (repeat 0 20)]].
Proof. apply deviatesb_ok. vm_compute. reflexivity. Qed.
Print Assumptions C05_tbs_is_rfc_refuted_compression.

(* F12: DNAME (RFC 4034 6.2 list) target is not downcased *)
Theorem C05_tbs_is_rfc_refuted_unknown_type :
  deviates (Nm true [ex]) 1 (wsig 39) [wrr 39 3600 [FN [Ex; NET]]].
Proof. apply deviatesb_ok. vm_compute. reflexivity. Qed.
Print Assumptions C05_tbs_is_rfc_refuted_unknown_type.

Lemma len_repeat {A} (c : A) n : len (repeat c (N.to_nat n)) = n.
Proof. unfold len. now rewrite repeat_length, N2Nat.id. Qed.

Lemma repeat_succ {A} (c : A) n : repeat c (N.to_nat (N.succ n)) = c :: repeat c (N.to_nat n).
Proof. now rewrite N2Nat.inj_succ. Qed.

(* F13: RFC signed data longer than 65535 octets: an error instead of octets, although the RRset
   (two TXT records of 32745 octets under a 5-octet owner) fits a 65535-octet DNS message *)
Definition big_txt (c : N) : list field := [FB (repeat c (N.to_nat 32745))].
Theorem C05_size_limit_refuted :
  let nm := Nm true [[97]; [98]] in
  let rs := [mkRR nm 1 300 16 (big_txt 97); mkRR nm 1 300 16 (big_txt 98)] in
  known_deviation nm 1 (wsig 16) rs = false /\
  (exists d, rfc_signed_data nm 1 (wsig 16) rs = Some d) /\
  tbs nm 1 (mkSig 16 13 2 3600 1700000000 1690000000 12345 [Ex]) rs = ErrEncode.
Proof.
  (* Only the first octet and the length of the two strings matter: their tails are made
     variables, so that no step evaluates a 32 KiB list. *)
  cbv zeta. unfold big_txt. replace 32745 with (N.succ 32744) by reflexivity. rewrite !repeat_succ.
  generalize (len_repeat 97 32744) (len_repeat 98 32744).
  generalize (repeat 97 (N.to_nat 32744)) (repeat 98 (N.to_nat 32744)). intros A B HA HB.
  set (nm := Nm true [[97]; [98]]).
  set (ra := mkRR nm 1 300 16 [FB (97 :: A)]). set (rb := mkRR nm 1 300 16 [FB (98 :: B)]).
  assert (H : forall c X r, len X = 32744 -> r = mkRR nm 1 300 16 [FB (c :: X)] ->
                len (cn r) = 32745 /\ wf_rr r /\ bytes_eqb (sort_key r) (cn r) = true).
  { intros c X r HX ->. set (r := mkRR _ _ _ _ _).
    assert (L : len (cn r) = 32745).
    { change (cn r) with ((c :: X) ++ []). rewrite len_app, len_cons, HX. reflexivity. }
    assert (W : wf_rr r).
    { split; [repeat constructor|]. change (raw_fields (r_data r)) with (cn r). rewrite L. discriminate. }
    split; [exact L|]. split; [exact W|].
    apply bytes_eqb_eq, opaque_key_is_canonical; [reflexivity|reflexivity|apply W]. }
  destruct (H 97 A ra HA eq_refl) as (La & Wa & Ka), (H 98 B rb HB eq_refl) as (Lb & Wb & Kb). clear H.
  (* the deviation class looks at the covered type only, not at the Labels field *)
  assert (Hk : forall s, s_type s = 16 -> known_deviation nm 1 s [ra; rb] = false).
  { intros s Hs. unfold known_deviation, the_rrset. rewrite Hs. change (filter _ _) with [ra; rb].
    cbn [existsb]. fold (sort_key ra) (cn ra) (sort_key rb) (cn rb). rewrite Ka, Kb. reflexivity. }
  split; [now apply Hk|]. split; [eexists; reflexivity|].
  set (s := mkSig 16 13 2 _ _ _ _ _).
  rewrite C05_tbs_is_rfc_guarded; [|now apply wf_labelsb_ok|now apply wf_labelsb_ok|apply wf_all_rrset; auto|now apply Hk].
  change (rfc_signed_data nm 1 s [ra; rb]) with
    (Some (rfc_sig_rdata s ++ concat (map (canon_rr [[97]; [98]] 16 1 3600) [cn ra; cn rb]))).
  cbn [map concat]. rewrite !len_app, !len_canon_rr, La, Lb. reflexivity.
Qed.
Print Assumptions C05_size_limit_refuted.

(* Ord for RData (comparison of RData::to_bytes, names possibly compressed against earlier names
   of the same RDATA) identifies the RDATA: two field lists of one layout with the same
   to_bytes octets are equal -- for every type policy, the compressing one included. *)
Theorem C05_sort_key_is_injective : forall t f1 f2,
  same_shape f1 f2 -> Forall wf_field f1 -> Forall wf_field f2 ->
  len (raw_fields f1) <= 65535 -> len (raw_fields f2) <= 65535 ->
  to_bytes t f1 = to_bytes t f2 -> f1 = f2.
Proof. exact to_bytes_inj. Qed.
Print Assumptions C05_sort_key_is_injective.

(* Hence the signed data does not depend on the order in which the records are presented
   (signer's zone order vs. packet order at the verifier) -- also inside the known deviation
   class -- for every RRset whose records share one field layout (uniform_layout: names at the
   same positions, octet fields of equal length or of one self-delimiting frame, the trailing
   field free; a property of the records of one type, not of the code). *)
Theorem C05_perm_invariant : forall nm cls s rs rs',
  wf_labels (nlabels nm) -> wf_sig s -> Forall wf_rr (the_rrset nm cls s rs) ->
  uniform_layout (the_rrset nm cls s rs) ->
  Permutation rs rs' ->
  tbs nm cls s rs = tbs nm cls s rs'.
Proof.
  intros nm cls s rs rs' Hn Hs Hr Hu Hp.
  exact (tbs_perm_invariant nm cls s rs rs' Hn Hs Hr (key_determines_rrset nm cls s rs Hr Hu) Hp).
Qed.
Print Assumptions C05_perm_invariant.

(* The same for what a verifier actually receives: the owner and the record owners in any other
   letter case, the record TTLs changed by any map that preserves their order on this RRset (a
   cache counting them down), the records in any order. *)
Theorem C05_verifier_view_invariant : forall nm nm' cls s rs rs' ren g,
  wf_labels (nlabels nm) -> wf_labels (nlabels nm') -> wf_sig s ->
  Forall wf_rr (the_rrset nm cls s rs) ->
  uniform_layout (the_rrset nm cls s rs) ->
  name_eqb nm nm' = true ->
  (forall r, In r rs -> name_eqb (r_name r) (ren r) = true) ->
  (forall a b, In a rs -> In b rs -> (g (r_ttl a) ?= g (r_ttl b)) = (r_ttl a ?= r_ttl b)) ->
  Permutation (map (retarget ren g) rs) rs' ->
  tbs nm cls s rs = tbs nm' cls s rs'.
Proof.
  intros nm nm' cls s rs rs' ren g Hn Hn' Hs Hr Hu.
  exact (tbs_verifier_view nm nm' cls s rs rs' ren g Hn Hs Hr (key_determines_rrset nm cls s rs Hr Hu)).
Qed.
Print Assumptions C05_verifier_view_invariant.

Section Signatures.
  (* any signature scheme: only correctness of verify on what sign produced is assumed *)
  Context {SK PK SG : Type} (pub : SK -> PK) (sign : SK -> list byte -> SG)
          (verify : PK -> list byte -> SG -> bool).
  Hypothesis sig_correct : forall k d, verify (pub k) d (sign k d) = true.

  (* built-in signer, then built-in verifier on the verifier's view of the records: accepted,
     whether or not the signed data is the RFC's *)
  Theorem C05_sign_then_verify : forall k nm nm' cls s rs rs' ren g b,
    wf_labels (nlabels nm) -> wf_labels (nlabels nm') -> wf_sig s ->
    Forall wf_rr (the_rrset nm cls s rs) ->
    uniform_layout (the_rrset nm cls s rs) ->
    name_eqb nm nm' = true ->
    (forall r, In r rs -> name_eqb (r_name r) (ren r) = true) ->
    (forall a b, In a rs -> In b rs -> (g (r_ttl a) ?= g (r_ttl b)) = (r_ttl a ?= r_ttl b)) ->
    Permutation (map (retarget ren g) rs) rs' ->
    tbs nm cls s rs = Ok b ->
    exists b', tbs nm' cls s rs' = Ok b' /\ verify (pub k) b' (sign k b) = true.
  Proof.
    intros k nm nm' cls s rs rs' ren g b Hn Hn' Hs Hr Hu Hnm Hren Hg Hp Hb. exists b.
    rewrite <- (C05_verifier_view_invariant nm nm' cls s rs rs' ren g Hn Hn' Hs Hr Hu Hnm Hren Hg Hp).
    split; [exact Hb|apply sig_correct].
  Qed.

  (* a conforming third-party signer signs the RFC signed data; the built-in verifier accepts,
     outside the known deviation class and below the size limit *)
  Theorem C05_third_party_verifies_guarded : forall k nm cls s rs d,
    wf_labels (nlabels nm) -> wf_sig s -> Forall wf_rr (the_rrset nm cls s rs) ->
    known_deviation nm cls s rs = false ->
    rfc_signed_data nm cls s rs = Some d -> len d <= MAX ->
    exists b, tbs nm cls s rs = Ok b /\ verify (pub k) b (sign k d) = true.
  Proof.
    intros k nm cls s rs d Hn Hs Hr Hk Hd Hl. exists d.
    rewrite (C05_tbs_is_rfc_guarded nm cls s rs Hn Hs Hr Hk), Hd.
    replace (MAX <? len d) with false by (symmetry; apply N.ltb_ge; exact Hl).
    split; [reflexivity|apply sig_correct].
  Qed.
End Signatures.
Print Assumptions C05_sign_then_verify.
Print Assumptions C05_third_party_verifies_guarded.

(* wildcard expansion: owner a.b.example with Labels = 1 gives *.example *)
Example C05_name_example :
  wf_labels [[97]; [98]; ex] /\
  option_map nlabels (determine_name (Nm true [[97]; [98]; Ex]) 1) = Some [star; Ex] /\
  rfc_name [[97]; [98]; ex] 4 = None.
Proof. split; [now apply wf_labelsb_ok|split; reflexivity]. Qed.

(* a two-record NS RRset with a noise record, mixed-case owner, shuffled: not in the deviation
   class, and the signed data is produced *)
Example C05_guarded_example :
  let nm := Nm true [Ex] in
  let rs := [wrr 2 3600 [FN [[98]; ex]]; mkRR (Nm true [net]) 1 3600 2 [FN [[99]]]; wrr 2 3600 [FN [[97]; ex]]] in
  wf_labels (nlabels nm) /\ wf_sig (wsig 2) /\ Forall wf_rr (the_rrset nm 1 (wsig 2) rs) /\
  known_deviation nm 1 (wsig 2) rs = false /\ ~ In (s_type (wsig 2)) unimplemented_downcase /\
  (exists d, rfc_signed_data nm 1 (wsig 2) rs = Some d /\ tbs nm 1 (wsig 2) rs = Ok d /\ len d = 87).
Proof.
  cbv zeta. split; [now apply wf_labelsb_ok|]. split; [now apply wf_labelsb_ok|].
  split; [now apply wf_all_rrset, (forallb_Forall_impl _ _ _ wf_rrb_ok)|].
  split; [vm_compute; reflexivity|].
  split; [intros H%(existsb_eqb_in N.eqb N.eqb_eq); discriminate H|].
  eexists. split; [vm_compute; reflexivity|]. split; vm_compute; reflexivity.
Qed.

(* the layout hypothesis of the permutation theorems holds for the F3 witness itself (NS) and
   for NAPTR records with flag / service / regexp strings of different lengths (framed 4 3) *)
Example C05_layout_example :
  uniform_layout (the_rrset (Nm true [ex]) 1 (wsig 2) [wrr 2 3600 [FN [[66]; ex]]; wrr 2 3600 [FN [[97]; ex]]]) /\
  same_shape [FB ([0; 1; 0; 2] ++ [1; 83] ++ [0] ++ [0]); FN [ex]]
             [FB ([0; 1; 0; 2] ++ [0] ++ [3; 83; 73; 80] ++ [1; 33]); FN [Ex; net]].
Proof.
  split.
  - apply uniform_layout_rrset. intros a b [<-|[<-|[]]] [<-|[<-|[]]]; apply ss_fn, ss_nil.
  - apply ss_framed with (k := 4%nat) (n := 3%nat); [| |repeat constructor].
    + exists [0; 1; 0; 2], ([1; 83] ++ [0] ++ [0]). split; [reflexivity|]. split; [reflexivity|].
      apply (cs_cons 2 [83]). apply (cs_cons 1 []). apply (cs_cons 0 []). constructor.
    + exists [0; 1; 0; 2], ([0] ++ [3; 83; 73; 80] ++ [1; 33]). split; [reflexivity|]. split; [reflexivity|].
      apply (cs_cons 2 []). apply (cs_cons 1 [83; 73; 80]). apply (cs_cons 0 [33]). constructor.
Qed.

(* a verifier's view: upper-case owners, TTLs counted down by 100, records swapped *)
Example C05_verifier_view_example :
  let rs := [wrr 2 3600 [FN [[66]; ex]]; wrr 2 3600 [FN [[97]; ex]]] in
  let ren := fun _ : rr => Nm true [Ex] in
  let g := fun t => t - 100 in
  name_eqb (Nm true [ex]) (Nm true [Ex]) = true /\
  (forall r, In r rs -> name_eqb (r_name r) (ren r) = true) /\
  (forall a b, In a rs -> In b rs -> (g (r_ttl a) ?= g (r_ttl b)) = (r_ttl a ?= r_ttl b)) /\
  tbs (Nm true [ex]) 1 (wsig 2) rs = tbs (Nm true [Ex]) 1 (wsig 2) (rev (map (retarget ren g) rs)).
Proof.
  cbv zeta. split; [reflexivity|]. split.
  - intros r [<-|[<-|[]]]; reflexivity.
  - split; [|vm_compute; reflexivity].
    intros a b [<-|[<-|[]]] [<-|[<-|[]]]; reflexivity.
Qed.

(* an RR of a downcased type at a non-zero offset: hypotheses of
   C05_rr_encoding_is_canonical_guarded and C05_downcase_list_guarded hold, and the result *)
Example C05_rr_example :
  let r := wrr 15 7 [FB [0; 10]; FN [[77]; Ex]] in
  wf_labels [Ex] /\ Forall wf_field (r_data r) /\ 27 <= MAX /\ ~ In (r_type r) unimplemented_downcase /\
  exists ps', emit_rr [Ex] (wsig 15) 1 27 [] r =
    Some (canon_rr [ex] 15 1 3600 ([0; 10] ++ wire_name [[109]; ex]), ps').
Proof.
  cbv zeta. split; [now apply wf_labelsb_ok|]. split; [now apply (wf_rrb_ok (wrr 15 7 _))|].
  split; [discriminate|]. split; [intros H%(existsb_eqb_in N.eqb N.eqb_eq); discriminate H|].
  eexists. vm_compute. reflexivity.
Qed.

(* a signature scheme meeting the only assumption of section Signatures *)
Example C05_sig_scheme_example :
  let sign := fun (k : N) (d : list byte) => k :: d in
  let verify := fun (k : N) (d : list byte) (sg : list byte) => bytes_eqb sg (k :: d) in
  forall k d, verify ((fun k => k) k) d (sign k d) = true.
Proof. intros sign verify k d. apply bytes_eqb_eq. reflexivity. Qed.

(* C05 — the encoder model in the modes used by TBS::new is a plain concatenation bounded by
   the 65535-octet buffer; closed form of [tbs]. *)
From Coq Require Import Sorting.Sorted Sorting.Permutation.
From HV Require Import Lib.Base C05.Model C05.NameProofs C05.OrderProofs.
Open Scope N_scope.

(* how the implementation treats the names of type [t] in canonical form *)
Definition impl_lower (t : N) : bool :=
  match impl_policy t with Some StandardRecord | Some Canonical => true | _ => false end.
Definition impl_canon (t : N) (fs : list field) : list byte :=
  concat (map (canon_field (impl_lower t)) fs).
Definition impl_rdata (r : rr) : list byte := impl_canon (r_type r) (r_data r).

Definition lower_mode (m : nenc) : bool := match m with UncompressedLower => true | _ => false end.

(* the result of an emitter whose only failure is the buffer limit *)
Definition emits (off : N) (o : list byte) (r : option (list byte * ptrs)) : Prop :=
  if MAX <? off + len o then r = None else exists ps', r = Some (o, ps').

Lemma emits_if off o ps : emits off o (if MAX <? off + len o then None else Some (o, ps)).
Proof. unfold emits. destruct (MAX <? _); eauto. Qed.

Lemma emits_None off o : MAX < off + len o -> emits off o None.
Proof. intros H. unfold emits. destruct (N.ltb_spec MAX (off + len o)); [reflexivity|lia]. Qed.

Lemma emits_Some off o ps : off + len o <= MAX -> emits off o (Some (o, ps)).
Proof. intros H. unfold emits. destruct (N.ltb_spec MAX (off + len o)); [lia|eauto]. Qed.

Lemma emits_cases off o r :
  emits off o r -> MAX < off + len o /\ r = None \/ off + len o <= MAX /\ exists ps', r = Some (o, ps').
Proof. unfold emits. destruct (N.ltb_spec MAX (off + len o)); auto. Qed.

(* one emitter after another, as in emit_fields and emit_rrs *)
Lemma emits_bind off o1 o2 r1 (k : list byte -> ptrs -> option (list byte * ptrs)) :
  emits off o1 r1 -> (forall ps1, off + len o1 <= MAX -> emits (off + len o1) o2 (k o1 ps1)) ->
  emits off (o1 ++ o2)
    match r1 with
    | None => None
    | Some (o, ps1) => match k o ps1 with None => None | Some (o', ps2) => Some (o ++ o', ps2) end
    end.
Proof.
  unfold emits. intros H1 H2. rewrite len_app, N.add_assoc.
  destruct (N.ltb_spec MAX (off + len o1)) as [L1|L1].
  - subst r1. destruct (N.ltb_spec MAX (off + len o1 + len o2)); [reflexivity|lia].
  - destruct H1 as (ps1 & ->). specialize (H2 ps1 L1).
    destruct (MAX <? off + len o1 + len o2); [now rewrite H2|].
    destruct H2 as (ps2 & ->). eauto.
Qed.

Lemma no_long_label ls : Forall wf_label ls -> existsb (fun l => 63 <? len l) ls = false.
Proof.
  induction 1 as [|l ls [_ Hl] _ IH]; [reflexivity|]. cbn [existsb]. rewrite IH, orb_false_r.
  apply N.ltb_ge. exact Hl.
Qed.

Lemma emit_name_plain m off ps ls :
  m <> Compressed -> wf_labels ls ->
  emits off (wire_name (if lower_mode m then lower_labels ls else ls)) (emit_name m off ps ls).
Proof.
  intros Hm Hwf. set (ls' := if lower_mode m then lower_labels ls else ls).
  assert (Hwf' : wf_labels ls') by (subst ls'; destruct (lower_mode m); [now apply wf_labels_lower|assumption]).
  destruct Hwf' as [Hl H255]. pose proof (len_wire_name_enc ls') as Hlen.
  unfold emit_name, emits.
  replace (match m with UncompressedLower => lower_labels ls | _ => ls end) with ls' by (destruct m; reflexivity).
  rewrite (no_long_label ls' Hl).
  (* the early test on the labels alone and the 255-octet test are implied by the last one *)
  destruct (N.ltb_spec MAX (off + len (enc_labels ls'))), (N.ltb_spec MAX (off + len (wire_name ls'))),
    (N.ltb_spec 255 (len (wire_name ls'))); try lia; destruct m; try congruence; cbn [orb]; eauto.
Qed.

Lemma emit_field_plain m off ps f :
  m <> Compressed -> wf_field f -> emits off (canon_field (lower_mode m) f) (emit_field m off ps f).
Proof.
  intros Hm Hwf. destruct f as [bs|ls]; cbn [emit_field canon_field].
  - apply emits_if.
  - now apply emit_name_plain.
Qed.

Lemma emit_fields_plain m fs : forall off ps,
  m <> Compressed -> Forall wf_field fs -> off <= MAX ->
  emits off (concat (map (canon_field (lower_mode m)) fs)) (emit_fields m off ps fs).
Proof.
  intros off ps Hm Hwf. revert off ps.
  induction Hwf as [|f fs Hf _ IH]; intros off ps Hoff; cbn [map concat emit_fields].
  - apply emits_Some. rewrite len_nil. lia.
  - apply (emits_bind off _ _ _ (fun o ps1 => emit_fields m (off + len o) ps1 fs)).
    + now apply emit_field_plain.
    + intros ps1 H1. now apply IH.
Qed.

Lemma raw_fields_cons f fs : raw_fields (f :: fs) = raw_field f ++ raw_fields fs.
Proof. reflexivity. Qed.

Lemma raw_fields_canon fs : raw_fields fs = concat (map (canon_field false) fs).
Proof. reflexivity. Qed.

(* RData::emit inside the TBS encoder (canonical_form = true, names uncompressed) *)
Lemma emit_rdata_plain t off ps fs :
  Forall wf_field fs -> off <= MAX ->
  emits off (impl_canon t fs) (emit_rdata true Uncompressed t off ps fs).
Proof.
  intros Hwf Hoff. unfold emit_rdata, impl_canon, impl_lower.
  destruct (impl_policy t) as [e|].
  - assert (Hm : with_rdata_behavior e true Uncompressed <> Compressed) by (destruct e; discriminate).
    pose proof (emit_fields_plain _ fs off ps Hm Hwf Hoff) as H. destruct e; exact H.
  - cbv zeta. rewrite raw_fields_canon. apply emits_if.
Qed.

Lemma len_be16 n : len (be16 n) = 2. Proof. reflexivity. Qed.
Lemma len_be32 n : len (be32 n) = 4. Proof. reflexivity. Qed.

Lemma len_canon_rr owner t cls ottl rd :
  len (canon_rr owner t cls ottl rd) = len (wire_name owner) + 10 + len rd.
Proof. unfold canon_rr. rewrite !len_app, !len_be16, len_be32. lia. Qed.

Lemma emit_rr_plain owner s cls off ps r :
  wf_labels owner -> Forall wf_field (r_data r) ->
  emits off (canon_rr (lower_labels owner) (s_type s) cls (s_ottl s) (impl_rdata r)) (emit_rr owner s cls off ps r).
Proof.
  intros Hown Hwf. unfold emit_rr.
  set (o1 := wire_name (lower_labels owner)). set (rd := impl_rdata r).
  pose proof (len_canon_rr (lower_labels owner) (s_type s) cls (s_ottl s) rd) as L. fold o1 in L.
  (* each of the three limit tests of the code fires only if the whole RR does not fit; 2 + (2 + 4) + 2 are
     the type, class, TTL and RDLENGTH octets *)
  destruct (emits_cases off o1 _ (emit_name_plain UncompressedLower off ps owner ltac:(discriminate) Hown))
    as [[L1 ->]|[L1 (ps1 & ->)]]; [apply emits_None; lia|].
  rewrite !len_app, !len_be16, len_be32.
  destruct (N.ltb_spec MAX (off + len o1 + (2 + (2 + 4)) + 2)) as [L2|L2]; [apply emits_None; lia|].
  destruct (emits_cases _ rd _ (emit_rdata_plain (r_type r) _ ps1 (r_data r) Hwf L2))
    as [[L3 ->]|[L3 (ps2 & ->)]]; [apply emits_None; lia|].
  destruct (N.ltb_spec 65535 (len rd)) as [L4|L4]; [unfold MAX in *; lia|].
  rewrite <- !app_assoc. apply (emits_Some off (canon_rr _ _ _ _ rd)). rewrite L. lia.
Qed.

Lemma emit_rrs_plain owner s cls rs : forall off ps,
  wf_labels owner -> Forall (fun r => Forall wf_field (r_data r)) rs -> off <= MAX ->
  emits off (concat (map (canon_rr (lower_labels owner) (s_type s) cls (s_ottl s)) (map impl_rdata rs)))
    (emit_rrs owner s cls off ps rs).
Proof.
  intros off ps Hown Hwf. revert off ps.
  induction Hwf as [|r rs Hr _ IH]; intros off ps Hoff; cbn [map concat emit_rrs].
  - apply emits_Some. rewrite len_nil. lia.
  - apply (emits_bind off _ _ _ (fun o ps1 => emit_rrs owner s cls (off + len o) ps1 rs)).
    + now apply emit_rr_plain.
    + intros ps1 H1. now apply IH.
Qed.

Lemma len_sig_fixed s : len (sig_fixed s) = 18.
Proof. reflexivity. Qed.

Lemma rfc_sig_rdata_split s : rfc_sig_rdata s = sig_fixed s ++ wire_name (lower_labels (s_signer s)).
Proof. unfold rfc_sig_rdata, sig_fixed. now rewrite <- !app_assoc. Qed.

Lemma len_rfc_sig_rdata s : wf_sig s -> len (rfc_sig_rdata s) <= 273.
Proof.
  intros Hs. apply wf_labels_lower in Hs. destruct Hs as [_ H255].
  rewrite rfc_sig_rdata_split, len_app, len_sig_fixed. lia.
Qed.

Lemma emit_siginput_plain s :
  wf_sig s -> exists ps, emit_siginput 0 [] s = Some (rfc_sig_rdata s, ps).
Proof.
  intros Hs. unfold emit_siginput.
  assert (Hwf : Forall wf_field [FB (sig_fixed s); FN (s_signer s)]) by (constructor; [exact I|constructor; [exact Hs|constructor]]).
  pose proof (emit_fields_plain UncompressedLower _ 0 [] ltac:(discriminate) Hwf ltac:(discriminate)) as H.
  cbn [lower_mode map concat canon_field] in H. rewrite app_nil_r, <- rfc_sig_rdata_split in H.
  pose proof (len_rfc_sig_rdata s Hs).
  destruct (emits_cases _ _ _ H) as [[L _]|[_ E]]; [unfold MAX in L; lia|exact E].
Qed.

Lemma to_bytes_opaque t fs :
  impl_policy t = None -> len (raw_fields fs) <= 65535 -> to_bytes t fs = raw_fields fs.
Proof.
  intros Hp Hl. unfold to_bytes, emit_rdata. rewrite Hp. cbv zeta.
  destruct (N.ltb_spec MAX (0 + len (raw_fields fs))); [unfold MAX in *; lia|reflexivity].
Qed.

Lemma to_bytes_uncompressed t fs :
  impl_policy t <> Some StandardRecord -> Forall wf_field fs -> len (raw_fields fs) <= 65535 ->
  to_bytes t fs = raw_fields fs.
Proof.
  intros Hp Hwf Hl. destruct (impl_policy t) as [e|] eqn:E; [|now apply to_bytes_opaque].
  unfold to_bytes, emit_rdata. rewrite E.
  replace (with_rdata_behavior e false Compressed) with Uncompressed by (destruct e; [congruence|reflexivity|reflexivity]).
  pose proof (emit_fields_plain Uncompressed fs 0 [] ltac:(discriminate) Hwf ltac:(discriminate)) as H.
  cbn [lower_mode] in H. rewrite <- raw_fields_canon in H.
  destruct (emits_cases _ _ _ H) as [[L _]|[_ (ps & ->)]]; [unfold MAX in L; lia|reflexivity].
Qed.

Lemma labels_eqb_eq a b : labels_eqb a b = true <-> a = b.
Proof. apply list_eqb_eq. apply bytes_eqb_eq. Qed.

Lemma name_eqb_lower a b :
  name_eqb a b = true <-> nfq a = nfq b /\ lower_labels (nlabels a) = lower_labels (nlabels b).
Proof. unfold name_eqb. now rewrite andb_true_iff, eqb_true_iff, labels_eqb_eq. Qed.

Lemma name_eqb_sym a b : name_eqb a b = name_eqb b a.
Proof. apply eq_true_iff_eq. rewrite !name_eqb_lower. split; intros [H1 H2]; now split. Qed.

Lemma in_rrset_is_member nm cls s r : in_rrset nm cls s r = rrset_member nm cls (s_type s) r.
Proof.
  unfold in_rrset, rrset_member.
  (* same_owner (spec) and name_eqb (model) are written separately, with the same body *)
  change (same_owner (r_name r) nm) with (name_eqb (r_name r) nm).
  now rewrite (N.eqb_sym cls), (N.eqb_sym (s_type s)), name_eqb_sym.
Qed.

Lemma impl_filter_is_rrset nm cls s rs : filter (in_rrset nm cls s) rs = the_rrset nm cls s rs.
Proof. unfold the_rrset. apply filter_ext. intros r. apply in_rrset_is_member. Qed.

(* RRSIG_RDATA | RR(1) | RR(2) ... over the RDATAs [rds], in this order: what [tbs] makes of the RRset once it
   is known which RDATAs it emits in which order *)
Definition tbs_of (nm : name) (cls : N) (s : sigin) (rds : list (list byte)) : result :=
  match rfc_name (lower_labels (nlabels nm)) (s_labels s) with
  | None => ErrName
  | Some owner =>
      let d := rfc_sig_rdata s ++ concat (map (canon_rr owner (s_type s) cls (s_ottl s)) rds) in
      if MAX <? len d then ErrEncode else Ok d
  end.

Lemma tbs_closed_form nm cls s rs :
  wf_labels (nlabels nm) -> wf_sig s -> Forall wf_rr (the_rrset nm cls s rs) ->
  tbs nm cls s rs = tbs_of nm cls s (map impl_rdata (isort rec_le (the_rrset nm cls s rs))).
Proof.
  intros Hn Hs Hr. unfold tbs, tbs_of. rewrite impl_filter_is_rrset.
  pose proof (determine_name_is_rfc nm (s_labels s) Hn) as Ed. rewrite rfc_name_lower, <- Ed.
  destruct (determine_name nm (s_labels s)) as [nm'|]; cbn [option_map] in *; [|reflexivity].
  pose proof (rfc_name_wf _ _ _ Hn (eq_sym Ed)) as Hown.
  destruct (emit_siginput_plain s Hs) as (ps0 & ->).
  set (set := isort rec_le (the_rrset nm cls s rs)).
  assert (Hr' : Forall (fun r => Forall wf_field (r_data r)) set).
  { eapply Permutation_Forall; [apply isort_perm|]. eapply Forall_impl; [|exact Hr]. now intros r [H _]. }
  pose proof (len_rfc_sig_rdata s Hs) as L0.
  pose proof (emit_rrs_plain (nlabels nm') s cls set (len (rfc_sig_rdata s)) ps0 Hown Hr'
                ltac:(unfold MAX; lia)) as H1.
  unfold emits in H1. cbv zeta. rewrite len_app.
  destruct (MAX <? _); [now rewrite H1|]. destruct H1 as (ps1 & ->). reflexivity.
Qed.

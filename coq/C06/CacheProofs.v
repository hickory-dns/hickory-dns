(* C06 — the validation cache over histories of validations: every entry was computed from
   scratch for an earlier request with the same key, so a verdict is fresh or the fresh verdict
   of such a request whose entry had not expired. *)
From HV Require Import Lib.Base C06.Model C06.TimeProofs C06.SigProofs.
Open Scope N_scope.

(* a conjunction of component tests decides equality of pairs: applied along the nesting of a
   tuple once the conjunction is grouped the same way *)
Lemma andb_pair_iff {A B} (p q : bool) (a a' : A) (b b' : B) :
  (p = true <-> a = a') -> (q = true <-> b = b') -> (p && q = true <-> (a, b) = (a', b')).
Proof.
  intros Hp Hq. rewrite andb_true_iff, Hp, Hq.
  split; [intros [-> ->]; reflexivity|intros [= -> ->]; auto].
Qed.

Lemma rrf_eqb_eq a b : rrf_eqb a b = true <-> a = b.
Proof.
  destruct a as [[[n1 c1] t1] d1], b as [[[n2 c2] t2] d2]. unfold rrf_eqb.
  repeat apply andb_pair_iff; auto using bytes_eqb_eq, N.eqb_eq.
Qed.
Lemma sif_eqb_eq a b : sif_eqb a b = true <-> a = b.
Proof.
  destruct a as [[[[[a1 a2] a3] [[a4 a5] a6]] a7] a8], b as [[[[[b1 b2] b3] [[b4 b5] b6]] b7] b8].
  unfold sif_eqb. rewrite <- (andb_assoc _ (a4 =? b4)), <- (andb_assoc _ (_ && (a5 =? b5))).
  repeat apply andb_pair_iff; auto using bytes_eqb_eq, N.eqb_eq.
Qed.
Lemma sgf_eqb_eq a b : sgf_eqb a b = true <-> a = b.
Proof.
  destruct a as [[[n1 c1] i1] s1], b as [[[n2 c2] i2] s2]. unfold sgf_eqb.
  repeat apply andb_pair_iff; auto using bytes_eqb_eq, N.eqb_eq, sif_eqb_eq.
Qed.
Lemma ckey_eqb_eq a b : ckey_eqb a b = true <-> a = b.
Proof.
  destruct a as [[[[q1 t1] [k1 y1]] r1] g1], b as [[[[q2 t2] [k2 y2]] r2] g2]. unfold ckey_eqb.
  rewrite <- (andb_assoc _ (bytes_eqb k1 k2)).
  repeat apply andb_pair_iff; auto using bytes_eqb_eq, N.eqb_eq, list_eqb_eq, rrf_eqb_eq, sgf_eqb_eq.
Qed.

Lemma In_firstn {A} (x : A) l : forall j,
  In x (firstn j l) -> exists i, (i < j)%nat /\ nth_error l i = Some x.
Proof.
  induction l as [|a l IH]; intros [|j]; cbn; try tauto. intros [->|H].
  - exists O. split; [lia|reflexivity].
  - destruct (IH _ H) as (i & Hi & Hn). exists (S i). split; [lia|exact Hn].
Qed.

Section WithSig.
  Variable Sg : Type.
  Variable verify : N -> list byte -> list byte -> Sg -> bool.
  Variable sig_id : Sg -> N.

  Notation sigrr := (sigrr Sg).
  Notation rrset_verdict := (rrset_verdict Sg verify).
  Notation cache_key := (cache_key Sg sig_id).
  Notation validate_group := (validate_group Sg verify sig_id).

  (* one validation of one RRset: what verify_rrsets is called on *)
  Record greq := { q_lookup : lookup_t; q_inst : N; q_qname : name; q_qtype : N; q_kname : name;
                   q_ktype : N; q_rs : list rr; q_sigs : list sigrr; q_now : N }.

  Definition req_key (r : greq) : ckey :=
    cache_key (q_qname r) (q_qtype r) (q_kname r) (q_ktype r) (q_rs r) (q_sigs r).
  (* the verdict computed from scratch *)
  Definition fresh (r : greq) : gres :=
    rrset_verdict (q_lookup r) (q_qname r) (q_qtype r) (q_kname r) (q_ktype r) (q_rs r) (q_sigs r) (q_now r).
  (* received TTL of the first record = lifetime of the cache entry in seconds *)
  Definition first_ttl (r : greq) : N := match q_rs r with [] => 0 | f :: _ => r_ttl f end.

  Definition step (c : cache) (r : greq) : gres * cache :=
    validate_group (q_lookup r) c (q_inst r) (q_qname r) (q_qtype r) (q_kname r) (q_ktype r)
                   (q_rs r) (q_sigs r) (q_now r).

  Fixpoint run (c : cache) (rs : list greq) : list gres :=
    match rs with
    | [] => []
    | r :: rs' => let '(v, c') := step c r in v :: run c' rs'
    end.

  Lemma cache_find_in c k e v : cache_find c k = Some (e, v) -> In (k, e, v) c.
  Proof.
    induction c as [|[[k' e'] v'] c IH]; cbn [cache_find]; [discriminate|].
    destruct (ckey_eqb k' k) eqn:E.
    - apply ckey_eqb_eq in E. subst. intros [= -> ->]. now left.
    - intros H. right. auto.
  Qed.

  Lemma cache_get_in c k inst v : cache_get c k inst = Some v -> exists e, In (k, e, v) c /\ inst < e.
  Proof.
    unfold cache_get. destruct (cache_find c k) as [[e v0]|] eqn:F; [|discriminate].
    destruct (N.ltb_spec inst e); [|discriminate]. intros [= ->].
    exists e. split; [now apply cache_find_in|assumption].
  Qed.

  (* every cache entry was computed from scratch for some past request with that key *)
  Definition cache_inv (past : list greq) (c : cache) : Prop :=
    forall k e v, In (k, e, v) c ->
      exists r0, In r0 past /\ req_key r0 = k /\ v = fresh r0 /\ e = q_inst r0 + 1000 * first_ttl r0.

  Lemma cache_inv_nil past : cache_inv past [].
  Proof. intros k e v []. Qed.

  Lemma cache_inv_snoc past c r : cache_inv past c -> cache_inv (past ++ [r]) c.
  Proof.
    intros Hinv k e v Hin. destruct (Hinv k e v Hin) as (r0 & Hr0 & Hrest).
    exists r0. split; [apply in_or_app; now left|exact Hrest].
  Qed.

  Lemma cache_insert_inv past c r :
    cache_inv past c ->
    cache_inv (past ++ [r]) (cache_insert c (req_key r) (q_rs r) (q_inst r) (fresh r)).
  Proof.
    intros Hinv. unfold cache_insert. destruct (q_rs r) as [|f rest] eqn:R; [now apply cache_inv_snoc|].
    intros k e v [H|[H _]%filter_In].
    - injection H as <- <- <-. exists r. split; [apply in_or_app; right; now left|].
      unfold first_ttl. rewrite R. auto.
    - now apply (cache_inv_snoc past c r Hinv).
  Qed.

  (* where a verdict for request [r] can come from: it is computed from scratch for [r], or it is
     the from-scratch verdict of a request of [pool] with the same cache key, not yet expired *)
  Definition origin_ok (pool : list greq) (r : greq) (v : gres) : Prop :=
    v = fresh r \/
    exists r0, In r0 pool /\ req_key r0 = req_key r /\ v = fresh r0 /\
               q_inst r < q_inst r0 + 1000 * first_ttl r0.

  Lemma origin_ok_incl pool pool' r v : incl pool pool' -> origin_ok pool r v -> origin_ok pool' r v.
  Proof.
    intros Hi [H|(r0 & Hr0 & Hrest)]; [now left|right]. exists r0. split; [apply Hi, Hr0|exact Hrest].
  Qed.

  (* [past]: the requests made so far, oldest first *)
  Lemma step_origin past c r v c' :
    cache_inv past c -> step c r = (v, c') -> cache_inv (past ++ [r]) c' /\ origin_ok past r v.
  Proof.
    intros Hinv. unfold step, Model.validate_group. fold (req_key r). fold (fresh r).
    destruct (cache_get c (req_key r) (q_inst r)) as [v0|] eqn:G.
    - intros [= <- <-]. split; [now apply cache_inv_snoc|right].
      destruct (cache_get_in _ _ _ _ G) as (e & Hin & L).
      destruct (Hinv _ _ _ Hin) as (r0 & Hr0 & Hk & Hv0 & ->). exists r0. auto.
    - (* a miss: the fresh verdict, stored unless it is a Net error *)
      intros E.
      assert (v = fresh r /\ (c' = c \/ c' = cache_insert c (req_key r) (q_rs r) (q_inst r) (fresh r)))
        as [-> [-> | ->]] by (destruct (fresh r) as [| ? []]; injection E as <- <-; auto).
      + split; [now apply cache_inv_snoc|now left].
      + split; [now apply cache_insert_inv|now left].
  Qed.

  Lemma run_origin reqs : forall past c j r v,
    cache_inv past c -> nth_error reqs j = Some r -> nth_error (run c reqs) j = Some v ->
    origin_ok (past ++ firstn j reqs) r v.
  Proof.
    induction reqs as [|r1 reqs IH]; intros past c [|j] r v Hinv Hr Hv; try discriminate.
    all: cbn [run] in Hv; destruct (step c r1) as [v1 c1] eqn:S1.
    all: destruct (step_origin _ _ _ _ _ Hinv S1) as [Hinv1 Ho]; cbn in Hr, Hv.
    - injection Hr as <-. injection Hv as <-. now rewrite app_nil_r.
    - specialize (IH _ _ _ _ _ Hinv1 Hr Hv). now rewrite <- app_assoc in IH.
  Qed.

  Theorem history_origin reqs j r v :
    nth_error reqs j = Some r -> nth_error (run [] reqs) j = Some v ->
    v = fresh r \/
    exists i r0, (i < j)%nat /\ nth_error reqs i = Some r0 /\ req_key r0 = req_key r /\
                 v = fresh r0 /\ q_inst r < q_inst r0 + 1000 * first_ttl r0.
  Proof.
    intros Hr Hv.
    destruct (run_origin reqs [] [] j r v (cache_inv_nil []) Hr Hv) as [H|(r0 & Hr0 & Hrest)]; [now left|right].
    apply In_firstn in Hr0 as (i & Hi & Hn). exists i, r0. auto.
  Qed.
End WithSig.

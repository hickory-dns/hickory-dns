(* C06 — concrete histories on the faithful model on which the unguarded statements fail.
   Signature primitive of the witnesses: a signature IS the triple (algorithm, public key,
   message) it signs, so it verifies for nothing else. *)
From HV Require Import Lib.Base C06.Model C06.TimeProofs C06.SigProofs C06.TbsProofs C06.CacheProofs
     C06.HistoryProofs.
From Coq Require Import Permutation.
Open Scope N_scope.

Definition tsig := (N * (N * list byte * list byte))%type.
Definition tverify (alg : N) (pk d : list byte) (s : tsig) : bool :=
  let '(_, (a, p, m)) := s in (a =? alg) && bytes_eqb p pk && bytes_eqb m d.
Definition tsig_id (s : tsig) : N := fst s.

Lemma tverify_true alg pk d i a p m : tverify alg pk d (i, (a, p, m)) = true -> a = alg /\ p = pk /\ m = d.
Proof.
  cbn. intros [[A%N.eqb_eq P%bytes_eqb_eq]%andb_true_iff M%bytes_eqb_eq]%andb_true_iff. auto.
Qed.

Definition w_zone : name := [[122]].                       (* z. *)
Definition w_owner1 : name := [[97; 98]; [99]; [122]].      (* ab.c.z. *)
Definition w_owner2 : name := [[97]; [98; 99]; [122]].      (* a.bc.z. *)
Definition w_key : dnskey := {| k_name := w_zone; k_flags := 256; k_alg := 15; k_pk := [1; 2; 3; 4] |}.
Definition w_rr (o : name) (ttl : N) : rr :=
  {| r_name := o; r_class := 1; r_type := 1; r_ttl := ttl; r_sort := [10; 0; 0; 1]; r_canon := [10; 0; 0; 1] |}.
Definition w_si : siginput :=
  {| s_tc := 1; s_alg := 15; s_labels := 3; s_ottl := 300; s_exp := 1000; s_inc := 100;
     s_tag := key_tag w_key; s_signer := w_zone |}.
(* what the zone signed: the A RRset of ab.c.z. *)
Definition w_msg : list byte :=
  match tbs w_owner1 1 w_si [w_rr w_owner1 300] with Some d => d | None => [] end.
Definition w_sig (o : name) : sigrr tsig :=
  {| g_name := o; g_class := 1; g_ttl := 300; g_in := w_si; g_sig := (1, (15, [1; 2; 3; 4], w_msg)) |}.
Definition w_lookup : lookup_t := fun _ => Some [(w_key, Secure)].
Definition w_req (o : name) (ttl now inst : N) : greq tsig :=
  {| q_lookup := w_lookup; q_inst := inst; q_qname := o; q_qtype := 1; q_kname := o; q_ktype := 1;
     q_rs := [w_rr o ttl]; q_sigs := [w_sig o]; q_now := now |}.

(* validate inside the window; one second later on the cache clock the validator clock is past
   the expiration, the entry (received TTL 3600) still alive *)
Definition w_hist_stale := [w_req w_owner1 3600 500 0; w_req w_owner1 3600 2000 1000].
(* validate ab.c.z.; then the same records and RRSIG under the owner a.bc.z. *)
Definition w_hist_flat := [w_req w_owner1 300 500 0; w_req w_owner2 300 500 1000].
(* validate 500 s before expiration with TTL 300; 450 s later on both clocks ... entry alive
   (received TTL 3600), 50 s of signature lifetime left, TTL 300 returned *)
Definition w_hist_ttl := [w_req w_owner1 3600 500 0; w_req w_owner1 3600 950 450000].

Lemma w_wf o ttl now inst : lower_name o = o -> now < two32 -> wf_req tsig (w_req o ttl now inst).
Proof.
  intros Ho Hn. unfold wf_req, grouped. cbn.
  split; [exact Hn|]. split; [repeat constructor|]. split; [|exact Ho].
  constructor; [split; [exact Ho|reflexivity]|constructor].
Qed.

Lemma w_presented : wf_presented tsig (w_sig w_owner1) w_owner1 [w_rr w_owner1 300].
Proof.
  repeat split; try reflexivity; repeat constructor; discriminate || (cbn; lia).
Qed.

Lemma w_stale_not_justified t idx :
  ~ justified_req tsig tverify (w_req w_owner1 3600 2000 1000) t idx.
Proof.
  intros (j & sg & keys & k & ttl & _ & Hn & _ & _ & _ & (_ & W & _) & _).
  destruct j as [|[|j]]; cbn in Hn; try discriminate. injection Hn as <-.
  destruct W as [_ W]. vm_compute in W. discriminate W.
Qed.

Lemma w_flat_not_justified t idx :
  ~ justified_req tsig tverify (w_req w_owner2 300 500 1000) t idx.
Proof.
  intros (j & sg & keys & k & ttl & _ & Hn & _ & _ & _ & (_ & _ & C) & _).
  destruct j as [|[|j]]; cbn in Hn; try discriminate. injection Hn as <-.
  destruct (c_signature _ _ _ _ _ _ _ C) as (d & (nm & cs & D1 & P & E) & V).
  apply tverify_true in V as (_ & _ & <-).
  vm_compute in D1. injection D1 as <-.
  cbn [map q_rs w_req w_rr r_canon] in P. apply Permutation_sym, Permutation_length_1_inv in P. subst cs.
  vm_compute in E. discriminate.
Qed.


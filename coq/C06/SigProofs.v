(* C06 — what a Secure verdict of the signature-checking functions implies. *)
From HV Require Import Lib.Base Lib.ListX C06.Model C06.TimeProofs.
From Coq Require Import Permutation.
From HV Require Lib.Wire.
Open Scope N_scope.

Lemma labels_eqb_eq a b : labels_eqb a b = true <-> a = b.
Proof. apply list_eqb_eq. intros; apply bytes_eqb_eq. Qed.

Lemma name_eqb_lower a b : name_eqb a b = true <-> lower_name a = lower_name b.
Proof. apply labels_eqb_eq. Qed.

Lemma lower_name_idem n : lower_name (lower_name n) = lower_name n.
Proof. exact (Wire.map_map_idem _ n Wire.lower_idem). Qed.

(* RFC 4034 3.1.8.1 for owner name [nm], RRSIG fields [si] and canonical RDATAs [cs] in the order
   given: RRSIG_RDATA | RR(1) | RR(2) ...  Class 1: verify_rrset_with_dnskey passes DNSClass::IN. *)
Definition signed_data_of (nm : name) (si : siginput) (cs : list (list byte)) : list byte :=
  sig_prefix si ++ concat (map (tbs_rr nm (s_tc si) 1 (s_ottl si)) cs).

(* [d] is the signed data for RRSIG fields [si] over exactly the records [rs] -- the canonical
   RDATA of every one of them, each once, in some order -- under the owner name RFC 4035 5.3.2
   derives from [owner] and the Labels field *)
Definition covers_exactly (owner : name) (si : siginput) (rs : list rr) (d : list byte) : Prop :=
  exists nm cs, determine_name owner (s_labels si) = Some nm /\
                Permutation cs (map r_canon rs) /\ d = signed_data_of nm si cs.

(* records of one RRset as RrsetMap::new groups them *)
Definition grouped (kname : name) (ktype : N) (rs : list rr) : Prop :=
  Forall (fun r => lower_name (r_name r) = kname /\ r_type r = ktype) rs.

Lemma insert_rr_perm x l : Permutation (insert_rr x l) (x :: l).
Proof.
  induction l as [|y l IH]; cbn [insert_rr]; [reflexivity|].
  destruct (rr_leb x y); [reflexivity|]. rewrite IH. apply perm_swap.
Qed.
Lemma sort_rr_perm l : Permutation (sort_rr l) l.
Proof.
  induction l as [|x l IH]; cbn [sort_rr]; [reflexivity|].
  rewrite insert_rr_perm. now constructor.
Qed.

Section WithSig.
  Variable Sg : Type.
  Variable verify : N -> list byte -> list byte -> Sg -> bool.

  Notation sigrr := (sigrr Sg).
  Notation verify_rrsig := (verify_rrsig Sg verify).
  Notation validity_check := (validity_check Sg).
  Notation verify_rrset_with_dnskey := (verify_rrset_with_dnskey Sg verify).
  Notation verify_rrsig_with_keys := (verify_rrsig_with_keys Sg verify).
  Notation try_keys := (try_keys Sg verify).
  Notation default_rrset := (default_rrset Sg verify).
  Notation select_sigs := (select_sigs Sg verify).

  (* the independent statement of "this RRSIG, made with this DNSKEY, covers this RRset":
     everything that does not depend on the clock or on the status of the key *)
  Record static_checks (k : dnskey) (sg : sigrr) (kname : name) (ktype : N) (rs : list rr) : Prop := {
    c_zone_key : N.testbit (k_flags k) 8 = true;
    c_not_revoked : N.testbit (k_flags k) 7 = false;
    c_algorithm : k_alg k = s_alg (g_in sg);
    c_key_tag : key_tag k = s_tag (g_in sg);
    c_signer : lower_name (s_signer (g_in sg)) = lower_name (k_name k);
    c_owner : lower_name (g_name sg) = lower_name kname;
    c_type_covered : s_tc (g_in sg) = ktype;
    c_labels : s_labels (g_in sg) <= num_labels kname;
    c_class_rrset : Forall (fun r => r_class r = 1) rs;
    c_class_rrsig : g_class sg = 1;
    c_nonempty : rs <> [];
    c_signature : exists d, covers_exactly kname (g_in sg) rs d /\
                            verify (k_alg k) (k_pk k) d (g_sig sg) = true
  }.

  (* ... at validator time [now] with a key whose own status is [kproof] *)
  Definition sig_checks (k : dnskey) (kproof : proof) (sg : sigrr) (kname : name) (ktype : N)
             (rs : list rr) (now : N) : Prop :=
    kproof = Secure /\ in_window now (s_inc (g_in sg)) (s_exp (g_in sg)) /\
    static_checks k sg kname ktype rs.

  Lemma validity_valid sg kname ktype rs k now :
    validity_check sg kname ktype rs k now = Valid ->
    Forall (fun r => r_class r = 1) rs /\
    lower_name (g_name sg) = lower_name kname /\ s_tc (g_in sg) = ktype /\
    s_labels (g_in sg) <= num_labels kname /\
    time_ok now (s_inc (g_in sg)) (s_exp (g_in sg)) = true /\
    lower_name (s_signer (g_in sg)) = lower_name (k_name k) /\ s_alg (g_in sg) = k_alg k /\
    s_tag (g_in sg) = key_tag k /\ zone_key k = true.
  Proof.
    unfold Model.validity_check.
    destruct (existsb _ rs) eqn:E1; [discriminate|].
    destruct (_ && _ && (_ <=? _)) eqn:E2; cbn [negb]; [|discriminate].
    destruct (time_ok _ _ _) eqn:E3; cbn [negb]; [|discriminate].
    destruct (_ && _ && _ && zone_key k) eqn:E4; cbn [negb]; [|discriminate]. intros _.
    apply andb_true_iff in E2 as [[N1%name_eqb_lower T1%N.eqb_eq]%andb_true_iff L1%N.leb_le].
    apply andb_true_iff in E4 as [[[N2%name_eqb_lower A2%N.eqb_eq]%andb_true_iff T2%N.eqb_eq]%andb_true_iff Z].
    split; [|repeat split; assumption].
    apply Forall_forall. intros r C%(existsb_false _ _ _ E1).
    now apply negb_false_iff, N.eqb_eq in C.
  Qed.

  Lemma tbs_covers kname ktype si rs d :
    grouped kname ktype rs -> lower_name kname = kname ->
    Forall (fun r => r_class r = 1) rs -> s_tc si = ktype ->
    tbs kname 1 si rs = Some d -> covers_exactly kname si rs d.
  Proof.
    intros Hg Hk Hc Ht. unfold tbs.
    (* under the RRSIG checks the record filter of TBS::new keeps every record of the RRset *)
    assert (tbs_select kname 1 si rs = rs) as ->.
    { apply filter_all. unfold grouped in Hg. rewrite Forall_forall in *. intros r Hr.
      destruct (Hg r Hr) as [Hn Hty]. rewrite (Hc r Hr), Ht, Hty, !N.eqb_refl.
      apply name_eqb_lower. now rewrite Hn, Hk. }
    destruct (determine_name kname (s_labels si)) as [nm|] eqn:D; [|discriminate].
    destruct (existsb _ (sort_rr rs)); [discriminate|].
    intros [= <-]. exists nm, (map r_canon (sort_rr rs)). split; [exact D|].
    split; [apply Permutation_map, sort_rr_perm|].
    unfold signed_data_of. now rewrite map_map.
  Qed.

  Lemma with_dnskey_secure k kproof sg kname ktype rs now ttl :
    verify_rrset_with_dnskey k kproof sg kname ktype rs now = VSecure ttl ->
    kproof = Secure /\ revoke k = false /\ zone_key k = true /\ k_alg k = s_alg (g_in sg) /\
    validity_check sg kname ktype rs k now = Valid /\ g_class sg = 1 /\
    verify_rrsig k kname 1 sg rs = true /\
    exists first rest, rs = first :: rest /\ ttl = auth_ttl Sg sg first now.
  Proof.
    unfold Model.verify_rrset_with_dnskey.
    destruct kproof; try discriminate.
    destruct (revoke k); [discriminate|].
    destruct (zone_key k); cbn [negb]; [|discriminate].
    destruct (N.eqb_spec (k_alg k) (s_alg (g_in sg))); cbn [negb]; [|discriminate].
    destruct (validity_check sg kname ktype rs k now); try discriminate.
    destruct rs as [|first rest]; [discriminate|].
    destruct (N.eqb_spec (g_class sg) 1); cbn [negb]; [|discriminate].
    destruct (verify_rrsig k kname 1 sg (first :: rest)); [|discriminate].
    intros [= <-]. repeat split; eauto.
  Qed.

  (* the clock enters only through time_ok: no bound on clock or RRSIG times is needed here *)
  Lemma secure_static_checks k kproof sg kname ktype rs now ttl :
    grouped kname ktype rs -> lower_name kname = kname ->
    verify_rrset_with_dnskey k kproof sg kname ktype rs now = VSecure ttl ->
    kproof = Secure /\ time_ok now (s_inc (g_in sg)) (s_exp (g_in sg)) = true /\
    static_checks k sg kname ktype rs.
  Proof.
    intros Hg Hk H.
    destruct (with_dnskey_secure _ _ _ _ _ _ _ _ H)
      as (-> & Hrev & Hzone & Halg & V & Hcls & Vf & first & rest & -> & _).
    destruct (validity_valid _ _ _ _ _ _ V)
      as (Hrcls & Hown & Htc & Hlab & Htime & Hsigner & _ & Htag & _).
    split; [reflexivity|]. split; [exact Htime|].
    unfold Model.verify_rrsig in Vf.
    destruct (tbs kname 1 (g_in sg) (first :: rest)) as [d|] eqn:T; [|discriminate].
    refine {| c_zone_key := Hzone; c_not_revoked := Hrev; c_algorithm := Halg; c_key_tag := eq_sym Htag;
              c_signer := Hsigner; c_owner := Hown; c_type_covered := Htc; c_labels := Hlab;
              c_class_rrset := Hrcls; c_class_rrsig := Hcls; c_nonempty := _; c_signature := _ |}.
    - discriminate.
    - exists d. split; [eapply tbs_covers; eauto|exact Vf].
  Qed.

  Lemma secure_implies_checks k kproof sg kname ktype rs now ttl :
    now < two32 -> s_inc (g_in sg) < two32 -> s_exp (g_in sg) < two32 ->
    grouped kname ktype rs -> lower_name kname = kname ->
    verify_rrset_with_dnskey k kproof sg kname ktype rs now = VSecure ttl ->
    sig_checks k kproof sg kname ktype rs now.
  Proof.
    intros Hn Hi He Hg Hk H.
    destruct (secure_static_checks _ _ _ _ _ _ _ _ Hg Hk H) as (E & T & C).
    split; [exact E|]. split; [now apply time_ok_window|exact C].
  Qed.

  (* RFC 4035 5.3.3 as far as the code implements it *)
  Lemma secure_ttl_bound k kproof sg kname ktype rs now ttl :
    s_exp (g_in sg) < two32 ->
    verify_rrset_with_dnskey k kproof sg kname ktype rs now = VSecure ttl ->
    exists first rest, rs = first :: rest /\ ttl <= r_ttl first /\ ttl <= s_ottl (g_in sg) /\
                       ttl <= fwd_dist now (s_exp (g_in sg)).
  Proof.
    intros He H.
    destruct (with_dnskey_secure _ _ _ _ _ _ _ _ H) as (_ & _ & _ & _ & _ & _ & _ & first & rest & -> & ->).
    exists first, rest. split; [reflexivity|].
    pose proof (sat_sub_le_dist now (s_exp (g_in sg)) He).
    unfold Model.auth_ttl. lia.
  Qed.

  Lemma cap_keys_incl seen ks x : In x (cap_keys seen ks) -> In x ks.
  Proof.
    revert seen. induction ks as [|[k p] ks IH]; intros seen; cbn [cap_keys]; [tauto|].
    destruct (2 <=? tag_count (key_tag k) seen)%nat; cbn [In]; intros H.
    - right. eapply IH; eauto.
    - destruct H as [H|H]; [now left|right; eapply IH; eauto].
  Qed.

  Lemma try_keys_secure ks ai sg kname ktype rs now t :
    try_keys ks ai sg kname ktype rs now = Some (Secure, t) ->
    exists k ttl, In (k, Secure) ks /\ t = Some ttl /\
                  verify_rrset_with_dnskey k Secure sg kname ktype rs now = VSecure ttl.
  Proof.
    revert ai. induction ks as [|[k p] ks IH]; intros ai; cbn [Model.try_keys].
    - destruct ai as [[|]|]; discriminate.
    - destruct p; [destruct (verify_rrset_with_dnskey k Secure sg kname ktype rs now) eqn:V|..];
        try discriminate.
      1: { intros [= <-]. exists k, ttl. split; [now left|]. split; [reflexivity|exact V]. }
      (* every other key is passed over: the accepting one is in the rest of the list *)
      all: intros (k' & ttl' & Hin & R)%IH; exists k', ttl'; split; [now right|exact R].
  Qed.

  Lemma with_keys_secure keys sg kname ktype rs now t :
    verify_rrsig_with_keys keys sg kname ktype rs now = Some (Secure, t) ->
    exists k ttl, In (k, Secure) keys /\ t = Some ttl /\
                  verify_rrset_with_dnskey k Secure sg kname ktype rs now = VSecure ttl.
  Proof.
    unfold Model.verify_rrsig_with_keys. destruct (_ && _); [discriminate|].
    intros (k & ttl & Hin%cap_keys_incl & R)%try_keys_secure. eauto.
  Qed.

  Section Select.
    Variables (lookup : lookup_t) (qname : name) (qtype : N) (kname : name) (ktype : N)
              (rs : list rr) (now : N).

    (* What select_ok leaves of the RRSIGs [sigs], numbered from [i]: an error is Bogus; an Ok comes
       from the RRSIG at the returned index, whose signer name is the RRset owner or an ancestor of
       it (since fix 6b7ad4d) and whose validated DNSKEY answer gave the proof. *)
    Definition selected (sigs : list sigrr) (i : nat) (v : gres) : Prop :=
      match v with
      | GErr p _ => p = Bogus
      | GOk p t idx =>
          exists j sg keys, idx = Some (i + j)%nat /\ nth_error sigs j = Some sg /\
            zone_of (s_signer (g_in sg)) kname = true /\ lookup (s_signer (g_in sg)) = Some keys /\
            verify_rrsig_with_keys keys sg kname ktype rs now = Some (p, t)
      end.

    Lemma selected_skip sg sigs i v : selected sigs (S i) v -> selected (sg :: sigs) i v.
    Proof.
      destruct v as [p t idx|]; [|exact id]. intros (j & sg' & keys & -> & R).
      exists (S j), sg', keys. split; [f_equal; lia|exact R].
    Qed.

    Lemma select_sigs_selected sigs : forall i any,
      selected sigs i (select_sigs lookup qname qtype i sigs kname ktype rs now any).
    Proof.
      induction sigs as [|sg sigs IH]; intros i any; cbn [Model.select_sigs].
      - now destruct any.
      - destruct (8 <? i)%nat; [apply selected_skip, IH|].
        destruct (zone_of (s_signer (g_in sg)) kname) eqn:Z; cbn [negb]; [|apply selected_skip, IH].
        destruct (name_eqb _ qname && _); [apply selected_skip, IH|].
        destruct (lookup _) as [keys|] eqn:L; [|apply selected_skip, IH].
        destruct (verify_rrsig_with_keys keys sg kname ktype rs now) as [[p t]|] eqn:V; [|reflexivity].
        exists O, sg, keys. rewrite Nat.add_0_r. auto.
    Qed.

    Lemma default_rrset_selected sigs :
      selected sigs 0 (default_rrset lookup qname qtype kname ktype rs sigs now).
    Proof. unfold Model.default_rrset. destruct sigs; [reflexivity|apply select_sigs_selected]. Qed.

    Lemma rrset_verdict_selected sigs :
      selected sigs 0 (rrset_verdict Sg verify lookup qname qtype kname ktype rs sigs now).
    Proof.
      unfold Model.rrset_verdict. destruct (_ && _); [reflexivity|apply default_rrset_selected].
    Qed.

    Lemma rrset_verdict_err sigs p c :
      rrset_verdict Sg verify lookup qname qtype kname ktype rs sigs now = GErr p c -> p = Bogus.
    Proof. intros H. pose proof (rrset_verdict_selected sigs) as S. now rewrite H in S. Qed.
  End Select.

  (* a fresh Secure verdict for an RRset: some RRSIG of the RRset, some DNSKEY (itself Secure) of
     the validated DNSKEY answer for the RRSIG's signer name, all checks, TTL bound *)
  Definition justified (lookup : lookup_t) (kname : name) (ktype : N) (rs : list rr)
             (sigs : list sigrr) (now : N) (t : option N) (idx : option nat) : Prop :=
    exists j sg keys k ttl,
      idx = Some j /\ nth_error sigs j = Some sg /\ t = Some ttl /\
      lookup (s_signer (g_in sg)) = Some keys /\ In (k, Secure) keys /\
      sig_checks k Secure sg kname ktype rs now /\
      (exists first rest, rs = first :: rest /\ ttl <= r_ttl first) /\
      ttl <= s_ottl (g_in sg) /\ ttl <= fwd_dist now (s_exp (g_in sg)).

  Definition times_ok (sigs : list sigrr) : Prop :=
    Forall (fun sg => s_inc (g_in sg) < two32 /\ s_exp (g_in sg) < two32) sigs.

  Lemma selected_justified lookup kname ktype rs sigs now t idx :
    now < two32 -> times_ok sigs -> grouped kname ktype rs -> lower_name kname = kname ->
    selected lookup kname ktype rs now sigs 0 (GOk Secure t idx) ->
    justified lookup kname ktype rs sigs now t idx.
  Proof.
    intros Hn Ht Hg Hk (j & sg & keys & Hi & Hnth & _ & Hl & Hv).
    destruct (with_keys_secure _ _ _ _ _ _ _ Hv) as (k & ttl & Hin & Htt & Hs).
    assert (s_inc (g_in sg) < two32 /\ s_exp (g_in sg) < two32) as [Hinc Hexp].
    { unfold times_ok in Ht. rewrite Forall_forall in Ht. apply Ht. eapply nth_error_In; eauto. }
    destruct (secure_ttl_bound _ _ _ _ _ _ _ _ Hexp Hs) as (f & r & E & B1 & B2 & B3).
    exists j, sg, keys, k, ttl. do 5 (split; [assumption|]).
    split; [eapply secure_implies_checks; eauto|]. split; [exists f, r|]; auto.
  Qed.
End WithSig.

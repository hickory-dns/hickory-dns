(* C06 — property theorems (statements; the proofs apply the lemmas of *Proofs.v).
   "Secure" for an RRset = the verdict that makes DnssecDnsHandle mark its records Proof::Secure.
   The signature primitive [verify] is a parameter of every theorem (any function). *)
From HV Require Import Lib.Base C06.Model C06.TimeProofs C06.SigProofs C06.TbsProofs
     C06.CacheProofs C06.HistoryProofs C06.ResponseProofs C06.WitnessProofs.
From Coq Require Import Permutation.
Open Scope N_scope.

(* The validity-window test of RrsigValidity::check (two PartialOrd comparisons on SerialNumber)
   accepts exactly the clock values for which inception, clock and expiration can be placed in
   order on an unbounded time line with both distances below 2^31 s (RFC 1982 / RFC 4034 3.1.5),
   for all 2^96 field values, wrap-around included. *)
Theorem C06_window_is_rfc1982 : forall now inc exp,
  now < two32 -> inc < two32 -> exp < two32 ->
  (time_ok now inc exp = true <-> on_timeline now inc exp).
Proof.
  intros now inc exp Hn Hi He. rewrite time_ok_window by assumption. now apply window_timeline.
Qed.
Print Assumptions C06_window_is_rfc1982.

(* The comparison RFC 1982 leaves undefined (distance exactly 2^31) never lets a signature pass. *)
Theorem C06_window_undefined_rejected : forall now inc exp,
  now < two32 -> inc < two32 -> exp < two32 ->
  fwd_dist now exp = two31 \/ fwd_dist inc now = two31 -> time_ok now inc exp = false.
Proof.
  intros now inc exp Hn Hi He H. apply not_true_iff_false.
  rewrite time_ok_window by assumption. intros [W1 W2].
  destruct H as [H|H]; rewrite H in *; eapply N.lt_irrefl; eassumption.
Qed.
Print Assumptions C06_window_undefined_rejected.

Example C06_window_example :
  time_ok 5 4294967000 100 = true /\ on_timeline 5 4294967000 100 /\
  time_ok 101 4294967000 100 = false /\ fwd_dist 7 (7 + two31) = two31.
Proof.
  split; [reflexivity|]. split; [|split; reflexivity].
  apply C06_window_is_rfc1982; try reflexivity.
Qed.

(* verify_rrset_with_dnskey says Secure only if: the DNSKEY is itself Secure, a zone key, not
   revoked; its algorithm, key tag and owner equal the RRSIG's algorithm, key tag and signer name;
   the RRSIG has the RRset's owner, type covered = the RRset's type, class IN, Labels not above the
   owner's label count; every record has class IN; the clock is inside [inception, expiration]
   (C06_window_is_rfc1982); the RRset is not empty; and [verify] accepts the signature under that key
   for octets that are the RFC 4034 3.1.8.1 signed data of the RRSIG fields and of exactly the
   presented records (each canonical RDATA once, under the owner name derived per RFC 4035 5.3.2).
   [grouped]: the records are one RRset as RrsetMap::new forms them (established for every call
   from a response by C06_history_secure_has_origin). *)
Theorem C06_secure_implies_checks :
  forall (Sg : Type) (verify : N -> list byte -> list byte -> Sg -> bool)
         k kproof (sg : sigrr Sg) kname ktype rs now ttl,
  now < two32 -> s_inc (g_in sg) < two32 -> s_exp (g_in sg) < two32 ->
  grouped kname ktype rs -> lower_name kname = kname ->
  verify_rrset_with_dnskey Sg verify k kproof sg kname ktype rs now = VSecure ttl ->
  sig_checks Sg verify k kproof sg kname ktype rs now.
Proof. exact secure_implies_checks. Qed.
Print Assumptions C06_secure_implies_checks.

(* The TTL handed out with a Secure verdict is at most the received TTL of the RRset's first
   record, the RRSIG's original TTL, and the remaining signature lifetime (forward distance from
   the clock to the expiration on the 2^32 circle). *)
Theorem C06_ttl_bound :
  forall (Sg : Type) (verify : N -> list byte -> list byte -> Sg -> bool)
         k kproof (sg : sigrr Sg) kname ktype rs now ttl,
  now < two32 -> s_inc (g_in sg) < two32 -> s_exp (g_in sg) < two32 ->
  verify_rrset_with_dnskey Sg verify k kproof sg kname ktype rs now = VSecure ttl ->
  exists first rest, rs = first :: rest /\ ttl <= r_ttl first /\ ttl <= s_ottl (g_in sg) /\
                     ttl <= fwd_dist now (s_exp (g_in sg)).
Proof. intros; eapply secure_ttl_bound; eauto. Qed.
Print Assumptions C06_ttl_bound.

(* verify_default_rrset (all RRSIGs of the RRset, the validated DNSKEY answers for their signer
   names, key-tag collision cap, RRSIG cap, select_ok): a Secure verdict computed from scratch names
   an RRSIG of the RRset and a Secure DNSKEY of the answer for its signer passing all checks, and
   carries the bounded TTL. *)
Theorem C06_rrset_secure_justified :
  forall (Sg : Type) (verify : N -> list byte -> list byte -> Sg -> bool)
         lookup qname qtype kname ktype rs (sigs : list (sigrr Sg)) now t idx,
  now < two32 -> times_ok Sg sigs -> grouped kname ktype rs -> lower_name kname = kname ->
  default_rrset Sg verify lookup qname qtype kname ktype rs sigs now = GOk Secure t idx ->
  justified Sg verify lookup kname ktype rs sigs now t idx.
Proof.
  intros Sg verify lookup qname qtype kname ktype rs sigs now t idx Hn Ht Hg Hk H.
  apply selected_justified; auto. rewrite <- H. apply default_rrset_selected.
Qed.
Print Assumptions C06_rrset_secure_justified.

(* Since fix 6b7ad4d (RFC 4035 5.3.1): the RRSIG that makes an RRset Secure names, as signer, the
   owner of the RRset or an ancestor of it -- a key of an unrelated zone never validates it. *)
Theorem C06_secure_signer_is_zone :
  forall (Sg : Type) (verify : N -> list byte -> list byte -> Sg -> bool)
         lookup qname qtype kname ktype rs (sigs : list (sigrr Sg)) now t idx,
  default_rrset Sg verify lookup qname qtype kname ktype rs sigs now = GOk Secure t idx ->
  exists j sg, idx = Some j /\ nth_error sigs j = Some sg /\
               zone_of (s_signer (g_in sg)) kname = true.
Proof.
  intros Sg verify lookup qname qtype kname ktype rs sigs now t idx H.
  pose proof (default_rrset_selected Sg verify lookup qname qtype kname ktype rs now sigs) as S.
  rewrite H in S. destruct S as (j & sg & _ & Hi & Hn & Hz & _). eauto.
Qed.
Print Assumptions C06_secure_signer_is_zone.

(* non-vacuity: the witness RRset ab.c.z. A 10.0.0.1, signed by the zone key of z., is Secure at
   clock 500 with TTL 300, and the hypotheses of the theorems above hold for it *)
Example C06_secure_example :
  verify_rrset_with_dnskey tsig tverify w_key Secure (w_sig w_owner1) w_owner1 1 [w_rr w_owner1 300] 500
    = VSecure 300 /\
  grouped w_owner1 1 [w_rr w_owner1 300] /\ lower_name w_owner1 = w_owner1 /\
  default_rrset tsig tverify w_lookup w_owner1 1 w_owner1 1 [w_rr w_owner1 300] [w_sig w_owner1] 500
    = GOk Secure (Some 300) (Some O) /\
  times_ok tsig [w_sig w_owner1].
Proof.
  split; [vm_compute; reflexivity|]. split; [repeat constructor|]. split; [reflexivity|].
  split; [vm_compute; reflexivity|]. repeat constructor.
Qed.

(* Two (owner, RRSIG fields, RRset) covered by the same octets agree on every signed RRSIG field
   (type covered, algorithm, labels, original TTL, expiration, inception, key tag, signer name up
   to case), on the canonical RDATAs (as multisets) and on the derived owner name up to case. *)
Theorem C06_tbs_injective : forall owner owner' si si' rs rs' d,
  wf_si si -> wf_si si' -> wf_name owner -> wf_name owner' ->
  Forall (fun r => wf_rd (r_canon r)) rs -> Forall (fun r => wf_rd (r_canon r)) rs' ->
  covers_exactly owner si rs d -> covers_exactly owner' si' rs' d ->
  si_signed si = si_signed si' /\
  Permutation (map r_canon rs) (map r_canon rs') /\
  (rs <> [] -> exists nm nm', determine_name owner (s_labels si) = Some nm /\
                               determine_name owner' (s_labels si') = Some nm' /\
                               lower_name nm = lower_name nm').
Proof.
  intros owner owner' si si' rs rs' d S1 S2 W1 W2 F1%Forall_map F2%Forall_map
         (nm & cs & D1 & P1 & ->) (nm' & cs' & D2 & P2 & E).
  rewrite <- P1 in F1. rewrite <- P2 in F2.
  destruct (signed_data_injective _ _ _ _ _ _ S1 S2 (determine_name_wf _ _ _ W1 D1)
              (determine_name_wf _ _ _ W2 D2) F1 F2 E) as (Es & <- & En).
  split; [exact Es|]. split; [now rewrite <- P1|].
  intros Hne. exists nm, nm'. repeat split; auto. apply En.
  intros ->. apply Permutation_nil in P1. destruct rs; [congruence|discriminate].
Qed.
Print Assumptions C06_tbs_injective.

(* With a signature primitive that accepts only octets the key holder signed ([signed]), and a
   key holder who signed only signed-data encodings of RRsets in [genuine]: Secure means the
   presented RRset and RRSIG fields are, field for field and RDATA for RDATA, one of those.  Any
   altered signed bit, any other key, gives a verdict other than Secure. *)
Theorem C06_tamper_rejected :
  forall (Sg : Type) (verify : N -> list byte -> list byte -> Sg -> bool)
         (signed : N -> list byte -> list byte -> Prop),
  (forall alg pk d s, verify alg pk d s = true -> signed alg pk d) ->
  forall (genuine : name -> siginput -> list rr -> Prop) k kproof (sg : sigrr Sg) kname ktype rs now ttl,
  (forall d, signed (k_alg k) (k_pk k) d ->
     exists o si0 rs0, genuine o si0 rs0 /\ wf_si si0 /\ wf_name o /\
                       Forall (fun r => wf_rd (r_canon r)) rs0 /\ covers_exactly o si0 rs0 d) ->
  now < two32 -> wf_presented Sg sg kname rs ->
  grouped kname ktype rs -> lower_name kname = kname ->
  verify_rrset_with_dnskey Sg verify k kproof sg kname ktype rs now = VSecure ttl ->
  exists o si0 rs0, genuine o si0 rs0 /\
    si_signed (g_in sg) = si_signed si0 /\
    Permutation (map r_canon rs) (map r_canon rs0) /\
    exists nm nm', determine_name kname (s_labels (g_in sg)) = Some nm /\
                   determine_name o (s_labels si0) = Some nm' /\ lower_name nm = lower_name nm'.
Proof.
  intros Sg verify signed U genuine k kproof sg kname ktype rs now ttl Hgen Hn Hwf Hg Hk Hv.
  destruct Hwf as (V1 & V2 & V3).
  destruct (secure_static_checks Sg verify _ _ _ _ _ _ _ _ Hg Hk Hv) as (_ & _ & C).
  destruct (c_signature _ _ _ _ _ _ _ C) as (d & Hc & V).
  destruct (Hgen d (U _ _ _ _ V)) as (o & si0 & rs0 & G & W1 & W2 & W3 & Hc0).
  destruct (C06_tbs_injective _ _ _ _ _ _ _ V1 W1 V2 W2 V3 W3 Hc Hc0) as (E1 & E2 & E3).
  exists o, si0, rs0. split; [exact G|]. split; [exact E1|]. split; [exact E2|].
  exact (E3 (c_nonempty _ _ _ _ _ _ _ C)).
Qed.
Print Assumptions C06_tamper_rejected.

(* non-vacuity: the witness primitive is unforgeable for "the zone signed exactly w_msg", w_msg is
   the signed data of the genuine RRset, the presented data are well-formed *)
Example C06_tamper_example :
  let signed := fun alg pk d => alg = 15 /\ pk = [1; 2; 3; 4] /\ d = w_msg in
  let genuine := fun o si rs => o = w_owner1 /\ si = w_si /\ rs = [w_rr w_owner1 300] in
  (forall alg pk d (s : tsig), In s [g_sig (w_sig w_owner1)] -> tverify alg pk d s = true -> signed alg pk d) /\
  (forall d, signed 15 [1; 2; 3; 4] d ->
     exists o si0 rs0, genuine o si0 rs0 /\ wf_si si0 /\ wf_name o /\
                       Forall (fun r => wf_rd (r_canon r)) rs0 /\ covers_exactly o si0 rs0 d) /\
  wf_presented tsig (w_sig w_owner1) w_owner1 [w_rr w_owner1 300].
Proof.
  cbv zeta. split; [|split].
  - intros alg pk d s [<-|[]] (<- & <- & <-)%tverify_true. auto.
  - intros d (_ & _ & ->). exists w_owner1, w_si, [w_rr w_owner1 300].
    split; [auto|]. destruct w_presented as (W1 & W2 & W3). do 3 (split; [assumption|]).
    exists w_owner1, [[10; 0; 0; 1]]. split; [reflexivity|]. split; [reflexivity|]. vm_compute. reflexivity.
  - exact w_presented.
Qed.

(* FULL statement of what the code guarantees, at the observation point of the property, for every
   history of responses through one handle starting from an empty cache (every interleaving of
   clock values, cache-clock values, queries, answer sections, DNSKEY answers): a non-RRSIG record
   comes back Secure with TTL ttl only if its RRset (all records of that owner and type in that
   answer section; the record is one of them) is justified -- an RRSIG of the RRset and a Secure
   DNSKEY pass every check of C06_secure_implies_checks with the TTL bounds of C06_ttl_bound --
   EITHER on the data and clock of this response, OR on the data and clock of a request of this or
   an earlier response that has the same validation-cache key and whose entry (lifetime = received
   TTL of its first record) had not expired on the cache clock. *)
Theorem C06_history_secure_has_origin :
  forall (Sg : Type) (verify : N -> list byte -> list byte -> Sg -> bool) (sig_id : Sg -> N)
         (ss : list (rstep Sg)) i s out p r ttl,
  Forall (fun s => times32 Sg (p_ans Sg s)) ss ->
  nth_error ss i = Some s -> nth_error (respond_hist Sg verify sig_id [] ss) i = Some (OAnswer out) ->
  nth_error (p_ans Sg s) p = Some (AR r) -> nth_error out p = Some (Secure, ttl) ->
  let req := step_req Sg s (ans_key Sg (AR r)) in
  In r (q_rs Sg req) /\
  exists idx,
    justified_req Sg verify req (Some ttl) idx \/
    exists s0 r0, In s0 (firstn (S i) ss) /\ In r0 (step_reqs Sg s0) /\
                  req_key Sg sig_id r0 = req_key Sg sig_id req /\
                  justified_req Sg verify r0 (Some ttl) idx /\
                  q_inst Sg req < q_inst Sg r0 + 1000 * first_ttl Sg r0.
Proof.
  intros Sg verify sig_id ss i s out p r ttl Ht Hs Ho Hl Hp req.
  split; [eapply group_rrs_in, nth_error_In, Hl|].
  destruct (respond_hist_origin Sg verify sig_id ss [] [] i s out p r ttl
              (cache_inv_nil Sg verify sig_id []) Hs Ho Hl Hp) as (v & t & idx & Hv & G & ->).
  apply origin_secure with (4 := G) in Hv as (ttl & -> & J).
  - exists idx. destruct J as [J|(r0 & (s0 & Hs0 & Hr0)%in_flat_map & R)]; [now left|right].
    exists s0, r0. auto.
  - apply step_req_wf; [|apply lower_name_idem].
    rewrite Forall_forall in Ht. eapply Ht, nth_error_In, Hs.
  - now apply hist_reqs_wf.
Qed.
Print Assumptions C06_history_secure_has_origin.

(* The property's own claim -- Secure at a step implies the checks hold at THAT step's clock, for
   THAT step's data -- is false on the faithful model: a verdict cached inside the window is
   served after the expiration. *)
Theorem C06_history_no_stale_secure_refuted :
  exists reqs j r t idx,
    Forall (wf_req tsig) reqs /\ nth_error reqs j = Some r /\
    nth_error (run tsig tverify tsig_id [] reqs) j = Some (GOk Secure t idx) /\
    ~ justified_req tsig tverify r t idx /\
    time_ok (q_now _ r) (s_inc w_si) (s_exp w_si) = false.
Proof.
  exists w_hist_stale, 1%nat, (w_req w_owner1 3600 2000 1000), (Some 300), (Some O).
  split; [repeat constructor; apply w_wf; reflexivity|].
  split; [reflexivity|]. split; [vm_compute; reflexivity|].
  split; [apply w_stale_not_justified|vm_compute; reflexivity].
Qed.
Print Assumptions C06_history_no_stale_secure_refuted.

(* ... and so is "the owner name of a Secure RRset is one a signature covers": the cache key sees
   names without their label boundaries. ab.c.z. is signed; a.bc.z. is served Secure. *)
Theorem C06_cache_key_exact_refuted :
  exists reqs j r t idx,
    Forall (wf_req tsig) reqs /\ nth_error reqs j = Some r /\
    nth_error (run tsig tverify tsig_id [] reqs) j = Some (GOk Secure t idx) /\
    ~ justified_req tsig tverify r t idx /\
    q_now _ r = 500 /\ q_kname _ r = w_owner2 /\
    fresh tsig tverify r = GErr Bogus true.
Proof.
  exists w_hist_flat, 1%nat, (w_req w_owner2 300 500 1000), (Some 300), (Some O).
  split; [repeat constructor; apply w_wf; reflexivity|].
  split; [reflexivity|]. split; [vm_compute; reflexivity|].
  split; [apply w_flat_not_justified|]. split; [reflexivity|]. split; [reflexivity|vm_compute; reflexivity].
Qed.
Print Assumptions C06_cache_key_exact_refuted.

(* ... and so is the TTL bound on a cache hit: 50 s before the expiration a TTL of 300 comes back. *)
Theorem C06_history_ttl_bound_refuted :
  exists reqs j r ttl idx,
    nth_error reqs j = Some r /\
    nth_error (run tsig tverify tsig_id [] reqs) j = Some (GOk Secure (Some ttl) idx) /\
    in_window (q_now _ r) (s_inc w_si) (s_exp w_si) /\
    fwd_dist (q_now _ r) (s_exp w_si) < ttl.
Proof.
  exists w_hist_ttl, 1%nat, (w_req w_owner1 3600 950 450000), 300, (Some O).
  split; [reflexivity|]. split; [vm_compute; reflexivity|].
  split; [split; vm_compute; reflexivity|vm_compute; reflexivity].
Qed.
Print Assumptions C06_history_ttl_bound_refuted.

(* GUARDED (Known = some earlier request of the history has the same cache key): without such a
   predecessor a Secure verdict is justified on the spot. *)
Theorem C06_history_secure_guarded :
  forall (Sg : Type) (verify : N -> list byte -> list byte -> Sg -> bool) (sig_id : Sg -> N)
         reqs j r t idx,
  Forall (wf_req Sg) reqs ->
  nth_error reqs j = Some r ->
  nth_error (run Sg verify sig_id [] reqs) j = Some (GOk Secure t idx) ->
  (forall i r0, (i < j)%nat -> nth_error reqs i = Some r0 -> req_key Sg sig_id r0 <> req_key Sg sig_id r) ->
  justified_req Sg verify r t idx.
Proof.
  intros Sg verify sig_id reqs j r t idx Hwf Hr Hv Hno.
  destruct (history_origin Sg verify sig_id reqs j r _ Hr Hv) as [F|(i & r0 & Hi & Hn & Hk & _)].
  - apply fresh_justified; [|now symmetry]. rewrite Forall_forall in Hwf. eapply Hwf, nth_error_In, Hr.
  - exfalso. eapply Hno; eauto.
Qed.
Print Assumptions C06_history_secure_guarded.

(* GUARDED, inside the Known class (1): if the request served from the cache has the content of the
   request the entry was made for -- owner, type, class, canonical RDATAs, RRSIG fields and
   signature octets, label boundaries included; only TTLs and case may differ -- the RRSIG that
   justified the entry covers exactly the RRset now presented (all clock-independent checks). *)
Theorem C06_cached_verdict_covers_rrset_guarded :
  forall (Sg : Type) (verify : N -> list byte -> list byte -> Sg -> bool) (sig_id : Sg -> N),
  (forall a b, sig_id a = sig_id b -> a = b) ->
  forall r0 r t idx,
  justified_req Sg verify r0 t idx -> same_content Sg sig_id r0 r ->
  exists j sg k, idx = Some j /\ nth_error (q_sigs Sg r) j = Some sg /\
                 static_checks Sg verify k sg (q_kname Sg r) (q_ktype Sg r) (q_rs Sg r).
Proof.
  intros Sg verify sig_id Hinj r0 r t idx
         (j & sg0 & keys & k & ttl & Hi & Hn & _ & _ & _ & (_ & _ & Hs) & _) (S1 & S2 & S3 & S4).
  destruct (map_eq_nth (sg_content Sg sig_id) _ _ j sg0 S4 Hn) as (sg & Hn' & Ec).
  exists j, sg, k. split; [exact Hi|]. split; [exact Hn'|].
  rewrite <- S1, <- S2. eapply static_transfer; eauto.
Qed.
Print Assumptions C06_cached_verdict_covers_rrset_guarded.

(* GUARDED, inside the Known class (2): a cache hit is inside the signature's validity window if
   validator clock and cache clock run together, the window is shorter than 2^31 s, and the entry's
   lifetime (received TTL of the first record) did not exceed the signature's remaining lifetime
   when the entry was made.  (The code does not ensure the last condition: that is finding F5a.) *)
Theorem C06_cached_verdict_in_window_guarded :
  forall (Sg : Type) (r0 r : greq Sg) inc exp,
  q_now Sg r0 < two32 -> inc < two32 -> exp < two32 ->
  in_window (q_now Sg r0) inc exp -> fwd_dist inc exp < two31 ->
  clocks_coherent Sg r0 r ->
  q_inst Sg r < q_inst Sg r0 + 1000 * first_ttl Sg r0 ->
  first_ttl Sg r0 <= fwd_dist (q_now Sg r0) exp ->
  in_window (q_now Sg r) inc exp.
Proof.
  intros Sg r0 r inc exp Hn Hi He W Hw (d & Hd & Hc) Hhit Hl. rewrite Hd.
  apply window_advance; auto. lia.
Qed.
Print Assumptions C06_cached_verdict_in_window_guarded.

(* non-vacuity of the guarded statements: a hit 200 s later, TTL 300 <= 500 s of remaining lifetime,
   same content up to TTL *)
Example C06_guarded_example :
  let r0 := w_req w_owner1 300 500 0 in
  let r := w_req w_owner1 77 700 200000 in
  run tsig tverify tsig_id [] [r0; r] = [GOk Secure (Some 300) (Some O); GOk Secure (Some 300) (Some O)] /\
  in_window (q_now _ r0) 100 1000 /\ fwd_dist 100 1000 < two31 /\ clocks_coherent tsig r0 r /\
  q_inst _ r < q_inst _ r0 + 1000 * first_ttl tsig r0 /\ first_ttl tsig r0 <= fwd_dist (q_now _ r0) 1000 /\
  same_content tsig tsig_id r0 r /\ in_window (q_now _ r) 100 1000.
Proof.
  cbv zeta. split; [vm_compute; reflexivity|]. split; [split; vm_compute; reflexivity|].
  split; [vm_compute; reflexivity|]. split; [exists 200; split; vm_compute; reflexivity|].
  split; [vm_compute; reflexivity|]. split; [vm_compute; discriminate|].
  split; [repeat split|split; vm_compute; reflexivity].
Qed.

(* non-vacuity of the history theorem: one response, one Secure record *)
Example C06_history_example :
  let s := {| p_lookup := w_lookup; p_inst := 0; p_qname := w_owner1; p_qtype := 1;
              p_ans := [AR (w_rr w_owner1 300); AS (w_sig w_owner1)]; p_now64 := 4294967296 + 500 |} in
  respond_hist tsig tverify tsig_id [] [s] = [OAnswer [(Secure, 300); (Secure, 300)]] /\
  times32 tsig (p_ans _ s).
Proof.
  cbv zeta. split; [vm_compute; reflexivity|].
  intros x [H|[H|[]]]; [discriminate|]. injection H as <-. split; vm_compute; reflexivity.
Qed.

(* C06 — from the per-record marks in a validated response (Record.proof / Record.ttl) back to
   the RRset verdicts, over histories of responses sharing one validation cache. *)
From HV Require Import Lib.Base Lib.ListX C06.Model C06.TimeProofs C06.SigProofs C06.CacheProofs C06.HistoryProofs.
Open Scope N_scope.

Section WithSig.
  Variable Sg : Type.
  Variable verify : N -> list byte -> list byte -> Sg -> bool.
  Variable sig_id : Sg -> N.

  Notation ans := (ans Sg).
  Notation greq := (greq Sg).
  Notation cache_inv := (cache_inv Sg verify sig_id).
  Notation origin_ok := (origin_ok Sg verify sig_id).
  Notation wf_req := (wf_req Sg).
  Notation run_groups := (run_groups Sg verify sig_id).
  Notation respond := (respond Sg verify sig_id).
  Notation annotate := (annotate Sg).
  Notation ans_key := (ans_key Sg).
  Notation group_rrs := (group_rrs Sg).
  Notation group_sigs := (group_sigs Sg).
  Notation keys_of := (keys_of Sg).

  (* the validation request verify_rrsets makes for RRset key k of answer section l *)
  Definition mk_req (lookup : lookup_t) (inst : N) (qn : name) (qt : N) (l : list ans) (now : N)
             (k : name * N) : greq :=
    {| q_lookup := lookup; q_inst := inst; q_qname := qn; q_qtype := qt; q_kname := fst k;
       q_ktype := snd k; q_rs := group_rrs k l; q_sigs := group_sigs k l; q_now := now |}.

  Lemma key_eqb_eq a b : key_eqb a b = true <-> a = b.
  Proof.
    destruct a as [n1 t1], b as [n2 t2]. apply andb_pair_iff; [apply labels_eqb_eq|apply N.eqb_eq].
  Qed.

  Lemma group_rrs_grouped k l : grouped (fst k) (snd k) (group_rrs k l).
  Proof.
    unfold grouped. induction l as [|[r|s] l IH]; cbn [Model.group_rrs]; auto.
    destruct (key_eqb (ans_key (AR r)) k) eqn:E; auto.
    apply key_eqb_eq in E. constructor; [|exact IH]. subst k. cbn. auto.
  Qed.

  Lemma group_rrs_in l r : In (AR r) l -> In r (group_rrs (ans_key (AR r)) l).
  Proof.
    induction l as [|[r'|s] l IH]; cbn [Model.group_rrs In]; [intros []| |].
    - intros [[= ->]|H].
      + rewrite (proj2 (key_eqb_eq _ _) eq_refl). now left.
      + destruct (key_eqb _ _); [right|]; auto.
    - intros [[=]|H]. auto.
  Qed.

  Lemma group_sigs_incl k l s : In s (group_sigs k l) -> In (AS s) l.
  Proof.
    induction l as [|[r|s'] l IH]; cbn [Model.group_sigs]; [intros []| |].
    - intros H. right. auto.
    - destruct (key_eqb (ans_key (AS s')) k); cbn [In]; intros H.
      + destruct H as [<-|H]; [now left|right; auto].
      + right. auto.
  Qed.

  Definition times32 (l : list ans) : Prop :=
    forall s, In (AS s) l -> s_inc (g_in s) < two32 /\ s_exp (g_in s) < two32.

  Lemma keys_of_lower l : forall seen k, In k (keys_of l seen) -> lower_name (fst k) = fst k.
  Proof.
    induction l as [|a l IH]; intros seen k; cbn [Model.keys_of]; [intros []|].
    destruct (existsb (key_eqb (ans_key a)) seen); [apply IH|].
    cbn [In]. intros [<-|H]; [|eapply IH; eauto].
    destruct a; cbn; apply lower_name_idem.
  Qed.

  Lemma find_group_in k vs : find_group k vs = GErr Indeterminate false \/ In (k, find_group k vs) vs.
  Proof.
    induction vs as [|[k' v] vs IH]; cbn [find_group]; [now left|].
    destruct (key_eqb k' k) eqn:E.
    - right. left. apply key_eqb_eq in E. now subst.
    - destruct IH; [now left|right; now right].
  Qed.

  Lemma annotate_nth vs l : forall before p r pr ttl,
    nth_error l p = Some (AR r) -> nth_error (annotate vs before l) p = Some (pr, ttl) ->
    exists t i, gproof (find_group (ans_key (AR r)) vs) = (pr, t, i) /\
                ttl = match pr, t with Secure, Some t' => t' | _, _ => r_ttl r end.
  Proof.
    induction l as [|a l IH]; intros before [|p] r pr ttl Hin Hout; try discriminate; cbn in Hin.
    - injection Hin as ->. cbn [Model.annotate nth_error] in Hout.
      destruct (gproof (find_group (ans_key (AR r)) vs)) as [[p0 t0] i0] eqn:G.
      injection Hout as <- <-. exists t0, i0. split; reflexivity.
    - cbn [Model.annotate] in Hout.
      destruct (gproof (find_group (ans_key a) vs)) as [[p0 t0] i0].
      apply (IH (before ++ [a]) p r pr ttl Hin). exact Hout.
  Qed.

  Section OneResponse.
    Variables (lookup : lookup_t) (inst : N) (qn : name) (qt : N) (l : list ans).
    Notation mk := (mk_req lookup inst qn qt l).

    Lemma run_groups_origin now ks : forall past c vs c',
      cache_inv past c ->
      run_groups lookup c inst qn qt l ks now = (vs, c') ->
      cache_inv (past ++ map (mk now) ks) c' /\
      forall k v, In (k, v) vs -> origin_ok (past ++ map (mk now) ks) (mk now k) v.
    Proof.
      induction ks as [|k ks IH]; intros past c vs c' Hinv; cbn [Model.run_groups map].
      - intros [= <- <-]. rewrite app_nil_r. split; [exact Hinv|intros k v []].
      - destruct (Model.validate_group Sg verify sig_id lookup c inst qn qt (fst k) (snd k)
                    (group_rrs k l) (group_sigs k l) now) as [v1 c1] eqn:S1.
        destruct (run_groups lookup c1 inst qn qt l ks now) as [vs2 c2] eqn:R2. intros [= <- <-].
        destruct (step_origin Sg verify sig_id _ _ (mk now k) _ _ Hinv S1) as [Hinv1 Ho].
        destruct (IH _ _ _ _ Hinv1 R2) as [Hinv2 Hrest]. rewrite <- app_assoc in Hinv2, Hrest.
        split; [exact Hinv2|]. intros k' v' [[= <- <-]|Hin]; [|now apply Hrest].
        eapply origin_ok_incl; [|exact Ho]. apply incl_appl, incl_refl.
    Qed.

    (* One response processed with a cache all of whose entries stem from [past]: the requests made
       join the pool, and the mark Secure on a non-RRSIG record is the verdict of its RRset's request
       (all records of its owner and type in the section), with the TTL that verdict carries. *)
    Theorem respond_origin past c now64 o c' :
      cache_inv past c -> respond lookup c inst qn qt l now64 = (o, c') ->
      let now := now64 mod two32 in
      let pool := past ++ map (mk now) (keys_of l []) in
      cache_inv pool c' /\
      forall out p r ttl,
        o = OAnswer out -> nth_error l p = Some (AR r) -> nth_error out p = Some (Secure, ttl) ->
        exists v t idx, origin_ok pool (mk now (ans_key (AR r))) v /\ gproof v = (Secure, t, idx) /\
                        ttl = match t with Some t' => t' | None => r_ttl r end.
    Proof.
      intros Hinv. unfold Model.respond.
      destruct (run_groups lookup c inst qn qt l (keys_of l []) (now64 mod two32)) as [vs c1] eqn:R.
      destruct (run_groups_origin _ _ _ _ _ _ Hinv R) as [Hinv' Hvs]. cbv zeta.
      (* after an NSEC error there is no [out]: the pattern [= <-] closes that case *)
      destruct (existsb _ vs); intros [= <- <-]; (split; [exact Hinv'|]); intros out p r ttl [= <-] Hl Ho.
      destruct (annotate_nth _ _ _ _ _ _ _ Hl Ho) as (t & i & G & ->).
      destruct (find_group_in (ans_key (AR r)) vs) as [E|Hin]; [now rewrite E in G|].
      exists (find_group (ans_key (AR r)) vs), t, i. auto.
    Qed.
  End OneResponse.

  Record rstep := { p_lookup : lookup_t; p_inst : N; p_qname : name; p_qtype : N;
                    p_ans : list ans; p_now64 : N }.

  Fixpoint respond_hist (c : cache) (ss : list rstep) : list outcome :=
    match ss with
    | [] => []
    | s :: ss' =>
        let '(o, c') := respond (p_lookup s) c (p_inst s) (p_qname s) (p_qtype s) (p_ans s) (p_now64 s) in
        o :: respond_hist c' ss'
    end.

  Definition step_req (s : rstep) (k : name * N) : greq :=
    mk_req (p_lookup s) (p_inst s) (p_qname s) (p_qtype s) (p_ans s) (p_now64 s mod two32) k.
  Definition step_reqs (s : rstep) : list greq := map (step_req s) (keys_of (p_ans s) []).

  Lemma step_req_wf s k : times32 (p_ans s) -> lower_name (fst k) = fst k -> wf_req (step_req s k).
  Proof.
    intros Ht Hk. split; [apply N.mod_lt; discriminate|]. split; [|split; [apply group_rrs_grouped|exact Hk]].
    apply Forall_forall. intros g Hg. eapply Ht, group_sigs_incl, Hg.
  Qed.

  Lemma hist_reqs_wf ss j :
    Forall (fun s => times32 (p_ans s)) ss -> Forall wf_req (flat_map step_reqs (firstn j ss)).
  Proof.
    intros H. apply Forall_flat_map, Forall_firstn. eapply Forall_impl; [|exact H].
    intros s Ht. apply Forall_map, Forall_forall. intros k Hk. eapply step_req_wf, keys_of_lower, Hk. exact Ht.
  Qed.

  (* respond_origin along a history of responses: the requests of each step served join the pool
     [past] the cache stems from *)
  Theorem respond_hist_origin ss : forall past c i s out p r ttl,
    cache_inv past c ->
    nth_error ss i = Some s -> nth_error (respond_hist c ss) i = Some (OAnswer out) ->
    nth_error (p_ans s) p = Some (AR r) -> nth_error out p = Some (Secure, ttl) ->
    exists v t idx,
      origin_ok (past ++ flat_map step_reqs (firstn (S i) ss)) (step_req s (ans_key (AR r))) v /\
      gproof v = (Secure, t, idx) /\ ttl = match t with Some t' => t' | None => r_ttl r end.
  Proof.
    induction ss as [|s1 ss IH]; intros past c i s out p r ttl Hinv Hs Ho Hl Hp; [now destruct i|].
    cbn [respond_hist] in Ho.
    destruct (respond (p_lookup s1) c (p_inst s1) (p_qname s1) (p_qtype s1) (p_ans s1) (p_now64 s1))
      as [o1 c1] eqn:R1.
    destruct (respond_origin _ _ _ _ _ _ _ _ _ _ Hinv R1) as [Hinv1 Hrec].
    destruct i as [|i]; cbn in Hs, Ho; cbn [firstn flat_map].
    - injection Hs as ->. injection Ho as ->. rewrite app_nil_r. eapply Hrec; eauto.
    - rewrite app_assoc. eapply IH; eauto.
  Qed.
End WithSig.

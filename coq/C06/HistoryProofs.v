(* C06 — a from-scratch Secure verdict is justified, hence so is any Secure verdict with an origin
   (origin_secure: for the request itself or for the one whose cache entry was served); its
   clock-independent checks carry over to a request of the same content (static_transfer).  The
   window half of a cache hit is TimeProofs.window_advance under clocks_coherent. *)
From HV Require Import Lib.Base C06.Model C06.TimeProofs C06.SigProofs C06.CacheProofs.
Open Scope N_scope.

Lemma map_eq_nth {A B} (f : A -> B) l l' j x :
  map f l = map f l' -> nth_error l j = Some x -> exists y, nth_error l' j = Some y /\ f y = f x.
Proof.
  intros E H. apply (f_equal (fun m => nth_error m j)) in E. rewrite !nth_error_map, H in E.
  destruct (nth_error l' j) as [y|]; [|discriminate]. injection E as E. eauto.
Qed.

Section WithSig.
  Variable Sg : Type.
  Variable verify : N -> list byte -> list byte -> Sg -> bool.
  Variable sig_id : Sg -> N.
  (* sig_id stands for the signature octets themselves *)
  Hypothesis sig_id_inj : forall a b, sig_id a = sig_id b -> a = b.

  Notation sigrr := (sigrr Sg).
  Notation greq := (greq Sg).
  Notation fresh := (fresh Sg verify).
  Notation justified := (justified Sg verify).
  Notation static_checks := (static_checks Sg verify).

  (* well-formed request: 32-bit clock and RRSIG times, RRset grouped under its lower-cased key *)
  Definition wf_req (r : greq) : Prop :=
    q_now _ r < two32 /\ times_ok Sg (q_sigs _ r) /\
    grouped (q_kname _ r) (q_ktype _ r) (q_rs _ r) /\ lower_name (q_kname _ r) = q_kname _ r.

  Definition justified_req (r : greq) (t : option N) (idx : option nat) : Prop :=
    justified (q_lookup _ r) (q_kname _ r) (q_ktype _ r) (q_rs _ r) (q_sigs _ r) (q_now _ r) t idx.

  Lemma fresh_justified r t idx : wf_req r -> fresh r = GOk Secure t idx -> justified_req r t idx.
  Proof.
    intros (Hnow & Htimes & Hgrp & Hlow) F. apply selected_justified; auto.
    rewrite <- F. apply rrset_verdict_selected.
  Qed.

  Lemma fresh_secure r t idx : wf_req r -> gproof (fresh r) = (Secure, t, idx) ->
    exists ttl, t = Some ttl /\ justified_req r (Some ttl) idx.
  Proof.
    intros W G. destruct (fresh r) as [p t' i|p c] eqn:F; cbn in G.
    - injection G as -> -> ->. pose proof (fresh_justified r t idx W F) as J.
      pose proof J as (j & sg & keys & k & ttl & _ & _ & -> & _). eauto.
    - injection G as -> _ _. apply rrset_verdict_err in F. discriminate.
  Qed.

  Lemma origin_secure pool r v t idx :
    wf_req r -> Forall wf_req pool -> origin_ok Sg verify sig_id pool r v -> gproof v = (Secure, t, idx) ->
    exists ttl, t = Some ttl /\
      (justified_req r (Some ttl) idx \/
       exists r0, In r0 pool /\ req_key Sg sig_id r0 = req_key Sg sig_id r /\
                  justified_req r0 (Some ttl) idx /\
                  q_inst _ r < q_inst _ r0 + 1000 * first_ttl Sg r0).
  Proof.
    intros Wr Wp [->|(r0 & Hin & Hk & -> & Hl)] G.
    - apply fresh_secure in G as (ttl & -> & J); eauto 8.
    - apply fresh_secure in G as (ttl & -> & J); [eauto 8|].
      rewrite Forall_forall in Wp. auto.
  Qed.

  (* content with label boundaries kept (TTLs, case and the sort key dropped) *)
  Definition rr_content (r : rr) := (lower_name (r_name r), r_class r, r_type r, r_canon r).
  Definition si_content (si : siginput) :=
    (s_tc si, s_alg si, s_labels si, (s_ottl si, s_exp si, s_inc si), s_tag si, lower_name (s_signer si)).
  Definition sg_content (sg : sigrr) :=
    (lower_name (g_name sg), g_class sg, si_content (g_in sg), sig_id (g_sig sg)).
  Definition same_content (a b : greq) : Prop :=
    q_kname _ a = q_kname _ b /\ q_ktype _ a = q_ktype _ b /\
    map rr_content (q_rs _ a) = map rr_content (q_rs _ b) /\
    map sg_content (q_sigs _ a) = map sg_content (q_sigs _ b).

  Lemma signed_data_content nm si si' cs :
    si_content si = si_content si' -> signed_data_of nm si cs = signed_data_of nm si' cs.
  Proof.
    unfold si_content, signed_data_of, sig_prefix. intros [= -> -> -> -> -> -> -> ->]. reflexivity.
  Qed.

  Lemma static_transfer k sg0 sg kname ktype rs0 rs :
    sg_content sg = sg_content sg0 -> map rr_content rs0 = map rr_content rs ->
    static_checks k sg0 kname ktype rs0 -> static_checks k sg kname ktype rs.
  Proof.
    intros Es Er [Czone Crev Calg Ctag Csigner Cown Ctc Clab Crcls Ccls Cne Csig].
    assert (si_content (g_in sg) = si_content (g_in sg0)) as Ei by (unfold sg_content in Es; congruence).
    unfold sg_content, si_content in Es.
    injection Es as Eown Ecls Etc Ealg Elab Eottl Eexp Einc Etag Esigner Esig.
    apply sig_id_inj in Esig.
    assert (map r_canon rs0 = map r_canon rs) as Ec
      by (apply (f_equal (map snd)) in Er; now rewrite !map_map in Er).
    (* fields about the key alone or one RRSIG field: by the equation for that field *)
    constructor; try congruence.
    - (* c_class_rrset *)
      apply (Forall_map rr_content (fun c => snd (fst (fst c)) = 1)). rewrite <- Er.
      apply Forall_map. exact Crcls.
    - (* c_nonempty *) intros ->. destruct rs0; [now apply Cne|discriminate].
    - (* c_signature *)
      destruct Csig as (d & (nm & cs & D1 & D2 & D3) & V). exists d. split.
      + exists nm, cs. split; [congruence|]. split; [now rewrite <- Ec|].
        rewrite D3. symmetry. now apply signed_data_content.
      + rewrite Esig. exact V.
  Qed.

  (* the validator clock of [r] is the clock of [r0] advanced by [d] seconds while at least
     d - 1 whole seconds passed on the cache clock (both read the same real time; the validator
     clock is truncated to seconds) *)
  Definition clocks_coherent (r0 r : greq) : Prop :=
    exists d, q_now _ r = (q_now _ r0 + d) mod two32 /\ q_inst _ r0 + 1000 * d < q_inst _ r + 1000.
End WithSig.

(* C06 — the signed-data encoding (TBS) determines what was signed: equal signed data means
   equal RRSIG fields (signer up to case), equal derived owner name and the same canonical
   RDATAs. *)
From HV Require Import Lib.Base Lib.ListX C06.Model C06.SigProofs.
From HV Require Lib.Wire.
Open Scope N_scope.

Definition wf_label (l : label) : Prop := l <> [] /\ (length l <= 63)%nat.
Definition wf_name (n : name) : Prop := Forall wf_label n.

Lemma wf_lower n : wf_name n -> wf_name (lower_name n).
Proof.
  unfold wf_name, lower_name. intros H. apply Forall_map. eapply Forall_impl; [|exact H].
  intros l [H1 H2]. unfold wf_label, lower_label. rewrite map_length. split; [|exact H2].
  destruct l; [congruence|discriminate].
Qed.

Lemma wire_name_inj n1 n2 x y : wf_name n1 -> wf_name n2 ->
  wire_name n1 ++ x = wire_name n2 ++ y -> n1 = n2 /\ x = y.
Proof. intros W1 W2. apply Wire.wire_name_inj; (eapply Forall_impl; [|eassumption]); now intros l []. Qed.

Definition wf_si (si : siginput) : Prop :=
  s_tc si < 65536 /\ s_alg si < 256 /\ s_labels si < 256 /\ s_ottl si < 4294967296 /\
  s_exp si < 4294967296 /\ s_inc si < 4294967296 /\ s_tag si < 65536 /\ wf_name (s_signer si).

(* the signed fields of an RRSIG (signer name up to case) *)
Definition si_signed (si : siginput) :=
  (s_tc si, s_alg si, s_labels si, (s_ottl si, s_exp si, s_inc si), s_tag si, lower_name (s_signer si)).

Lemma sig_prefix_inj si si' x y : wf_si si -> wf_si si' ->
  sig_prefix si ++ x = sig_prefix si' ++ y -> si_signed si = si_signed si' /\ x = y.
Proof.
  intros (A1 & A2 & A3 & A4 & A5 & A6 & A7 & A8) (B1 & B2 & B3 & B4 & B5 & B6 & B7 & B8).
  unfold sig_prefix. rewrite <- !app_assoc. intros E.
  apply Wire.be16_inj in E as [E1 E]; [|assumption..].
  apply app_inj_length in E as [[= E2 E3] E]; [|reflexivity].
  apply Wire.be32_inj in E as [E4 E]; [|assumption..].
  apply Wire.be32_inj in E as [E5 E]; [|assumption..].
  apply Wire.be32_inj in E as [E6 E]; [|assumption..].
  apply Wire.be16_inj in E as [E7 E]; [|assumption..].
  apply wire_name_inj in E as [E8 ->]; [|now apply wf_lower..].
  split; [|reflexivity]. unfold si_signed. now rewrite E1, E2, E3, E4, E5, E6, E7, E8.
Qed.

Definition wf_rd (rd : list byte) : Prop := N.of_nat (length rd) < 65536.

Lemma tbs_rr_inj nm nm' tc cl ot rd rd' x y :
  wf_name nm -> wf_name nm' -> wf_rd rd -> wf_rd rd' ->
  tbs_rr nm tc cl ot rd ++ x = tbs_rr nm' tc cl ot rd' ++ y ->
  lower_name nm = lower_name nm' /\ rd = rd' /\ x = y.
Proof.
  intros W1 W2 L1 L2. unfold tbs_rr. rewrite <- !app_assoc. intros E.
  destruct (wire_name_inj _ _ _ _ (wf_lower _ W1) (wf_lower _ W2) E) as [En E'].
  split; [exact En|].
  do 3 apply app_inv_head in E'. apply Wire.be16_inj in E' as [El E3]; [|assumption..].
  apply Nat2N.inj in El. destruct (app_inj_length _ _ _ _ El E3) as [-> ->]. auto.
Qed.

Lemma tbs_rr_nonempty nm tc cl ot rd : tbs_rr nm tc cl ot rd <> [].
Proof. unfold tbs_rr, wire_name. destruct (concat (map wire_label (lower_name nm))); discriminate. Qed.

Lemma rr_list_inj nm nm' tc cl ot cs : forall cs',
  wf_name nm -> wf_name nm' -> Forall wf_rd cs -> Forall wf_rd cs' ->
  concat (map (tbs_rr nm tc cl ot) cs) = concat (map (tbs_rr nm' tc cl ot) cs') ->
  cs = cs' /\ (cs <> [] -> lower_name nm = lower_name nm').
Proof.
  induction cs as [|c cs IH]; intros [|c' cs'] W1 W2 F1 F2 E.
  - split; [reflexivity|congruence].
  - cbn in E. symmetry in E. apply app_eq_nil in E. destruct E as [E _]. now apply tbs_rr_nonempty in E.
  - cbn in E. apply app_eq_nil in E. destruct E as [E _]. now apply tbs_rr_nonempty in E.
  - cbn [map concat] in E. inversion F1 as [|? ? Lc F1']; inversion F2 as [|? ? Lc' F2']; subst.
    destruct (tbs_rr_inj _ _ _ _ _ _ _ _ _ W1 W2 Lc Lc' E) as (En & -> & E').
    destruct (IH cs' W1 W2 F1' F2' E') as [-> _]. split; [reflexivity|auto].
Qed.

Theorem signed_data_injective nm nm' si si' cs cs' :
  wf_si si -> wf_si si' -> wf_name nm -> wf_name nm' -> Forall wf_rd cs -> Forall wf_rd cs' ->
  signed_data_of nm si cs = signed_data_of nm' si' cs' ->
  si_signed si = si_signed si' /\ cs = cs' /\ (cs <> [] -> lower_name nm = lower_name nm').
Proof.
  intros S1 S2 W1 W2 F1 F2. unfold signed_data_of. intros E.
  destruct (sig_prefix_inj _ _ _ _ S1 S2 E) as [Es E'].
  split; [exact Es|].
  assert (s_tc si = s_tc si' /\ s_ottl si = s_ottl si') as [T O].
  { unfold si_signed in Es. injection Es. intros. auto. }
  rewrite T, O in E'. eapply rr_list_inj; eauto.
Qed.

(* the owner name RFC 4035 5.3.2 derives (the owner, or "*" and a suffix of it) is a wire name *)
Lemma determine_name_wf o l n : wf_name o -> determine_name o l = Some n -> wf_name n.
Proof.
  intros Wo. unfold determine_name.
  destruct (num_labels o =? l); [intros [= <-]; exact Wo|].
  destruct (l <? num_labels o); [|discriminate]. intros [= <-].
  constructor; [split; [discriminate|cbn; lia]|].
  unfold trim_to. destruct (length o <? N.to_nat l)%nat; [exact Wo|apply Forall_skipn, Wo].
Qed.

Section Presented.
  Variable Sg : Type.
  Notation sigrr := (sigrr Sg).

  (* what the presented data must satisfy to be wire data at all *)
  Definition wf_presented (sg : sigrr) (kname : name) (rs : list rr) : Prop :=
    wf_si (g_in sg) /\ wf_name kname /\ Forall (fun r => wf_rd (r_canon r)) rs.
End Presented.

(* C06 — the two time comparisons of RrsigValidity::check against RFC 1982 / RFC 4034 3.1.5,
   and the TTL bound of RRSIG::authenticated_ttl. *)
From HV Require Import Lib.Base C06.Model.
Open Scope N_scope.

(* forward distance from a to b on the 2^32 circle *)
Definition fwd_dist (a b : N) : N := (b + two32 - a) mod two32.

Lemma fwd_dist_lt a b : fwd_dist a b < two32.
Proof. apply N.mod_lt. discriminate. Qed.

Lemma fwd_dist_cases a b : b < two32 ->
  fwd_dist a b = if a <=? b then b - a else b + two32 - a.
Proof.
  intros Hb. unfold fwd_dist. destruct (N.leb_spec a b).
  - replace (b + two32 - a) with (b - a + 1 * two32) by lia.
    rewrite N.mod_add by discriminate. apply N.mod_small. lia.
  - apply N.mod_small. lia.
Qed.

Lemma fwd_dist_refl a : fwd_dist a a = 0.
Proof. unfold fwd_dist. rewrite N.add_comm, N.add_sub. now apply N.mod_same. Qed.

Lemma fwd_dist_rev a b : a < two32 -> b < two32 -> a <> b -> fwd_dist b a = two32 - fwd_dist a b.
Proof.
  intros Ha Hb Hn. rewrite !fwd_dist_cases by assumption.
  destruct (N.leb_spec a b), (N.leb_spec b a); lia.
Qed.

Lemma fwd_dist_add a b : a < two32 -> b < two32 -> (a + fwd_dist a b) mod two32 = b.
Proof.
  intros Ha Hb. unfold fwd_dist. rewrite N.add_mod_idemp_r by discriminate.
  replace (a + (b + two32 - a)) with (b + 1 * two32) by lia.
  rewrite N.mod_add by discriminate. now apply N.mod_small.
Qed.

Lemma fwd_dist_unique a b r : a < two32 -> r < two32 -> (a + r) mod two32 = b -> fwd_dist a b = r.
Proof.
  intros Ha Hr <-. unfold fwd_dist.
  rewrite <- N.add_sub_assoc, N.add_mod_idemp_l by (discriminate || lia).
  replace (a + r + (two32 - a)) with (r + 1 * two32) by lia.
  rewrite N.mod_add by discriminate. now apply N.mod_small.
Qed.

Lemma fwd_dist_advance_from i a d : i < two32 -> a < two32 -> fwd_dist i a + d < two32 ->
  fwd_dist i ((a + d) mod two32) = fwd_dist i a + d.
Proof.
  intros Hi Ha Hd. apply fwd_dist_unique; [assumption..|].
  now rewrite N.add_assoc, <- N.add_mod_idemp_l, fwd_dist_add by (assumption || discriminate).
Qed.

Lemma fwd_dist_advance_to a c d : a < two32 -> c < two32 -> d <= fwd_dist a c ->
  fwd_dist ((a + d) mod two32) c = fwd_dist a c - d.
Proof.
  intros Ha Hc Hd. pose proof (fwd_dist_lt a c).
  apply fwd_dist_unique; [apply N.mod_lt; discriminate|lia|].
  rewrite N.add_mod_idemp_l by discriminate.
  replace (a + d + (fwd_dist a c - d)) with (a + fwd_dist a c) by lia. now apply fwd_dist_add.
Qed.

Lemma serial_cmp_refl a : serial_cmp a a = Some Eq.
Proof. unfold serial_cmp. now rewrite N.eqb_refl. Qed.

(* SerialNumber::partial_cmp on unequal arguments: one three-way comparison of the difference
   with 2^31 *)
Lemma serial_cmp_lt a b : a < b ->
  serial_cmp a b = match b - a ?= two31 with Lt => Some Lt | Eq => None | Gt => Some Gt end.
Proof.
  intros L. unfold serial_cmp.
  rewrite (proj2 (N.eqb_neq a b)), (proj2 (N.ltb_lt a b) L), (proj2 (N.ltb_ge b a)) by lia.
  cbn [andb orb]. rewrite !orb_false_r. unfold N.ltb. rewrite (N.compare_antisym (b - a) two31).
  now destruct (b - a ?= two31).
Qed.

Lemma serial_cmp_gt a b : b < a ->
  serial_cmp a b = match a - b ?= two31 with Lt => Some Gt | Eq => None | Gt => Some Lt end.
Proof.
  intros L. unfold serial_cmp.
  rewrite (proj2 (N.eqb_neq a b)), (proj2 (N.ltb_lt b a) L), (proj2 (N.ltb_ge a b)) by lia.
  cbn [andb orb]. unfold N.ltb. rewrite (N.compare_antisym (a - b) two31).
  now destruct (a - b ?= two31).
Qed.

(* ... which is the comparison of the forward distance with 2^31 *)
Lemma serial_cmp_dist a b : b < two32 ->
  serial_cmp a b =
    if a =? b then Some Eq
    else match fwd_dist a b ?= two31 with Lt => Some Lt | Eq => None | Gt => Some Gt end.
Proof.
  intros Hb. rewrite fwd_dist_cases by assumption.
  destruct (N.lt_trichotomy a b) as [L|[->|L]].
  - now rewrite (serial_cmp_lt a b L), (proj2 (N.leb_le a b)), (proj2 (N.eqb_neq a b)) by lia.
  - now rewrite serial_cmp_refl, N.eqb_refl.
  - rewrite (serial_cmp_gt a b L), (proj2 (N.leb_gt a b) L), (proj2 (N.eqb_neq a b)) by lia.
    (* 2^32 - x against 2^31 is 2^31 against x *)
    destruct (N.compare_spec (a - b) two31), (N.compare_spec (b + two32 - a) two31);
      unfold two31, two32 in *; reflexivity || lia.
Qed.

Lemma serial_le_dist a b : b < two32 -> serial_le a b = (fwd_dist a b <? two31).
Proof.
  intros Hb. unfold serial_le. rewrite serial_cmp_dist by assumption.
  destruct (N.eqb_spec a b) as [->|_]; [now rewrite fwd_dist_refl|].
  unfold N.ltb. now destruct (fwd_dist a b ?= two31).
Qed.

Lemma serial_ge_dist a b : a < two32 -> b < two32 -> serial_ge a b = (fwd_dist b a <? two31).
Proof.
  intros Ha Hb. unfold serial_ge. rewrite serial_cmp_dist by assumption.
  destruct (N.eqb_spec a b) as [->|Hn]; [now rewrite fwd_dist_refl|].
  rewrite (fwd_dist_rev a b) by assumption. pose proof (fwd_dist_lt a b).
  destruct (N.compare_spec (fwd_dist a b) two31), (N.ltb_spec (two32 - fwd_dist a b) two31);
    unfold two31, two32 in *; reflexivity || lia.
Qed.

(* the undefined case of RFC 1982 (distance exactly 2^31) compares as neither <= nor >= *)
Lemma serial_undefined a b : a < two32 -> b < two32 -> fwd_dist a b = two31 ->
  serial_le a b = false /\ serial_ge a b = false.
Proof.
  intros Ha Hb Hd.
  assert (a <> b) as Hn by (intros ->; now rewrite fwd_dist_refl in Hd).
  rewrite serial_le_dist, serial_ge_dist, (fwd_dist_rev a b), Hd by assumption.
  split; reflexivity.
Qed.

Definition in_window (now inc exp : N) : Prop := fwd_dist inc now < two31 /\ fwd_dist now exp < two31.

Lemma time_ok_window now inc exp : now < two32 -> inc < two32 -> exp < two32 ->
  time_ok now inc exp = true <-> in_window now inc exp.
Proof.
  intros Hn Hi He. unfold time_ok, in_window.
  rewrite serial_le_dist, serial_ge_dist, andb_true_iff, !N.ltb_lt by assumption. tauto.
Qed.

Lemma window_advance now inc exp d :
  now < two32 -> inc < two32 -> exp < two32 ->
  in_window now inc exp -> d <= fwd_dist now exp -> fwd_dist inc exp < two31 ->
  in_window ((now + d) mod two32) inc exp.
Proof.
  intros Hn Hi He [W1 W2] Hd Hw.
  (* the window is shorter than 2^31: the three points lie in order on an arc that does not wrap *)
  assert (fwd_dist inc exp = fwd_dist inc now + fwd_dist now exp) as E.
  { apply fwd_dist_unique; [assumption|unfold two31, two32 in *; lia|].
    now rewrite N.add_assoc, <- N.add_mod_idemp_l, !fwd_dist_add by (assumption || discriminate). }
  split.
  - rewrite fwd_dist_advance_from; unfold two31, two32 in *; lia.
  - rewrite fwd_dist_advance_to by assumption. lia.
Qed.

(* the same on an unbounded time line: there are integer times congruent to the three fields, in
   order, each less than 2^31 seconds from the current time *)
Open Scope Z_scope.
Definition on_timeline (now inc exp : N) : Prop :=
  exists Ti Te : Z,
    Ti <= Z.of_N now <= Te /\ Z.of_N now - Ti < 2147483648 /\ Te - Z.of_N now < 2147483648 /\
    Ti mod 4294967296 = Z.of_N inc /\ Te mod 4294967296 = Z.of_N exp.

Lemma fwd_dist_Z a b : (a < two32)%N ->
  Z.of_N (fwd_dist a b) = (Z.of_N b - Z.of_N a) mod 4294967296.
Proof.
  intros Ha. unfold fwd_dist. rewrite N2Z.inj_mod, N2Z.inj_sub, N2Z.inj_add by lia.
  change (Z.of_N two32) with 4294967296.
  replace (Z.of_N b + 4294967296 - Z.of_N a) with (Z.of_N b - Z.of_N a + 1 * 4294967296) by lia.
  now apply Z.mod_add.
Qed.

Lemma window_timeline now inc exp : (now < two32)%N -> (inc < two32)%N -> (exp < two32)%N ->
  in_window now inc exp <-> on_timeline now inc exp.
Proof.
  intros Hn Hi He. unfold in_window, on_timeline.
  pose proof (fwd_dist_Z inc now Hi) as D1. pose proof (fwd_dist_Z now exp Hn) as D2.
  unfold two31, two32 in *. split.
  - intros [H1 H2].
    exists (Z.of_N now - Z.of_N (fwd_dist inc now)), (Z.of_N now + Z.of_N (fwd_dist now exp)).
    (* linear arithmetic once every mod is replaced by its division equation *)
    Z.div_mod_to_equations. lia.
  - intros (Ti & Te & H). Z.div_mod_to_equations. lia.
Qed.
Close Scope Z_scope.

(* the saturating `expiration - now` of authenticated_ttl never exceeds the forward distance *)
Lemma sat_sub_le_dist now exp : exp < two32 -> exp - now <= fwd_dist now exp.
Proof.
  intros He. rewrite fwd_dist_cases by assumption. destruct (N.leb_spec now exp); lia.
Qed.

(* Octets on the wire that several models spell out for themselves: ASCII lower-casing, the
   big-endian 16- and 32-bit fields, the uncompressed form of a name.  The models' copies
   (C03/C05 be16, C06 u16be, C11/C13 enc16; C05/C06/C13 wire_name; lower in C03 C04 C05 C11 C16,
   lower_byte, lc, to_lower; not C20's be16, which leaves the high octet unreduced)
   are these by conversion, so the laws apply to them as they stand.  Used qualified: the names
   are also those of fixed definitions. *)
From HV Require Import Lib.Base Lib.ListX.
Open Scope N_scope.

Definition lower (b : N) : N := if (65 <=? b) && (b <=? 90) then b + 32 else b.
Lemma lower_idem b : lower (lower b) = lower b.
Proof.
  unfold lower. destruct ((65 <=? b) && (b <=? 90)) eqn:E; [|now rewrite E].
  apply andb_true_iff in E as [E%N.leb_le _].
  now rewrite (proj2 (N.leb_gt (b + 32) 90)), andb_false_r by lia.
Qed.
Lemma map_map_idem {A} (f : A -> A) (n : list (list A)) :
  (forall x, f (f x) = f x) -> map (map f) (map (map f) n) = map (map f) n.
Proof. intros H. rewrite map_map. apply map_ext. intros l. rewrite map_map. now apply map_ext. Qed.

Definition be16 (n : N) : list N := [n / 256 mod 256; n mod 256].
Definition be32 (n : N) : list N := [n / 16777216 mod 256; n / 65536 mod 256; n / 256 mod 256; n mod 256].
Lemma be16_inj n m x y : n < 65536 -> m < 65536 -> be16 n ++ x = be16 m ++ y -> n = m /\ x = y.
Proof.
  intros Hn Hm [= H1 H2 ->]. split; [|reflexivity].
  apply (div_mod_inj 256 n m); [discriminate| |exact H2].
  rewrite !N.mod_small in H1 by (apply N.div_lt_upper_bound; lia). exact H1.
Qed.
Lemma be32_inj n m x y : n < 4294967296 -> m < 4294967296 -> be32 n ++ x = be32 m ++ y -> n = m /\ x = y.
Proof.
  intros Hn Hm [= H1 H2 H3 H4 ->]. split; [|reflexivity].
  apply (div_mod_inj 256 n m); [discriminate| |exact H4].
  apply (div_mod_inj 256); [discriminate| |exact H3]. rewrite !N.div_div by discriminate.
  apply (div_mod_inj 256); [discriminate| |exact H2]. rewrite !N.div_div by discriminate.
  rewrite !N.mod_small in H1 by (apply N.div_lt_upper_bound; lia). exact H1.
Qed.

Definition wire_name (n : list (list N)) : list N := concat (map (fun l => N.of_nat (length l) :: l) n) ++ [0].
Lemma wire_name_cons l a x : wire_name (l :: a) ++ x = N.of_nat (length l) :: l ++ wire_name a ++ x.
Proof. unfold wire_name. cbn [map concat app]. now rewrite <- !app_assoc. Qed.
Lemma wire_name_inj : forall a b x y, Forall (fun l => l <> []) a -> Forall (fun l => l <> []) b ->
  wire_name a ++ x = wire_name b ++ y -> a = b /\ x = y.
Proof.
  induction a as [|l a IH]; intros [|k b] x y Ha Hb H; rewrite ?wire_name_cons in H.
  - now injection H.
  - (* a length octet 0 can only be the root *)
    inversion Hb as [|? ? Hk _]. injection H as H _. destruct k; [contradiction|discriminate].
  - inversion Ha as [|? ? Hl _]. injection H as H _. destruct l; [contradiction|discriminate].
  - inversion Ha as [|? ? _ Ha']. inversion Hb as [|? ? _ Hb']. injection H as Hlen H.
    apply app_inj_length in H as [-> H]; [|now apply Nat2N.inj].
    destruct (IH b x y Ha' Hb' H) as [-> ->]. auto.
Qed.

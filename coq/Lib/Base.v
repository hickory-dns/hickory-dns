(* Shared prelude (stdlib only): the byte type, [bad_idx] for the Check.v glue, boolean equality on
   lists and options with its reflection lemmas, a bounded quantifier over N. *)
From Coq Require Export List NArith ZArith Arith Bool Lia.
Export ListNotations.
(* [cbn]/[simpl] leave N arithmetic folded, for [lia]; [cbn [..]] and [vm_compute] are unaffected *)
Global Arguments N.add : simpl never.
Global Arguments N.sub : simpl never.
Global Arguments N.mul : simpl never.
Global Arguments N.eqb : simpl never.
Global Arguments N.ltb : simpl never.
Global Arguments N.leb : simpl never.
Global Arguments N.div : simpl never.
Global Arguments N.modulo : simpl never.

Lemma div_mod_inj d a b : (d <> 0 -> a / d = b / d -> a mod d = b mod d -> a = b)%N.
Proof. intros Hd Hq Hr. rewrite (N.div_mod a d Hd), (N.div_mod b d Hd). now rewrite Hq, Hr. Qed.

(* not range-restricted: where the range matters it is a hypothesis ([bytes_ok] or a property's own) *)
Definition byte := N.
Definition byteb (b : N) : bool := N.ltb b 256.
Definition bytes_ok (l : list N) : Prop := Forall (fun b => (b < 256)%N) l.

Lemma bytes_ok_nth l i : bytes_ok l -> (nth i l 0 < 256)%N.
Proof. intros H. revert i. induction H; intros [|i]; cbn [nth]; auto; reflexivity. Qed.

(* indices (as N) of the list elements on which [f] is false: used by the
   correspondence check so that Coq prints a (normally empty) list of numbers. *)
Fixpoint bad_idx {A} (f : A -> bool) (i : N) (l : list A) : list N :=
  match l with
  | [] => []
  | x :: l' => if f x then bad_idx f (N.succ i) l' else i :: bad_idx f (N.succ i) l'
  end.

Fixpoint list_eqb {A} (eqb : A -> A -> bool) (a b : list A) : bool :=
  match a, b with
  | [], [] => true
  | x :: a', y :: b' => eqb x y && list_eqb eqb a' b'
  | _, _ => false
  end.

Lemma list_eqb_map {A B} (eqb : A -> A -> bool) (f : A -> B) :
  (forall x y, eqb x y = true <-> f x = f y) ->
  forall a b, list_eqb eqb a b = true <-> map f a = map f b.
Proof.
  intros H a; induction a as [|x a IH]; intros [|y b]; cbn [list_eqb map]; try (split; congruence).
  rewrite andb_true_iff, H, IH. split; [intros [-> ->]; reflexivity|intros E; inversion E; auto].
Qed.

Lemma list_eqb_eq {A} (eqb : A -> A -> bool) :
  (forall x y, eqb x y = true <-> x = y) ->
  forall a b, list_eqb eqb a b = true <-> a = b.
Proof. intros H a b. rewrite (list_eqb_map eqb id H), !map_id. reflexivity. Qed.

Definition bytes_eqb := list_eqb N.eqb.
Lemma bytes_eqb_eq a b : bytes_eqb a b = true <-> a = b.
Proof. apply list_eqb_eq. intros; apply N.eqb_eq. Qed.

Definition option_eqb {A} (eqb : A -> A -> bool) (a b : option A) : bool :=
  match a, b with
  | None, None => true
  | Some x, Some y => eqb x y
  | _, _ => false
  end.

(* [P] holds on b, b + 1, .., b + k - 1: a bounded universal quantifier, decided by running *)
Fixpoint sweep (P : N -> bool) (k : nat) (b : N) : bool :=
  match k with
  | O => true
  | S k' => P b && sweep P k' (N.succ b)
  end.

Lemma sweep_spec P k : forall b, sweep P k b = true ->
  forall x, (b <= x < b + N.of_nat k)%N -> P x = true.
Proof.
  induction k as [|k IH]; intros b H x Hx; [lia|].
  cbn [sweep] in H. apply andb_true_iff in H as [H0 H].
  destruct (N.eq_dec x b) as [->|Hne]; [exact H0|]. apply (IH _ H). lia.
Qed.

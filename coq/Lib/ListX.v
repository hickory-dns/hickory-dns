(* General list lemmas of the property directories: [firstn]/[skipn] against [++] and [nth_error];
   [Forall], [existsb]/[forallb], [find], [filter]. *)
From HV Require Import Lib.Base.

Lemma firstn_firstn_skipn {A} (X : list A) k c :
  firstn k X ++ firstn c (skipn k X) = firstn (k + c) X.
Proof.
  revert X; induction k as [|k IH]; intros X; cbn [firstn skipn app plus].
  - reflexivity.
  - destruct X as [|x X]; cbn [firstn skipn app].
    + now rewrite firstn_nil.
    + now rewrite IH.
Qed.

Lemma skipn_skipn_add {A} (X : list A) k c : skipn c (skipn k X) = skipn (k + c) X.
Proof.
  revert X; induction k as [|k IH]; intros X; cbn [skipn plus]; [reflexivity|].
  destruct X as [|x X]; [now rewrite skipn_nil|]. cbn [skipn]. apply IH.
Qed.

Lemma firstn_app_le {A} (a b : list A) n : (n <= length a)%nat -> firstn n (a ++ b) = firstn n a.
Proof. intros H. rewrite firstn_app. replace (n - length a)%nat with O by lia. cbn. now rewrite app_nil_r. Qed.

Lemma skipn_app_le {A} (a b : list A) n : (n <= length a)%nat -> skipn n (a ++ b) = skipn n a ++ b.
Proof. intros H. rewrite skipn_app. replace (n - length a)%nat with O by lia. reflexivity. Qed.

Lemma firstn_app_length {A} (a b : list A) : firstn (length a) (a ++ b) = a.
Proof. rewrite firstn_app_le, firstn_all by lia. reflexivity. Qed.

Lemma skipn_nth_cons {A} (l : list A) : forall n x, nth_error l n = Some x -> skipn n l = x :: skipn (S n) l.
Proof.
  induction l as [|y l IH]; intros [|n] x H; cbn [nth_error] in H; try discriminate.
  - now injection H as ->.
  - exact (IH n x H).
Qed.

Lemma firstn_skipn_ext {A} n : forall (a b : list A) p,
  (forall i, (p <= i < p + n)%nat -> nth_error b i = nth_error a i) ->
  firstn n (skipn p b) = firstn n (skipn p a).
Proof.
  induction n as [|n IH]; intros a b p H; [reflexivity|].
  assert (Hb : nth_error b p = nth_error a p) by (apply H; lia).
  destruct (nth_error a p) as [x|] eqn:Hx.
  - rewrite (skipn_nth_cons a p x Hx), (skipn_nth_cons b p x Hb).
    cbn [firstn]. f_equal. apply IH. intros i Hi. apply H. lia.
  - apply nth_error_None in Hx, Hb. now rewrite !skipn_all2.
Qed.

Lemma nth_error_app_mid {A} (a : list A) x b : nth_error (a ++ x :: b) (length a) = Some x.
Proof. rewrite nth_error_app2, Nat.sub_diag by lia. reflexivity. Qed.

Lemma app_inj_length {A} (a b x y : list A) : length a = length b -> a ++ x = b ++ y -> a = b /\ x = y.
Proof.
  revert b. induction a as [|u a IH]; intros [|w b] L E; try discriminate; cbn in *; [auto|].
  injection E as -> E. injection L as L. destruct (IH b L E) as [-> ->]. auto.
Qed.

Lemma Forall_firstn {A} (P : A -> Prop) k l : Forall P l -> Forall P (firstn k l).
Proof. intros H. rewrite <- (firstn_skipn k l) in H. now apply Forall_app in H. Qed.

Lemma Forall_skipn {A} (P : A -> Prop) k l : Forall P l -> Forall P (skipn k l).
Proof. intros H. rewrite <- (firstn_skipn k l) in H. now apply Forall_app in H. Qed.

Lemma existsb_false {A} (f : A -> bool) l x : existsb f l = false -> In x l -> f x = false.
Proof.
  intros H Hx. destruct (f x) eqn:E; [|reflexivity].
  rewrite <- H. symmetry. apply existsb_exists. eauto.
Qed.

Lemma existsb_iff {A} (f : A -> bool) (P : A -> Prop) l :
  (forall x, f x = true <-> P x) -> (existsb f l = true <-> exists x, In x l /\ P x).
Proof.
  intros H. rewrite existsb_exists. split; intros (x & Hx & Hf); exists x; (split; [exact Hx|]); now apply H.
Qed.

Lemma forallb_iff {A} (f : A -> bool) (P : A -> Prop) l :
  (forall x, f x = true <-> P x) -> (forallb f l = true <-> forall x, In x l -> P x).
Proof. intros H. rewrite forallb_forall. split; intros Hl x Hx; apply H, Hl, Hx. Qed.

Lemma forallb_Forall {A} (f : A -> bool) (P : A -> Prop) l :
  (forall x, f x = true <-> P x) -> (forallb f l = true <-> Forall P l).
Proof. intros H. rewrite Forall_forall. now apply forallb_iff. Qed.

Lemma forallb_Forall_impl {A} (f : A -> bool) (P : A -> Prop) l :
  (forall x, f x = true -> P x) -> forallb f l = true -> Forall P l.
Proof. intros H Hl. apply Forall_forall. intros x Hx. apply H, (proj1 (forallb_forall f l) Hl), Hx. Qed.

Lemma existsb_eqb_in {A} (eqb : A -> A -> bool) :
  (forall x y, eqb x y = true <-> x = y) -> forall t l, existsb (eqb t) l = true <-> In t l.
Proof.
  intros H t l. rewrite (existsb_iff _ (eq t) l (H t)).
  split; [intros (x & Hx & <-); exact Hx|eauto].
Qed.

Lemma find_exists {A} (f : A -> bool) l x : In x l -> f x = true -> exists y, find f l = Some y.
Proof.
  intros Hin Hf. destruct (find f l) eqn:E; [eauto|].
  rewrite (find_none _ _ E _ Hin) in Hf. discriminate.
Qed.

Lemma find_none_all {A} (f : A -> bool) l : (forall x, In x l -> f x = false) -> find f l = None.
Proof.
  intros H. destruct (find f l) as [y|] eqn:E; [|reflexivity].
  apply find_some in E as [Hin Hf]. rewrite (H y Hin) in Hf. discriminate.
Qed.

Lemma filter_length_le {A} (f : A -> bool) l : (length (filter f l) <= length l)%nat.
Proof. induction l as [|x l IH]; cbn [filter length]; [lia|]. destruct (f x); cbn [length]; lia. Qed.

Lemma filter_all {A} (f : A -> bool) l : Forall (fun x => f x = true) l -> filter f l = l.
Proof. induction 1 as [|x l H _ IH]; cbn [filter]; [reflexivity|]. now rewrite H, IH. Qed.

Lemma filter_filter_and {A} (f g : A -> bool) l :
  filter f (filter g l) = filter (fun x => g x && f x) l.
Proof.
  induction l as [|x l IH]; cbn [filter]; [reflexivity|].
  destruct (g x); cbn [filter andb]; [destruct (f x)|]; now rewrite IH.
Qed.

Lemma filter_length_mono {A} (p p' : A -> bool) l :
  (forall x, p' x = true -> p x = true) -> (length (filter p' l) <= length (filter p l))%nat.
Proof.
  intros Himp. induction l as [|y l IH]; cbn [filter length]; [lia|].
  destruct (p' y) eqn:E'; [rewrite (Himp y E')|destruct (p y)]; cbn [length]; lia.
Qed.

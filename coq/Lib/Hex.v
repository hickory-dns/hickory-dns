(* Hex strings -> byte lists: byte strings written as Coq string literals (fast to parse)
   instead of list-of-N notations; used by C13/Props.v for the byte strings of its examples. *)
From Coq Require Import String Ascii.
From HV Require Import Lib.Base.
Open Scope N_scope.

Definition hexval (c : ascii) : N :=
  let n := N_of_ascii c in
  if (48 <=? n) && (n <=? 57) then n - 48
  else if (97 <=? n) && (n <=? 102) then n - 87
  else if (65 <=? n) && (n <=? 70) then n - 55
  else 0.

Fixpoint unhex (s : string) : list N :=
  match s with
  | String a (String b s') => (hexval a * 16 + hexval b) :: unhex s'
  | _ => []
  end.

Example unhex_ex : unhex "00ff1aB2"%string = [0; 255; 26; 178].
Proof. reflexivity. Qed.

(* The left-justified order on lists: a proper prefix sorts first, otherwise the first difference
   decides.  Several models have this function as a Fixpoint of their own: C08.Model.lex_cmp and
   C09.Model.bytes_cmp (also C05.Model.cmp_bytes, which reasons through its own inductive order) are
   [lex] by conversion; C04.Model.lex takes [c] inside its [fix] and is equal pointwise.  C04, C08
   and C09 take the laws from here.  Files use them qualified ([Require], not [Import]): [lex] is
   also the name of C04's copy. *)
From HV Require Import Lib.Base.

Section Lex.
  Context {A : Type} (c : A -> A -> comparison).
  (* [c] stays outside the [fix]: the conversions above need it *)
  Fixpoint lex (a b : list A) : comparison :=
    match a, b with
    | [], [] => Eq
    | [], _ :: _ => Lt
    | _ :: _, [] => Gt
    | x :: a', y :: b' => match c x y with Eq => lex a' b' | r => r end
    end.
End Lex.

Lemma lex_app {A} (c : A -> A -> comparison) x y a b :
  length x = length y ->
  lex c (x ++ a) (y ++ b) = match lex c x y with Eq => lex c a b | r => r end.
Proof.
  revert y; induction x as [|u x IH]; intros [|v y] Hl; try discriminate; [reflexivity|].
  cbn [app lex]. destruct (c u v); try reflexivity. apply IH. now inversion Hl.
Qed.

Section Laws.
  Context {A : Type} (c : A -> A -> comparison).
  Hypothesis c_eq : forall x y, c x y = Eq <-> x = y.
  Hypothesis c_anti : forall x y, c y x = CompOpp (c x y).
  Hypothesis c_trans : forall x y z, c x y = Lt -> c y z = Lt -> c x z = Lt.

  Lemma lex_eq : forall a b, lex c a b = Eq <-> a = b.
  Proof.
    induction a as [|x a IH]; intros [|y b]; cbn [lex]; try (split; congruence).
    transitivity (c x y = Eq /\ lex c a b = Eq).
    - destruct (c x y); intuition discriminate.
    - rewrite c_eq, IH. split; [now intros [-> ->]|intros H; now inversion H].
  Qed.

  Lemma lex_refl a : lex c a a = Eq.
  Proof. now apply lex_eq. Qed.

  Lemma lex_anti : forall a b, lex c b a = CompOpp (lex c a b).
  Proof.
    induction a as [|x a IH]; intros [|y b]; cbn [lex]; try reflexivity.
    rewrite (c_anti x y). destruct (c x y); cbn [CompOpp]; auto.
  Qed.

  Lemma lex_trans : forall a b d, lex c a b = Lt -> lex c b d = Lt -> lex c a d = Lt.
  Proof.
    induction a as [|x a IH]; intros [|y b] [|w d]; cbn [lex]; try congruence.
    destruct (c x y) eqn:E1; try discriminate.
    - apply c_eq in E1. subst y. destruct (c x w) eqn:E2; try congruence. apply IH.
    - destruct (c y w) eqn:E2; try discriminate.
      + apply c_eq in E2. subst w. rewrite E1. reflexivity.
      + rewrite (c_trans _ _ _ E1 E2). reflexivity.
  Qed.
End Laws.

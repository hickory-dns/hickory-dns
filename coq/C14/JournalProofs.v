(* C14 — journal replay.  Replaying the rows one message wrote gives that message's effect
   (update_j_replay), hence a whole history (run_j_replay); replaying the initial records is
   [build] (replay_build); no row that passed the prescan makes replay fail (row_ok,
   replay_total: for C14_never_fails). *)
From HV Require Import Lib.Base C12.Model C12.Spec C12.ZoneProofs C12.InvProofs C14.Model.
Open Scope N_scope.

Lemma update_records_j_spec ovf o z rs :
  fst (update_records_j ovf o z rs) = update_records ovf o z rs true /\
  (snd (update_records_j ovf o z rs) = rs \/
   exists ttl d, snd (update_records_j ovf o z rs) = rs ++ [mkRR o cIN ttl tSOA d]).
Proof.
  unfold update_records_j, update_records.
  destruct (apply_rrs o z false rs) as [[z1 upd] completed].
  destruct (negb completed); [auto|]. rewrite andb_true_r.
  destruct (negb upd); [auto|].
  destruct (increment_soa_serial ovf o z1) as [[z2 s]|[z2 s]]; [|auto].
  destruct (zget z2 (o, tSOA)) as [[|[d ttl] l]|]; [auto|cbn [fst snd]; eauto|auto].
Qed.

Lemma update_j_fst ovf o z m : fst (update_j ovf o z m) = update ovf o z m.
Proof.
  unfold update_j, update. destruct (negb (m_auth m)); [reflexivity|].
  destruct (negb (verify_prerequisites o z (m_pre m) =? NoError)); [reflexivity|].
  destruct (negb (pre_scan o (m_upd m) =? NoError)); [reflexivity|].
  apply update_records_j_spec.
Qed.

Lemma update_j_cases ovf o z m :
  (exists c, update_j ovf o z m = (z, Rc c, [])) \/
  (pre_scan o (m_upd m) = NoError /\ update_j ovf o z m = update_records_j ovf o z (m_upd m)).
Proof.
  unfold update_j. destruct (negb (m_auth m)); [eauto|].
  destruct (negb (verify_prerequisites o z (m_pre m) =? NoError)); [eauto|].
  destruct (N.eqb_spec (pre_scan o (m_upd m)) NoError); cbn [negb]; eauto.
Qed.

Lemma replay_row_spec o z r :
  replay_row o z r = if rtype r =? tAXFR then Some []
                     else match apply_rr o z r with Some (z', _) => Some z' | None => None end.
Proof.
  unfold replay_row. destruct (rtype r =? tAXFR); [reflexivity|].
  unfold update_records. cbn [apply_rrs]. destruct (apply_rr o z r) as [[z' b]|]; cbn [negb]; [|reflexivity].
  now rewrite andb_false_r.
Qed.

Lemma replay_app o a : forall z b,
  replay o z (a ++ b) = match replay o z a with Some z' => replay o z' b | None => None end.
Proof.
  induction a as [|r a IH]; intros z b; cbn [app replay]; [reflexivity|].
  destruct (replay_row o z r); [apply IH|reflexivity].
Qed.

Lemma replay_apply_rrs o rs : forall z upd z' upd',
  pre_scan o rs = NoError -> apply_rrs o z upd rs = (z', upd', true) -> replay o z rs = Some z'.
Proof.
  induction rs as [|r rs IH]; intros z upd z' upd' Hp; cbn [apply_rrs replay].
  - now intros [= <- _].
  - apply pre_scan_cons in Hp. destruct Hp as (Hp & Hr & _). rewrite replay_row_spec, Hr.
    destruct (apply_rr o z r) as [[z1 b]|]; [|discriminate]. now apply IH.
Qed.

Lemma update_j_replay ovf o z m :
  upd_inv o z -> replay o z (snd (update_j ovf o z m)) = Some (fst (update ovf o z m)).
Proof.
  intros Hz. rewrite <- update_j_fst. destruct (update_j_cases ovf o z m) as [[c ->]|[Ep ->]]; [reflexivity|].
  destruct (update_records_spec ovf o z (m_upd m) Hz Ep) as (_ & _ & z1 & upd & s & r & ttl & Ha & Hz1 & Hs & _).
  pose proof (replay_apply_rrs o _ _ _ _ _ Ep Ha) as Hr.
  unfold update_records_j. rewrite Ha. cbn [negb]. destruct upd; cbn [negb]; [|exact Hr].
  rewrite (increment_spec ovf o z1 s r ttl Hs (no_apex_cname _ _ Hz1)), zget_zset_same. cbn [fst snd].
  rewrite replay_app, Hr. cbn [replay].
  (* the journalled SOA row carries the successor serial: RFC 1982-newer, also across the wrap *)
  now rewrite replay_row_spec, (apply_rr_next_soa _ _ _ _ _ Hz1 Hs).
Qed.

(* every message of the history is outside C12-soa-not-apex *)
Definition good_run (o : name) (ms : list msg) : bool := forallb (fun m => negb (Known_inv o m)) ms.

Lemma rows_of_cons x h : rows_of (x :: h) = snd x ++ rows_of h.
Proof. reflexivity. Qed.

Lemma final_cons ovf o z m ms : final ovf o z (m :: ms) = final ovf o (fst (update ovf o z m)) ms.
Proof. reflexivity. Qed.

Lemma run_j_cons ovf o z m ms :
  run_j ovf o z (m :: ms) = update_j ovf o z m :: run_j ovf o (fst (update ovf o z m)) ms.
Proof. cbn [run_j]. rewrite <- update_j_fst. now destruct (update_j ovf o z m) as [[z' r] rows]. Qed.

Lemma run_j_replay ovf o ms : forall z,
  upd_inv o z -> replay o z (rows_of (run_j ovf o z ms)) = Some (final ovf o z ms).
Proof.
  induction ms as [|m ms IH]; intros z Hz; [reflexivity|].
  rewrite run_j_cons, rows_of_cons, replay_app, (update_j_replay _ _ _ _ Hz), final_cons. apply IH, update_upd_inv, Hz.
Qed.

Lemma replay_build o init : forall z,
  Forall (fun r => (rtype r =? tAXFR) = false /\ (rclass r =? cIN) = true) init ->
  replay o z init = Some (fold_left (fun z r => fst (upsert z r)) init z).
Proof.
  induction init as [|r init IH]; intros z H; cbn [replay fold_left]; [reflexivity|].
  inversion H as [|? ? [Ht Hc] H']; subst. rewrite replay_row_spec, Ht. unfold apply_rr. rewrite Hc.
  destruct (upsert z r) as [z1 b]. cbn [fst]. now apply IH.
Qed.

Definition row_ok (r : rr) : Prop := (rtype r =? tAXFR) = true \/ loop_ok r.

Lemma replay_total o rows : forall z, Forall row_ok rows -> exists z', replay o z rows = Some z'.
Proof.
  induction rows as [|r rows IH]; intros z H; cbn [replay]; [eauto|].
  inversion H as [|? ? Hr H']; subst. rewrite replay_row_spec.
  destruct (rtype r =? tAXFR) eqn:E; [now apply IH|].
  destruct Hr as [Hr|Hr]; [congruence|].
  destruct (apply_rr_total o z r Hr) as [[z1 b] ->]. now apply IH.
Qed.

Lemma pre_scan_rows_ok o rs : pre_scan o rs = NoError -> Forall row_ok rs.
Proof.
  induction rs as [|r rs IH]; intros H; [constructor|].
  apply pre_scan_cons in H. destruct H as (H & _ & Hr). constructor; [now right|now apply IH].
Qed.

Lemma update_j_rows_ok ovf o z m : Forall row_ok (snd (update_j ovf o z m)).
Proof.
  destruct (update_j_cases ovf o z m) as [[c ->]|[Ep ->]]; [constructor|].
  pose proof (pre_scan_rows_ok o _ Ep) as Hok.
  destruct (update_records_j_spec ovf o z (m_upd m)) as [_ [-> | (ttl & d & ->)]]; [exact Hok|].
  apply Forall_app. split; [exact Hok|]. constructor; [|constructor].
  (* the SOA row is class IN *)
  right. left. reflexivity.
Qed.

Lemma run_j_rows_ok ovf o ms : forall z, Forall row_ok (rows_of (run_j ovf o z ms)).
Proof.
  induction ms as [|m ms IH]; intros z; [constructor|].
  rewrite run_j_cons, rows_of_cons. apply Forall_app. split; [apply update_j_rows_ok|apply IH].
Qed.

Lemma run_j_app ovf o ms1 : forall z ms2,
  run_j ovf o z (ms1 ++ ms2) = run_j ovf o z ms1 ++ run_j ovf o (final ovf o z ms1) ms2.
Proof.
  induction ms1 as [|m ms1 IH]; intros z ms2; [reflexivity|].
  cbn [app]. rewrite !run_j_cons, final_cons. cbn [app]. f_equal. apply IH.
Qed.

Lemma rows_of_app a b : rows_of (a ++ b) = rows_of a ++ rows_of b.
Proof. unfold rows_of. apply flat_map_app. Qed.

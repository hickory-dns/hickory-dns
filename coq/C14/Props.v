(* C14 — property theorems about the journal model of C14/Model.v (on top of C12's update model).
   A journal is the list of its rows; a crash is any prefix; recovery replays the prefix from
   the empty zone.  [good_run] (JournalProofs.v) is the decidable guard "no message of the
   history adds an SOA whose owner is not the apex" (C12-soa-not-apex, open); apex delete-all
   and the serial at 2^32-1 need no guard (fixes 9a1aca9 and 118f816). *)
From HV Require Import Lib.Base Lib.ListX C12.Model C12.Spec C12.ZoneProofs C12.InvProofs C12.WfProofs
                       C14.Model C14.JournalProofs.
Open Scope N_scope.

(* the journal a server that started from the records [init] and processed [ms] has written *)
Definition journal (ovf : bool) (o : name) (init : list rr) (ms : list msg) : list rr :=
  marker :: init ++ rows_of (run_j ovf o (build init) ms).

Definition dump_ok (init : list rr) : Prop :=
  Forall (fun r => (rtype r =? tAXFR) = false /\ (rclass r =? cIN) = true) init.

(* recovery never fails on a journal the server itself wrote — any history, any stop point *)
Theorem C14_never_fails : forall ovf o init ms k,
  dump_ok init -> recover o (firstn k (journal ovf o init ms)) <> None.
Proof.
  intros ovf o init ms k Hd. unfold recover.
  assert (Forall row_ok (journal ovf o init ms)) as H.
  { unfold journal. constructor; [left; reflexivity|]. apply Forall_app. split.
    - eapply Forall_impl; [|exact Hd]. intros r [_ Hc]. right. left. exact Hc.
    - apply run_j_rows_ok. }
  destruct (replay_total o _ [] (Forall_firstn _ k _ H)) as [z ->]. discriminate.
Qed.
Print Assumptions C14_never_fails.

(* the whole journal after ms1 (= every prefix that ends at a message boundary, by taking ms1
   to be the messages processed so far) recovers to exactly the zone the server held, hence
   with the serial it had answered with *)
Theorem C14_recover_at_boundary_guarded : forall ovf o init ms1,
  dump_ok init -> WF o (build init) -> good_run o ms1 = true ->
  recover o (journal ovf o init ms1) = Some (final ovf o (build init) ms1).
Proof.
  intros ovf o init ms1 Hd W _. unfold recover, journal. cbn [replay].
  (* the marker has type AXFR: replay restarts from the empty zone *)
  change (replay_row o [] marker) with (Some ([] : zone)). cbv iota.
  rewrite replay_app, (replay_build o init [] Hd). fold (build init).
  exact (run_j_replay ovf o ms1 (build init) (WF_upd_inv _ _ W)).
Qed.
Print Assumptions C14_recover_at_boundary_guarded.

(* stopping anywhere later in the history: the part of the journal up to the boundary after ms1
   is a prefix of the full journal, so the theorem above covers every boundary of every history *)
Theorem C14_boundary_is_prefix : forall ovf o init ms1 ms2,
  exists rest, journal ovf o init (ms1 ++ ms2) = journal ovf o init ms1 ++ rest.
Proof.
  intros. unfold journal. rewrite run_j_app, rows_of_app.
  exists (rows_of (run_j ovf o (final ovf o (build init) ms1) ms2)).
  cbn [app]. now rewrite <- !app_assoc.
Qed.
Print Assumptions C14_boundary_is_prefix.

(* further updates after recovery behave as if no restart had happened: same answers, same
   zones, same rows appended *)
Theorem C14_continue_after_recovery_guarded : forall ovf o init ms1 ms2 z,
  dump_ok init -> WF o (build init) -> good_run o ms1 = true ->
  recover o (journal ovf o init ms1) = Some z ->
  run_j ovf o (build init) (ms1 ++ ms2) = run_j ovf o (build init) ms1 ++ run_j ovf o z ms2.
Proof.
  intros ovf o init ms1 ms2 z Hd W Hg Hr.
  rewrite (C14_recover_at_boundary_guarded ovf o init ms1 Hd W Hg) in Hr. inversion Hr; subst.
  apply run_j_app.
Qed.
Print Assumptions C14_continue_after_recovery_guarded.

Definition o_ex : name := [2; 1].
Definition init_ex (s : N) : list rr :=
  [mkRR o_ex cIN 300 tSOA (DSoa s 7); mkRR o_ex cIN 300 tNS (DGen 1); mkRR [3; 2; 1] cIN 300 tA (DGen 1)].
Definition m_ex : msg :=
  mkMsg true [] [mkRR [3; 2; 1] cIN 60 tA (DGen 2); mkRR [3; 2; 1] cNONE 0 tA (DGen 1)].

Lemma init_ex_ok s : dump_ok (init_ex s) /\ WF o_ex (build (init_ex s)).
Proof. split; [repeat constructor|apply wfb_sound; vm_compute; reflexivity]. Qed.

(* C14-cut-inside-message: the rows of one message are separate commits ("TODO: NEED TRANSACTION
   HERE"): a stop after the first row of a two-row message recovers a zone that the server never
   held at any message boundary (half of the message applied, old serial); a stop after both
   rows but before the post-update SOA row recovers the new content with the old serial *)
Theorem C14_no_half_update_refuted :
  exists ovf o init m,
    dump_ok init /\ WF o (build init) /\ good_run o [m] = true /\
    let before := build init in
    let after := final ovf o (build init) [m] in
    (* stop inside the rows of the message *)
    (exists k z key, recover o (firstn k (journal ovf o init [m])) = Some z /\
                     zget z key <> zget before key /\ zget z key <> zget after key) /\
    (* stop after the rows, before the SOA row *)
    (exists k z key, recover o (firstn k (journal ovf o init [m])) = Some z /\
                     zget z key = zget after key /\ zget after key <> zget before key /\
                     serial o z = serial o before /\ serial o after <> serial o before).
Proof.
  exists false, o_ex, (init_ex 10), m_ex.
  split; [apply init_ex_ok|]. split; [apply init_ex_ok|].
  split; [vm_compute; reflexivity|]. cbv zeta. split.
  - exists 5%nat. eexists. exists ([3; 2; 1], tA).
    split; [vm_compute; reflexivity|]. split; vm_compute; discriminate.
  - exists 6%nat. eexists. exists ([3; 2; 1], tA).
    split; [vm_compute; reflexivity|]. split; [vm_compute; reflexivity|].
    split; [vm_compute; discriminate|]. split; [vm_compute; reflexivity|vm_compute; discriminate].
Qed.
Print Assumptions C14_no_half_update_refuted.

(* C14-cut-inside-initial-dump: persist_to_journal writes the AXFR marker and every record as
   separate commits ("TODO: THIS NEEDS TO BE IN A TRANSACTION"): a stop inside it recovers a
   partial zone, e.g. one without SOA after the marker alone *)
Theorem C14_initial_dump_refuted :
  exists o init k z, dump_ok init /\ WF o (build init) /\
    recover o (firstn k (journal false o init [])) = Some z /\ ~ WF o z.
Proof.
  exists o_ex, (init_ex 10), 1%nat. eexists.
  split; [apply init_ex_ok|]. split; [apply init_ex_ok|]. split; [vm_compute; reflexivity|].
  intros [(s & r & t & H) _ _ _ _]. vm_compute in H. discriminate.
Qed.
Print Assumptions C14_initial_dump_refuted.

(* fix 118f816: after recovery at a boundary the serial is the serial the server had answered
   with, for every history, also across the wrap 2^32-1 -> 0 *)
Theorem C14_serial_not_lower_guarded : forall ovf o init ms z,
  dump_ok init -> WF o (build init) -> good_run o ms = true ->
  recover o (journal ovf o init ms) = Some z ->
  serial o z = serial o (final ovf o (build init) ms).
Proof.
  intros ovf o init ms z Hd W Hg Hr.
  rewrite (C14_recover_at_boundary_guarded ovf o init ms Hd W Hg) in Hr. now inversion Hr.
Qed.
Print Assumptions C14_serial_not_lower_guarded.

(* the critical history: serial 2^32-1, one changing message; the server answers with serial 0,
   journals the SOA row with serial 0, and recovery returns exactly that zone *)
Theorem C14_serial_across_wrap :
  let init := init_ex 4294967295 in
  let m := mkMsg true [] [mkRR [3; 2; 1] cIN 60 tA (DGen 2)] in
  forall ovf, snd (update ovf o_ex (build init) m) = Rc NoError /\
    serial o_ex (final ovf o_ex (build init) [m]) = 0 /\
    recover o_ex (journal ovf o_ex init [m]) = Some (final ovf o_ex (build init) [m]).
Proof.
  cbv zeta. intros ovf. split; [destruct ovf; vm_compute; reflexivity|].
  split; [destruct ovf; vm_compute; reflexivity|].
  apply C14_recover_at_boundary_guarded; [apply init_ex_ok..|reflexivity].
Qed.
Print Assumptions C14_serial_across_wrap.

(* non-vacuity of the hypotheses *)
Example C14_ex_guard :
  let ms := [m_ex; mkMsg true [mkRR [9; 2; 1] cANY 0 tANY DNone] [mkRR [3; 2; 1] cIN 60 tA (DGen 3)];
             mkMsg true [] [mkRR [3; 2; 1] cIN 60 16 (DGen 1)]] in
  dump_ok (init_ex 10) /\ WF o_ex (build (init_ex 10)) /\ good_run o_ex ms = true /\
  length (journal true o_ex (init_ex 10) ms) = 9%nat /\
  map (fun x => snd (fst x)) (run_j true o_ex (build (init_ex 10)) ms) = [Rc NoError; Rc NXDomain; Rc NoError].
Proof.
  cbv zeta. split; [apply init_ex_ok|]. split; [apply init_ex_ok|]. repeat split; vm_compute; reflexivity.
Qed.

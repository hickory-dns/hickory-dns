(* C17 — proofs about the combined poll_next machine (Combined.v).  The send loop keeps
   [total] (accepted so far ++ still owed) and leaves the read side alone; the receive loop
   keeps [yields] of ReadProofs.v. *)
From HV Require Import Lib.Base Lib.ListX C17.Model C17.ReadProofs C17.WriteProofs C17.Combined.
Open Scope N_scope.

(* a send state holds a write in progress, never [WIdle] *)
Definition wfs (sn : option sstate) : Prop :=
  match sn with Some (SW st) => wfw st /\ st <> WIdle | _ => True end.

(* everything accepted so far + everything still owed, in order *)
Definition total (c : cst) : list byte :=
  c_out c ++ pending (c_snd c) ++ streamw (goodq (c_q c)).

Lemma goodq_app a b : goodq (a ++ b) = goodq a ++ goodq b.
Proof.
  induction a as [|[[|] m] a IH]; cbn [app goodq]; [reflexivity| |exact IH].
  now rewrite IH.
Qed.

Lemma sadvance_spec st w :
  wfw st -> st <> WIdle -> (w <= length (woffered st))%nat ->
  pending (Some (sadvance st w)) = skipn w (woffered st) /\ wfs (Some (sadvance st w)).
Proof.
  intros Hw Hn Hle. unfold sadvance.
  destruct (wadvance_spec st w [] Hw Hn Hle) as [(st' & -> & Hn' & Hw' & Ho)|[-> ->]]; cbn [fst].
  - destruct st'; [contradiction|..]; (split; [exact Ho|exact (conj Hw' Hn')]).
  - rewrite skipn_all. split; [reflexivity|exact I].
Qed.

(* what the send loop may do to a state: nothing on the read side; a send side that is well
   formed stays so and loses or reorders no byte *)
Definition keeps (c c' : cst) : Prop :=
  c_rd c' = c_rd c /\ c_rs c' = c_rs c /\
  (wfs (c_snd c) -> wfs (c_snd c') /\ total c' = total c).

Lemma keeps_refl c : keeps c c.
Proof. repeat split; assumption. Qed.

Lemma keeps_trans a b c : keeps a b -> keeps b c -> keeps a c.
Proof.
  intros (R1 & S1 & W1) (R2 & S2 & W2). split; [congruence|split; [congruence|]].
  intros H. destruct (W1 H) as [H1 T1]. destruct (W2 H1) as [H2 T2]. split; congruence.
Qed.

(* One iteration of the send loop looks at one thing, by send state:
     writing    the next write result    none, Pending, error: returns     accepted: goes round
     flushing   the next flush result    none, Pending, error: returns     Ok: goes round
     idle       the head of the queue    none, not for the peer: returns   for the peer: goes round
   Which of the two does not depend on the fuel, and going round uses up what was looked at. *)
Lemma csend_step c : exists c', keeps c c' /\
  ((exists r, forall f, csend (S f) c = (r, c')) \/
   (send_fuel c' < send_fuel c)%nat /\ forall f, csend (S f) c = csend f c').
Proof.
  destruct c as [[[st|]|] rd q ws fs rs out];
    [destruct ws as [|[|n|] ws']|destruct fs as [|[| |] fs']|destruct q as [|[[|] m] q']];
    eexists.
  (* returns or goes round, and the state after it: read off [csend] in each of the eleven *)
  all: split; [|first [left; eexists; intros f; reflexivity
                      |right; split; [|intros f; reflexivity];
                       unfold send_fuel; cbn [c_q c_ws c_fs length]; lia]].
  (* [keeps]: by computation, except for an accepted write and a pop *)
  all: split; [reflexivity|split; [reflexivity|intros H]]; try (split; [exact H|reflexivity]).
  - (* write *) destruct H as [Hw Hn].
    destruct (sadvance_spec st _ Hw Hn (Nat.le_min_r n (length (woffered st)))) as [HP HW].
    split; [exact HW|]. unfold total. cbn [c_out c_snd c_q]. rewrite HP.
    apply app_firstn_skipn.
  - (* pop *) split; [cbn; split; [lia|discriminate]|].
    unfold total, streamw, framew. cbn [c_out c_snd c_q pending woffered skipn goodq map concat].
    now rewrite <- !app_assoc.
Qed.

Lemma csend_keeps fuel : forall c, keeps c (snd (csend fuel c)).
Proof.
  induction fuel as [|fuel IH]; intros c; [apply keeps_refl|].
  destruct (csend_step c) as (c' & K & [[r E]|[_ E]]); rewrite E; [exact K|].
  exact (keeps_trans _ _ _ K (IH c')).
Qed.

Lemma cpoll_spec c : let (r, c') := cpoll c in
  (wfs (c_snd c) -> wfs (c_snd c') /\ total c' = total c) /\
  ((r = PPending \/ exists e, r = PSendErr e) /\ c_rd c' = c_rd c /\ c_rs c' = c_rs c \/
   rpoll (S (rsize (c_rs c))) (c_rd c) (c_rs c) = (r, c_rd c', c_rs c')).
Proof.
  unfold cpoll. destruct (csend_keeps (send_fuel c) c) as (HR & HS & HI).
  destruct (csend (send_fuel c) c) as [[| |e] c1]; cbn [snd] in *.
  - rewrite HR, HS. destruct (rpoll _ _ _) as [[r rd'] rs']. split; [exact HI|right; reflexivity].
  - split; [exact HI|left; auto].
  - split; [exact HI|left; eauto].
Qed.

Lemma enq_total c b : total (enq c b) = total c ++ streamw (goodq b).
Proof.
  unfold total, enq. cbn [c_out c_snd c_q]. rewrite goodq_app, streamw_app.
  now rewrite <- !app_assoc.
Qed.

Lemma crun_total : forall arr c, wfs (c_snd c) ->
  exists rest, total c ++ streamw (goodq (concat arr)) = total (snd (crun arr c)) ++ rest.
Proof.
  induction arr as [|b arr IH]; intros c Hw; cbn [crun concat].
  - exists []. reflexivity.
  - pose proof (cpoll_spec (enq c b)) as HC. destruct (cpoll (enq c b)) as [r c1].
    destruct (proj1 HC Hw) as [HW HT]. rewrite enq_total in HT.
    rewrite goodq_app, streamw_app, app_assoc, <- HT.
    destruct (IH _ HW) as [rest E].
    destruct r as [|e|m|i fn]; cbn [snd] in *;
      [|destruct (crun arr c1) as [[is f] c2]..|]; eauto.
Qed.

(* the read side after a poll that returned [r], when the reference made [res] of the read
   side before it *)
Definition pyields (res : list item * fin) (r : pres) (st' : rstate) (s' : list rev) : Prop :=
  match r with
  | PPending | PSendErr _ => yields st' s' res
  | PMsg m => exists is fn, res = (Msg m :: is, fn) /\ yields st' s' (is, fn)
  | PFin i fn => res = (i, fn) /\ fn <> Starved
  end.

Lemma rpoll_yields fuel : forall st s res, yields st s res ->
  let '(r, st', s') := rpoll fuel st s in pyields res r st' s'.
Proof.
  induction fuel as [|fuel IH]; intros st s res Hy; cbn [rpoll]; [exact Hy|].
  pose proof Hy as (s0 & _ & _ & Hw & _).
  pose proof (rstep_yields st s res Hy) as HS. pose proof (rstep_wf st s Hw) as HZ.
  destruct (rstep st s) as [|s1|i fn|st' s1|m s1];
    [contradiction|exact HS|split; assumption|exact (IH _ _ _ HS)|exact HS].
Qed.

Lemma cpoll_yields c res : yields (c_rd c) (c_rs c) res ->
  let (r, c') := cpoll c in pyields res r (c_rd c') (c_rs c').
Proof.
  intros Hy. pose proof (cpoll_spec c) as HC. destruct (cpoll c) as [r c'].
  destruct HC as [_ [([->|[e ->]] & -> & ->)|E]]; [exact Hy|exact Hy|].
  pose proof (rpoll_yields (S (rsize (c_rs c))) _ _ _ Hy) as HP. rewrite E in HP. exact HP.
Qed.

(* where a run stopped, seen from the read side *)
Definition rtail (f : cfin) (c' : cst) (tl : list item) (fn : fin) : Prop :=
  match f with
  | CClean => tl = [] /\ fn = Clean
  | CFailed => tl = [] /\ fn = Failed
  | CMore => yields (c_rd c') (c_rs c') (tl, fn)
  end.

Lemma ritems_map_CRd i : ritems (map CRd i) = i.
Proof. induction i as [|x i IH]; cbn [map ritems]; [reflexivity|now rewrite IH]. Qed.

Lemma crun_yields : forall arr c res, yields (c_rd c) (c_rs c) res ->
  let '(is, f, c') := crun arr c in
  exists tl fn, res = (ritems is ++ tl, fn) /\ rtail f c' tl fn.
Proof.
  induction arr as [|b arr IH]; intros c [tl fn] Hy; cbn [crun].
  - exists tl, fn. split; [reflexivity|exact Hy].
  - pose proof (cpoll_yields (enq c b) _ Hy) as HP.
    destruct (cpoll (enq c b)) as [[|e|m|i fn'] c1].
    + exact (IH c1 _ HP).
    + specialize (IH c1 _ HP). destruct (crun arr c1) as [[is f] c2]. exact IH.
    + destruct HP as (is0 & fn0 & E & HP). specialize (IH c1 _ HP).
      destruct (crun arr c1) as [[is f] c2]. destruct IH as (tl' & fn' & E' & HT).
      exists tl', fn'. split; [|exact HT]. rewrite E. injection E' as -> ->. reflexivity.
    + destruct HP as [-> HN]. exists [], fn'. rewrite app_nil_r, ritems_map_CRd.
      split; [reflexivity|]. now destruct fn'.
Qed.

Lemma csend_fuel : forall f1 f2 c, (send_fuel c <= f1)%nat -> (send_fuel c <= f2)%nat ->
  csend f1 c = csend f2 c.
Proof.
  induction f1 as [|f1 IH]; intros [|f2] c H1 H2; try (unfold send_fuel in *; lia).
  destruct (csend_step c) as (c' & _ & [[r E]|[L E]]); rewrite !E; [reflexivity|apply IH; lia].
Qed.

Lemma rsize_app_eof s : rsize (s ++ [REof]) = S (rsize s).
Proof.
  induction s as [|e s IH]; [reflexivity|]. destruct e; cbn [app rsize]; rewrite IH; lia.
Qed.

Lemma rpoll_fuel : forall f1 f2 st s, wf_r st -> (rsize s < f1)%nat -> (rsize s < f2)%nat ->
  rpoll f1 st s = rpoll f2 st s.
Proof.
  induction f1 as [|f1 IH]; intros f2 st s Hw Hf1 Hf2; [lia|]. destruct f2 as [|f2]; [lia|].
  cbn [rpoll]. pose proof (rstep_wf st s Hw) as HZ.
  destruct (rstep st s) as [|s1|i fn|st' s1|m s1]; try reflexivity.
  apply IH; [tauto|lia|lia].
Qed.

Lemma rpoll_wf : forall f st s, wf_r st -> wf_r (snd (fst (rpoll f st s))).
Proof.
  induction f as [|f IH]; intros st s Hw; cbn [rpoll]; [exact Hw|].
  pose proof (rstep_wf st s Hw) as HZ.
  destruct (rstep st s) as [|s1|i fn|st' s1|m s1]; cbn [fst snd]; try exact Hw.
  - apply IH, HZ.
  - cbn. lia.
Qed.

Lemma cpoll_wf c : wf_r (c_rd c) -> wf_r (c_rd (snd (cpoll c))).
Proof.
  intros Hw. pose proof (cpoll_spec c) as HC. destruct (cpoll c) as [r c']. cbn [snd].
  destruct HC as [_ [(_ & -> & _)|E]]; [exact Hw|].
  pose proof (rpoll_wf (S (rsize (c_rs c))) _ (c_rs c) Hw) as HP. rewrite E in HP. exact HP.
Qed.

(* C17 — TimeoutStream: every run [passes] the inner items; [tinv] keeps a timeout away. *)
From HV Require Import Lib.Base C17.Timeout.
Open Scope N_scope.

(* [r] delivers a prefix of [items], then at most one timeout error, last; all of [items]
   unless it timed out *)
Definition passes (items : list titem) (r : list titem * tfin) : Prop :=
  exists pre post, items = pre ++ post /\
    fst r = pre ++ (match snd r with TTimedOut => [TTimeout] | _ => [] end) /\
    (snd r <> TTimedOut -> post = []).

Lemma passes_timeout items : passes items ([TTimeout], TTimedOut).
Proof. exists [], items. now repeat split. Qed.

Lemma passes_cons x items r :
  passes items r -> passes (x :: items) (let (is, f) := r in (x :: is, f)).
Proof.
  destruct r as [is f]. intros (pre & post & -> & E & H). cbn [fst snd] in *.
  exists (x :: pre), post. rewrite E. now repeat split.
Qed.

Lemma trun_prefix d : forall s now tm, passes (inner_items s) (trun d now tm s).
Proof.
  induction s as [|[dt e] s IH]; intros now tm; cbn [trun inner_items];
    [now exists [], []|].
  destruct e as [|ok id|].
  - destruct (match tm with None => arm d (now + dt) | Some _ => tm end) as [dl|];
      [destruct (dl <=? now + dt)|]; auto using passes_timeout.
  - destruct (arm d (now + dt)) as [dl|]; [destruct (dl <=? now + dt)|];
      auto using passes_timeout, passes_cons.
  - destruct (arm d (now + dt)) as [dl|]; [destruct (dl <=? now + dt)|];
      try apply passes_timeout; now exists [], [].
Qed.

Lemma arm_pos d now : 0 < d -> arm d now = Some (now + d).
Proof. intros H. unfold arm. now apply N.ltb_lt in H; rewrite H. Qed.

(* the "timeout fired immediately!" branch is dead when d > 0 *)
Lemma fresh_timer d now : 0 < d -> (now + d <=? now) = false.
Proof. intros H. apply N.leb_gt. lia. Qed.

(* armed-state invariant: deadline = arming time + d, acc = time since arming *)
Definition tinv (d now : N) (tm : option N) (acc : option N) : Prop :=
  match tm, acc with
  | None, None => True
  | Some dl, Some a => dl + a = now + d
  | _, _ => False
  end.

Lemma trun_quiet d : 0 < d -> forall s now tm acc,
  tinv d now tm acc -> gaps_lt d acc s -> snd (trun d now tm s) <> TTimedOut.
Proof.
  intros Hd. induction s as [|[dt e] s IH]; intros now tm acc Hi Hg; [cbn; discriminate|].
  cbn [trun gaps_lt] in *.
  set (now' := now + dt) in *.
  set (acc' := match acc with None => 0 | Some a => a + dt end) in *.
  assert (Hi' : tinv d now' (match tm with None => arm d now' | Some _ => tm end) (Some acc')).
  { destruct tm as [dl|], acc as [a|]; cbn [tinv] in Hi; try contradiction.
    - cbn [tinv]. unfold acc', now'. lia.
    - rewrite arm_pos by exact Hd. cbn [tinv]. unfold acc'. lia. }
  destruct e as [|ok id|].
  - destruct Hg as [Hlt Hg].
    destruct (match tm with None => arm d now' | Some _ => tm end) as [dl|]; [|contradiction].
    cbn [tinv] in Hi'.
    destruct (N.leb_spec dl now') as [Hle|Hgt]; [lia|].
    apply (IH now' (Some dl) (Some acc')); [exact Hi'|exact Hg].
  - rewrite arm_pos, fresh_timer by exact Hd.
    pose proof (IH now' (Some (now' + d)) (Some 0) (N.add_0_r _) Hg) as HR.
    destruct (trun d now' (Some (now' + d)) s) as [is f]. exact HR.
  - rewrite arm_pos, fresh_timer by exact Hd. cbn. discriminate.
Qed.

Lemma trun_zero : forall s now, snd (trun 0 now None s) <> TTimedOut.
Proof.
  induction s as [|[dt e] s IH]; intros now; [cbn; discriminate|].
  cbn [trun]. change (arm 0 (now + dt)) with (@None N).
  destruct e as [|ok id|].
  - apply IH.
  - pose proof (IH (now + dt)) as HR. destruct (trun 0 (now + dt) None s) as [is f]. exact HR.
  - cbn. discriminate.
Qed.

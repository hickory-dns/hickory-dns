(* C17 — proofs for the receive machine: the result of any chunked, delayed delivery
   depends only on the concatenated payload.  Everything is said about one socket call
   ([rstep], defined in Combined.v); [rrun] and the receive loop of the combined machine
   iterate it. *)
From HV Require Import Lib.Base Lib.ListX C17.Model C17.Combined.
Open Scope N_scope.

Lemma deframe_fuel : forall f1 f2 p, (length p < f1)%nat -> (length p < f2)%nat ->
  deframe f1 p = deframe f2 p.
Proof.
  induction f1 as [|f1 IH]; intros f2 p H1 H2; [lia|].
  destruct f2 as [|f2]; [lia|].
  destruct p as [|hi [|lo body]]; cbn [deframe]; try reflexivity.
  destruct (be16 hi lo =? 0)%nat; [reflexivity|].
  destruct (length body <? be16 hi lo)%nat; [reflexivity|].
  rewrite (IH f2 (skipn (be16 hi lo) body)); [reflexivity| |];
    rewrite skipn_length; cbn [length] in *; lia.
Qed.

Lemma deframe_S_cons2 f hi lo body :
  deframe (S f) (hi :: lo :: body) =
    let len := be16 hi lo in
    if (len =? 0)%nat then ([ErrClosedBody], Failed)
    else if (length body <? len)%nat then ([ErrClosedBody], Failed)
    else let (is, f) := deframe f (skipn len body) in (Msg (firstn len body) :: is, f).
Proof. reflexivity. Qed.

(* what a machine in state [st] makes of remaining payload [p] followed by EOF *)
Definition resume (st : rstate) (p : list byte) : list item * fin :=
  match st with
  | RLen got => denote (got ++ p)
  | RBody len got =>
      let all := got ++ p in
      if ((len =? 0) || (length all <? len))%nat then ([ErrClosedBody], Failed)
      else let (is, f) := denote (skipn len all) in (Msg (firstn len all) :: is, f)
  end.

Lemma resume_len_app got r p : resume (RLen got) (r ++ p) = resume (RLen (got ++ r)) p.
Proof. cbn [resume]. now rewrite app_assoc. Qed.

Lemma resume_body_app len got r p :
  resume (RBody len got) (r ++ p) = resume (RBody len (got ++ r)) p.
Proof. cbn [resume]. now rewrite app_assoc. Qed.

Lemma resume_body_short len got p : (len = 0 \/ length (got ++ p) < len)%nat ->
  resume (RBody len got) p = ([ErrClosedBody], Failed).
Proof.
  intros H. cbn [resume]. destruct (Nat.eqb_spec len 0); [reflexivity|].
  destruct (Nat.ltb_spec (length (got ++ p)) len); [reflexivity|lia].
Qed.

Lemma resume_body_full len got p : len <> O -> length got = len ->
  resume (RBody len got) p = let (is, f) := denote p in (Msg got :: is, f).
Proof.
  intros Hn <-. cbn [resume]. destruct (Nat.eqb_spec (length got) 0); [contradiction|].
  destruct (Nat.ltb_spec (length (got ++ p)) (length got)) as [H|_];
    [rewrite app_length in H; lia|].
  cbn [orb]. rewrite skipn_app_le, firstn_app_le, skipn_all, firstn_all by lia. reflexivity.
Qed.

(* the second case of RBody is the state right after a zero-length prefix *)
Definition wf_r (st : rstate) : Prop :=
  match st with
  | RLen got => (length got < 2)%nat
  | RBody len got => (length got < len)%nat \/ (len = O /\ got = [])
  end.

Lemma resume_nil st : wf_r st -> resume st [] = eof_item st.
Proof.
  destruct st as [[|x [|y got]]|len got]; cbn [wf_r length]; intros Hw;
    try reflexivity; [lia|].
  apply resume_body_short. rewrite app_nil_r. lia.
Qed.

Lemma denote_cons2 hi lo body : denote (hi :: lo :: body) = resume (RBody (be16 hi lo) []) body.
Proof.
  unfold denote at 1. rewrite deframe_S_cons2. cbn [resume app]. cbv zeta.
  destruct (be16 hi lo =? 0)%nat; [reflexivity|].
  destruct (length body <? be16 hi lo)%nat; [reflexivity|].
  unfold denote. cbn [orb].
  rewrite (deframe_fuel _ (S (length (skipn (be16 hi lo) body)))); [reflexivity| |lia].
  rewrite skipn_length. cbn [length]. lia.
Qed.

(* room left in the buffer offered to poll_read; this and [pushback] name what [rstep] and
   [rrun] write out inline *)
Definition cap (st : rstate) : nat :=
  match st with RLen got => 2 - length got | RBody len got => len - length got end.

(* the scripted socket keeps what did not fit for the next call *)
Definition pushback (rest : list byte) (s : list rev) : list rev :=
  match rest with [] => s | _ => RData rest :: s end.

Lemma wf_cap st : wf_r st -> cap st <> O \/ st = RBody 0 [].
Proof.
  destruct st as [got|len got]; cbn [wf_r cap]; [intros; left; lia|].
  intros [H|[-> ->]]; [left; lia|right; reflexivity].
Qed.

Lemma pushback_payload c l s :
  firstn c l ++ payload (pushback (skipn c l) s) = l ++ payload s.
Proof.
  replace (payload (pushback (skipn c l) s)) with (skipn c l ++ payload s)
    by now destruct (skipn c l).
  now rewrite app_assoc, firstn_skipn.
Qed.

Lemma pushback_good rest s : good_script s -> good_script (pushback rest s).
Proof. intros H. destruct rest; [exact H|]. now constructor. Qed.

Lemma pushback_app rest s t : pushback rest (s ++ t) = pushback rest s ++ t.
Proof. now destruct rest. Qed.

Lemma pushback_size c b ch s : c <> O ->
  (rsize (pushback (skipn c (b :: ch)) s) < rsize (RData (b :: ch) :: s))%nat.
Proof.
  intros Hc. pose proof (skipn_length c (b :: ch)) as HL. cbn [rsize length] in *.
  destruct (skipn c (b :: ch)); cbn [pushback rsize length] in *; lia.
Qed.

Lemma rstep_data st b ch s : cap st <> O ->
  let r := firstn (cap st) (b :: ch) in
  let s1 := pushback (skipn (cap st) (b :: ch)) s in
  (exists st', rstep st (RData (b :: ch) :: s) = RSCont st' s1 /\ wf_r st' /\
     forall p, resume st (r ++ p) = resume st' p) \/
  (exists m, rstep st (RData (b :: ch) :: s) = RSMsg m s1 /\
     forall p, resume st (r ++ p) = let (is, f) := denote p in (Msg m :: is, f)).
Proof.
  intros Hc. cbv zeta.
  assert (Hr : (1 <= length (firstn (cap st) (b :: ch)) <= cap st)%nat)
    by (rewrite firstn_length; cbn [length]; lia).
  destruct st as [got|len got]; cbn [cap rstep] in *.
  - left. set (r := firstn (2 - length got) (b :: ch)) in *. clearbody r.
    destruct (Nat.ltb_spec (length (got ++ r)) 2) as [Hlt|Hge];
      eexists; (split; [reflexivity|]).
    + split; [exact Hlt|]. intros p. apply resume_len_app.
    + rewrite app_length in Hge.
      assert (Hlen : length (got ++ r) = 2%nat) by (rewrite app_length; lia).
      destruct (got ++ r) as [|hi [|lo [|z t]]] eqn:E; cbn [length] in Hlen; try lia.
      cbn [nth]. split.
      * cbn [wf_r length]. destruct (be16 hi lo); [right; split; reflexivity|left; lia].
      * intros p. rewrite resume_len_app, E. apply denote_cons2.
  - destruct (len - length got)%nat as [|c] eqn:Ec; [lia|].
    set (r := firstn (S c) (b :: ch)) in *. clearbody r.
    destruct (Nat.ltb_spec (length (got ++ r)) len) as [Hlt|Hge]; [left|right];
      eexists; (split; [reflexivity|]).
    + split; [left; exact Hlt|]. intros p. apply resume_body_app.
    + intros p. rewrite resume_body_app. apply resume_body_full; [lia|].
      rewrite app_length in *. lia.
Qed.

Lemma rstep_wf st s : wf_r st ->
  match rstep st s with
  | RSStarve => True
  | RSFin _ fn => fn <> Starved
  | RSPend s1 | RSMsg _ s1 => (rsize s1 < rsize s)%nat
  | RSCont st' s1 => wf_r st' /\ (rsize s1 < rsize s)%nat
  end.
Proof.
  intros Hw. destruct s as [|[|[|b ch]| |] s].
  - exact I.
  - cbn [rstep rsize]. lia.
  - destruct st as [[|]|]; cbn; discriminate.
  - destruct (wf_cap st Hw) as [Hc| ->]; [|cbn; discriminate].
    pose proof (pushback_size (cap st) b ch s Hc) as HS.
    destruct (rstep_data st b ch s Hc) as [(st' & -> & Hw' & _)|(m & -> & _)];
      [split; assumption|exact HS].
  - destruct st as [[|]|]; cbn; discriminate.
  - discriminate.
Qed.

(* [yields st s res]: a well-formed state in front of a script that only chunks and delays
   and then closes, of which the reference makes [res] *)
Definition yields (st : rstate) (s : list rev) (res : list item * fin) : Prop :=
  exists s0, s = s0 ++ [REof] /\ good_script s0 /\ wf_r st /\ resume st (payload s0) = res.

Lemma yields_intro st s :
  wf_r st -> good_script s -> yields st (s ++ [REof]) (resume st (payload s)).
Proof. intros Hw Hg. exists s. auto. Qed.

Lemma yields_init s : good_script s -> yields rinit (s ++ [REof]) (denote (payload s)).
Proof. apply (yields_intro rinit). cbn. lia. Qed.

Lemma rstep_yields st s res : yields st s res ->
  match rstep st s with
  | RSStarve => False
  | RSPend s1 => yields st s1 res
  | RSFin i fn => res = (i, fn)
  | RSCont st' s1 => yields st' s1 res
  | RSMsg m s1 => exists is fn, res = (Msg m :: is, fn) /\ yields rinit s1 (is, fn)
  end.
Proof.
  intros (s0 & -> & Hg & Hw & <-). destruct Hg as [|e s0 He Hg]; cbn [app].
  - cbn [rstep payload]. rewrite (resume_nil st Hw). destruct (eof_item st); reflexivity.
  - destruct e as [|[|b ch]| |]; try contradiction; cbn [payload].
    + exact (yields_intro st s0 Hw Hg).
    + destruct (wf_cap st Hw) as [Hc| ->]; [|reflexivity].
      rewrite <- (pushback_payload (cap st)).
      pose proof (pushback_good (skipn (cap st) (b :: ch)) s0 Hg) as Hg1.
      destruct (rstep_data st b ch (s0 ++ [REof]) Hc) as [(st' & -> & Hw' & HE)|(m & -> & HE)];
        rewrite HE, pushback_app.
      * exact (yields_intro st' _ Hw' Hg1).
      * destruct (denote _) as [is fn] eqn:E. exists is, fn. split; [reflexivity|].
        rewrite <- E. exact (yields_init _ Hg1).
Qed.

Lemma rrun_rstep f st s :
  rrun (S f) st s =
    match rstep st s with
    | RSStarve => ([], Starved)
    | RSPend s' => rrun f st s'
    | RSFin i fn => (i, fn)
    | RSCont st' s' => rrun f st' s'
    | RSMsg m s' => let (is, fn) := rrun f rinit s' in (Msg m :: is, fn)
    end.
Proof.
  destruct s as [|[|[|b ch]| |] s']; cbn [rrun rstep]; try reflexivity.
  - destruct (eof_item st); reflexivity.
  - destruct st as [got|len got]; [|destruct (len - length got)%nat; [reflexivity|]];
      destruct (_ <? _)%nat; reflexivity.
  - destruct (eof_item st); reflexivity.
Qed.

Lemma rrun_yields : forall fuel st s res,
  yields st s res -> (rsize s < fuel)%nat -> rrun fuel st s = res.
Proof.
  induction fuel as [|fuel IH]; intros st s res Hy Hf; [lia|]. rewrite rrun_rstep.
  pose proof Hy as (s0 & _ & _ & Hw & _).
  pose proof (rstep_yields st s res Hy) as HS. pose proof (rstep_wf st s Hw) as HZ.
  destruct (rstep st s) as [|s1|i fn|st' s1|m s1].
  - contradiction.
  - apply IH; [exact HS|lia].
  - symmetry. exact HS.
  - apply IH; [exact HS|lia].
  - destruct HS as (is & fn & -> & HS). rewrite (IH _ _ _ HS) by lia. reflexivity.
Qed.

Lemma read_run_denote s : good_script s -> read_run (s ++ [REof]) = denote (payload s).
Proof. intros Hg. apply rrun_yields; [exact (yields_init s Hg)|lia]. Qed.

Lemma frame_len m : length (frame m) = S (S (length m)).
Proof. reflexivity. Qed.

Lemma be16_frame (m : list byte) :
  be16 (N.of_nat (length m) / 256) (N.of_nat (length m) mod 256) = length m.
Proof. unfold be16. rewrite N.mul_comm, <- N.div_mod by discriminate. apply Nat2N.id. Qed.

Lemma denote_frame_app m rest : ok_msg m ->
  denote (frame m ++ rest) = let (is, f) := denote rest in (Msg m :: is, f).
Proof.
  intros [Hpos _]. unfold frame. cbn [app]. rewrite denote_cons2, be16_frame.
  rewrite resume_body_app. apply resume_body_full; [lia|reflexivity].
Qed.

Lemma denote_stream_app ms rest : Forall ok_msg ms ->
  denote (stream ms ++ rest) = let (is, f) := denote rest in (map Msg ms ++ is, f).
Proof.
  induction 1 as [|m ms Hm Hms IH]; unfold stream in *; cbn [map concat app].
  - destruct (denote rest); reflexivity.
  - rewrite <- app_assoc. rewrite denote_frame_app by exact Hm. rewrite IH.
    destruct (denote rest); reflexivity.
Qed.

Lemma denote_stream ms : Forall ok_msg ms -> denote (stream ms) = (map Msg ms, Clean).
Proof.
  intros H. rewrite <- (app_nil_r (stream ms)), denote_stream_app by exact H.
  cbn. now rewrite app_nil_r.
Qed.

Lemma denote_partial_frame m k : (0 < k < length (frame m))%nat ->
  denote (firstn k (frame m)) =
    ([if (k <? 2)%nat then ErrClosedLen else ErrClosedBody], Failed).
Proof.
  intros Hk. rewrite frame_len in Hk. unfold frame.
  destruct k as [|[|k]]; [lia|reflexivity|].
  cbn [firstn]. rewrite denote_cons2, be16_frame.
  apply resume_body_short. cbn [app]. rewrite firstn_length. lia.
Qed.

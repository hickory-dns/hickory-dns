(* C17 — proofs for the send machine: whatever the socket accepts per call, the bytes
   handed to it are a prefix of the concatenated length-prefixed frames, and all of it
   once the machine is done. *)
From HV Require Import Lib.Base Lib.ListX C17.Model.
Open Scope N_scope.

(* the frame as the code writes it: the prefix is `len as u16`, whatever the length *)
Definition framew (m : list byte) : list byte := len_prefix m ++ m.
Definition streamw (ms : list (list byte)) : list byte := concat (map framew ms).

(* the position is inside the buffer being written *)
Definition wfw (st : wstate) : Prop :=
  match st with
  | WIdle => True
  | WLen pos len2 bytes => (pos < length len2)%nat
  | WBytes pos bytes => (pos < length bytes)%nat
  end.

Definition remaining (st : wstate) (q : list (list byte)) : list byte :=
  woffered st ++ streamw q.

Lemma app_firstn_skipn {A} (a l b : list A) w :
  (a ++ firstn w l) ++ skipn w l ++ b = a ++ l ++ b.
Proof. now rewrite <- app_assoc, (app_assoc (firstn w l)), firstn_skipn. Qed.

Lemma wstart_remaining q :
  let '(st, q') := wstart q in remaining st q' = streamw q /\ wfw st /\ (st = WIdle -> q' = []).
Proof.
  destruct q as [|m q]; cbn [wstart].
  - repeat split.
  - unfold remaining, streamw, framew. cbn [woffered skipn map concat wfw].
    repeat split; [cbn; lia|discriminate].
Qed.

Lemma woffered_nonempty st : wfw st -> st <> WIdle -> (1 <= length (woffered st))%nat.
Proof.
  destruct st as [|pos len2 bytes|pos bytes]; cbn [wfw woffered]; intros H Hn.
  - congruence.
  - rewrite app_length, skipn_length. lia.
  - rewrite skipn_length. lia.
Qed.

Lemma wadvance_spec st w q : wfw st -> st <> WIdle -> (w <= length (woffered st))%nat ->
  (exists st', wadvance st w q = (st', q) /\ st' <> WIdle /\ wfw st' /\
               woffered st' = skipn w (woffered st)) \/
  (w = length (woffered st) /\ wadvance st w q = wstart q).
Proof.
  destruct st as [|pos len2 bytes|pos bytes]; cbn [wfw woffered wadvance]; intros Hw Hn Hle.
  - congruence.
  - rewrite app_length, skipn_length in *.
    destruct (Nat.ltb_spec (pos + w) (length len2)) as [Hin|Hout].
    + left. eexists. repeat split; [discriminate|exact Hin|]. cbn [woffered].
      rewrite skipn_app_le by (rewrite skipn_length; lia).
      rewrite skipn_skipn_add. reflexivity.
    + destruct (Nat.ltb_spec (pos + w) (length len2 + length bytes)) as [Hbody|Hall].
      * left. eexists. repeat split; [discriminate|cbn [wfw]; lia|]. cbn [woffered].
        rewrite skipn_app. rewrite (skipn_all2 (skipn pos len2)) by (rewrite skipn_length; lia).
        rewrite skipn_length. cbn [app]. f_equal. lia.
      * right. split; [lia|reflexivity].
  - rewrite skipn_length in *.
    destruct (Nat.ltb_spec (pos + w) (length bytes)) as [Hin|Hout].
    + left. eexists. repeat split; [discriminate|exact Hin|]. cbn [woffered].
      rewrite skipn_skipn_add. reflexivity.
    + right. split; [lia|reflexivity].
Qed.

Lemma wadvance_remaining st w q :
  wfw st -> st <> WIdle -> (w <= length (woffered st))%nat ->
  let '(st', q') := wadvance st w q in
  remaining st' q' = skipn w (woffered st) ++ streamw q /\ wfw st' /\ (st' = WIdle -> q' = []).
Proof.
  intros Hw Hn Hle.
  destruct (wadvance_spec st w q Hw Hn Hle) as [(st' & -> & Hn' & Hw' & Ho)|[-> ->]].
  - unfold remaining. rewrite Ho. repeat split; [exact Hw'|contradiction].
  - rewrite skipn_all. exact (wstart_remaining q).
Qed.

Lemma wrun_idle s q acc : wrun s WIdle q acc = (acc, WDone).
Proof. destruct s; reflexivity. Qed.
Lemma wrun_nil st q acc : st <> WIdle -> wrun [] st q acc = (acc, WStarved).
Proof. destruct st; [congruence|reflexivity|reflexivity]. Qed.
Lemma wrun_cons e s st q acc : st <> WIdle ->
  wrun (e :: s) st q acc =
    match e with
    | WPend => wrun s st q acc
    | WErr => (acc, WFailed)
    | WAcc n =>
        let '(st', q') := wadvance st (Nat.min n (length (woffered st))) q in
        wrun s st' q' (acc ++ firstn (Nat.min n (length (woffered st))) (woffered st))
    end.
Proof. destruct st; [congruence|reflexivity|reflexivity]. Qed.

Lemma widle_dec st : {st = WIdle} + {st <> WIdle}.
Proof. destruct st; [left; reflexivity|right; discriminate|right; discriminate]. Qed.

Lemma wrun_spec : forall s st q acc, wfw st -> (st = WIdle -> q = []) ->
  (exists rest, acc ++ remaining st q = fst (wrun s st q acc) ++ rest /\
                (snd (wrun s st q acc) = WDone -> rest = [])) /\
  (wgood s -> (length (remaining st q) <= waccs s)%nat ->
   wrun s st q acc = (acc ++ remaining st q, WDone)).
Proof.
  induction s as [|e s IH]; intros st q acc Hw Hq; destruct (widle_dec st) as [->|Hn].
  (* idle: done whatever the script, and nothing is owed *)
  1, 3: rewrite wrun_idle, (Hq eq_refl); change (remaining WIdle []) with (@nil byte);
    rewrite app_nil_r; (split; [exists []; now rewrite app_nil_r|reflexivity]).
  all: pose proof (woffered_nonempty _ Hw Hn) as Hoff;
    pose proof (app_length (woffered st) (streamw q) : length (remaining st q) = _) as HR.
  - rewrite wrun_nil by exact Hn. split; [eexists; split; [reflexivity|discriminate]|].
    cbn [waccs]. lia.
  - rewrite wrun_cons by exact Hn. destruct e as [|n|].
    + destruct (IH st q acc Hw Hq) as [HP HG]. split; [exact HP|].
      intros Hg. inversion Hg; subst. now apply HG.
    + pose proof (wadvance_remaining st _ q Hw Hn (Nat.le_min_r n (length (woffered st)))) as HA.
      destruct (wadvance st _ q) as [st' q']. destruct HA as (Hrem & Hwf & Hidle).
      (* the first w bytes of what is offered move from owed to written *)
      destruct (IH st' q' (acc ++ firstn (Nat.min n (length (woffered st))) (woffered st))
                  Hwf Hidle) as [HP HG].
      rewrite Hrem, app_firstn_skipn in HP, HG. split; [exact HP|].
      (* an accepting call of a good script takes at least one byte of what is owed *)
      intros Hg Hl. inversion Hg as [|? ? He Hg']; subst. destruct n; [contradiction|].
      apply HG; [exact Hg'|]. rewrite app_length, skipn_length. cbn [waccs] in Hl. lia.
    + split; [eexists; split; [reflexivity|discriminate]|].
      intros Hg. inversion Hg; subst. contradiction.
Qed.

Lemma streamw_app a b : streamw (a ++ b) = streamw a ++ streamw b.
Proof. unfold streamw. now rewrite map_app, concat_app. Qed.

Lemma framew_ok m : ok_msg m -> framew m = frame m.
Proof.
  intros [_ Hlt]. unfold framew, len_prefix, frame.
  rewrite N.mod_small by exact Hlt. reflexivity.
Qed.

Lemma streamw_ok ms : Forall ok_msg ms -> streamw ms = stream ms.
Proof.
  induction 1 as [|m ms Hm _ IH]; [reflexivity|].
  unfold streamw, stream in *. cbn [map concat]. rewrite IH, framew_ok by exact Hm. reflexivity.
Qed.

Lemma write_run_wrun msgs s :
  exists st q, write_run msgs s = wrun s st q [] /\ remaining st q = streamw msgs /\
               wfw st /\ (st = WIdle -> q = []).
Proof.
  unfold write_run. pose proof (wstart_remaining msgs) as HS.
  destruct (wstart msgs) as [st q]. exists st, q. split; [reflexivity|exact HS].
Qed.

Lemma write_run_prefix msgs s :
  exists rest, streamw msgs = fst (write_run msgs s) ++ rest /\
               (snd (write_run msgs s) = WDone -> rest = []).
Proof.
  destruct (write_run_wrun msgs s) as (st & q & -> & <- & Hw & Hq).
  exact (proj1 (wrun_spec s st q [] Hw Hq)).
Qed.

Lemma write_run_progress msgs s :
  wgood s -> (length (streamw msgs) <= waccs s)%nat -> write_run msgs s = (streamw msgs, WDone).
Proof.
  destruct (write_run_wrun msgs s) as (st & q & -> & <- & Hw & Hq).
  exact (proj2 (wrun_spec s st q [] Hw Hq)).
Qed.
